(* Front/LexProofs.v -- layout specification and proofs for C13: the token-level printer `render`, the side
   condition `lex_safe` of X.680 clause 12, the expected token list `expect` (contents and positions); the proofs
   go through a count-free, text-level view `Rlc` of the line-structured tokenizer.  At the end: on every text the
   tokenizer returns tokens or one of its two panics (C14).
   Position rule (`adv1`): LF starts a new line at column 0; every other character, a lone CR included, advances
   the column by one. *)
From A1 Require Import Base.ListFacts Front.Lex.
From Coq Require Import ZifyBool.
Local Open Scope N_scope.
Local Arguments N.add : simpl never.
Local Arguments N.sub : simpl never.
Local Arguments Z.add : simpl never.
Local Arguments Z.sub : simpl never.

Inductive ptoken : Type := PText (s : list N) | PSep (c : N).

(* content of a block comment: characters, line ends, nested opens / closes *)
Inductive citem : Type := CChar (c : N) | CNl | CCrNl | COpen | CClose.

(* the kinds of gap items: space, tab, CR LF, LF, line comment ended by LF or CR LF, block comment (nested
   when its body has COpen/CClose), lone CR (if a LF does follow, the two read as CR LF: same text, same result),
   line comment ended by a second "--" (X.680 12.6.3) *)
Inductive gitem : Type :=
| GSpace | GTab | GCrLf | GLf
| GLine (c : list N) (crlf : bool)
| GBlock (body : list citem)
| GCr
| GLineD (c : list N).
Definition gap : Type := list gitem.

Definition render_citem (i : citem) : list N :=
  match i with
  | CChar c => [c] | CNl => [10] | CCrNl => [13; 10] | COpen => [47; 42] | CClose => [42; 47]
  end.
Definition render_body (b : list citem) : list N := flat_map render_citem b.
Definition render_gitem (i : gitem) : list N :=
  match i with
  | GSpace => [32] | GTab => [9] | GCrLf => [13; 10] | GLf => [10]
  | GLine c crlf => 45 :: 45 :: c ++ (if crlf then [13; 10] else [10])
  | GBlock b => 47 :: 42 :: render_body b ++ [42; 47]
  | GCr => [13]
  | GLineD c => 45 :: 45 :: c ++ [45; 45]
  end.
Definition render_gap (g : gap) : list N := flat_map render_gitem g.
Definition render_tok (t : ptoken) : list N := match t with PText s => s | PSep c => [c] end.

(* gs: the gap after each token *)
Fixpoint render_items (ts : list ptoken) (gs : list gap) : list N :=
  match ts, gs with
  | t :: ts', g :: gs' => render_tok t ++ render_gap g ++ render_items ts' gs'
  | _, _ => []
  end.
(* layout  g0 t1 g1 t2 g2 ... tn gn *)
Definition render (ts : list ptoken) (gs : list gap) : list N :=
  match gs with [] => [] | g0 :: gs' => render_gap g0 ++ render_items ts gs' end.

(* ---- where things are: 0-based (line, column) after reading a string ---- *)
Definition adv1 (lc : N * N) (c : N) : N * N :=
  if c =? 10 then (fst lc + 1, 0) else (fst lc, snd lc + 1).
Definition advance (lc : N * N) (s : list N) : N * N := fold_left adv1 s lc.

Fixpoint positions_items (lc : N * N) (ts : list ptoken) (gs : list gap) : list (N * N) :=
  match ts, gs with
  | t :: ts', g :: gs' =>
      (fst lc + 1, snd lc + 1)
        :: positions_items (advance (advance lc (render_tok t)) (render_gap g)) ts' gs'
  | _, _ => []
  end.
(* 1-based line and column at which each item starts in `render ts gs` *)
Definition positions (ts : list ptoken) (gs : list gap) : list (N * N) :=
  match gs with [] => [] | g0 :: gs' => positions_items (advance (0, 0) (render_gap g0)) ts gs' end.

Definition is_nil {A} (l : list A) : bool := match l with [] => true | _ => false end.

Definition text_char (c : N) : bool :=
  negb (is_control c) && negb (c =? 32) && negb (is_sep_char c).

(* no a immediately followed by b *)
Fixpoint no_pair (a b : N) (s : list N) : bool :=
  match s with
  | [] => true
  | x :: t => negb ((x =? a) && opt_eqb (hd_error t) b) && no_pair a b t
  end.

(* a text item: non-empty, made of characters that are neither white-space/control nor separators,
   contains neither "--" nor "/*", and does not end in '-' (X.680 12.3) *)
Definition text_okb (s : list N) : bool :=
  negb (is_nil s) && forallb text_char s && no_pair 45 45 s && no_pair 47 42 s
  && negb (last s 0 =? 45).

Definition tok_okb (t : ptoken) : bool :=
  match t with PText s => text_okb s | PSep c => is_sep_char c end.

(* the character that follows an item of a comment body: the first one of the next item, or the '*'
   of the "*/" that ends the comment *)
Definition first_char (i : citem) : N :=
  match i with CChar c => c | CNl => 10 | CCrNl => 13 | COpen => 47 | CClose => 42 end.
Definition next_char (b : list citem) : N :=
  match b with [] => 42 | i :: _ => first_char i end.

(* a content character: anything but LF (that is CNl); a '*' must not be directly followed by '/' and a
   '/' not by '*' (they would be the delimiters "*/" and "/*") *)
Definition cchar_ok (c next : N) : bool :=
  negb (c =? 10) && negb ((c =? 42) && (next =? 47)) && negb ((c =? 47) && (next =? 42)).

(* body of a block comment read at nesting depth d (>= 1): balanced, never closes the outer comment,
   nesting below the i32 limit of `nest_lvl` *)
Fixpoint body_ok (d : Z) (b : list citem) : bool :=
  match b with
  | [] => (d =? 1)%Z
  | CChar c :: b' => cchar_ok c (next_char b') && body_ok d b'
  | CNl :: b' => body_ok d b'
  | CCrNl :: b' => body_ok d b'
  | COpen :: b' => (d <? I32_MAX)%Z && body_ok (d + 1)%Z b'
  | CClose :: b' => (2 <=? d)%Z && body_ok (d - 1)%Z b'
  end.

Definition lchar_ok (c : N) : bool := negb (c =? 10) && negb (c =? 13).

(* content of "--" c "--": no line end, no "--" inside, and c ++ "--" has its first "--" at the end *)
Definition dcomment_ok (c : list N) : bool :=
  forallb lchar_ok c && no_pair 45 45 c && negb (last c 0 =? 45).

Definition gitem_okb (i : gitem) : bool :=
  match i with
  | GLine c _ => forallb lchar_ok c
  | GBlock b => body_ok 1 b
  | GLineD c => dcomment_ok c
  | _ => true
  end.

Definition is_cnl (i : citem) : bool := match i with CNl | CCrNl => true | _ => false end.
Definition has_nl (b : list citem) : bool := existsb is_cnl b.

(* a gap, read from left to right; dd = "a `--` c `--` comment stands earlier on the current line": the
   crate skips the rest of that line, X.680 12.6.3 does not, so only items that are invisible for both
   may follow on it (blanks, comments without a line end), and the line must end inside the gap *)
Fixpoint gap_ok (dd : bool) (g : gap) : bool :=
  match g with
  | [] => negb dd
  | i :: g' =>
      gitem_okb i &&
      match i with
      | GCrLf | GLf | GLine _ _ => gap_ok false g'
      | GLineD _ => gap_ok true g'
      | GBlock b => (negb dd || negb (has_nl b)) && gap_ok dd g'
      | GSpace | GTab | GCr => gap_ok dd g'
      end
  end.
Definition gap_okb (g : gap) : bool := gap_ok false g.

(* the X.680-faithful subclass: also a line comment ended by a line end has no "--" inside (with one
   inside, X.680 12.6.3 ends the comment there; the crate skips the whole line, see Props/C13.v) *)
Definition x680_item (i : gitem) : bool :=
  match i with GLine c _ => no_pair 45 45 c | _ => true end.
Definition x680_lines (gs : list gap) : bool := forallb (forallb x680_item) gs.
Definition is_text (t : ptoken) : bool := match t with PText _ => true | PSep _ => false end.

(* the gaps lying between two text items (gs = gap after each token) *)
Fixpoint tt_gaps (ts : list ptoken) (gs : list gap) : list gap :=
  match ts, gs with
  | t :: ts', g :: gs' =>
      (if is_text t && match ts' with t2 :: _ => is_text t2 | [] => false end then [g] else [])
        ++ tt_gaps ts' gs'
  | _, _ => []
  end.

(* X.680 12.1: one gap per boundary (plus a leading one); items well formed; two adjacent text items
   are separated by at least one white-space or comment *)
Definition lex_safeb (ts : list ptoken) (gs : list gap) : bool :=
  (length gs =? S (length ts))%nat && forallb tok_okb ts && forallb gap_okb gs
  && forallb (fun g => negb (is_nil g)) (tt_gaps ts (tl gs)).
Definition lex_safe (ts : list ptoken) (gs : list gap) : Prop := lex_safeb ts gs = true.

Definition mk_tok (lc : N * N) (t : ptoken) : token :=
  match t with
  | PText s => Text (fst lc + 1) (snd lc + 1) s
  | PSep c => Separator (fst lc + 1) (snd lc + 1) c
  end.
Fixpoint expect_items (lc : N * N) (ts : list ptoken) (gs : list gap) : list token :=
  match ts, gs with
  | t :: ts', g :: gs' =>
      mk_tok lc t :: expect_items (advance (advance lc (render_tok t)) (render_gap g)) ts' gs'
  | _, _ => []
  end.
Definition expect (ts : list ptoken) (gs : list gap) : list token :=
  match gs with [] => [] | g0 :: gs' => expect_items (advance (0, 0) (render_gap g0)) ts gs' end.

Definition strip (t : token) : ptoken :=
  match t with Text _ _ s => PText s | Separator _ _ c => PSep c end.
Definition loc (t : token) : N * N := (tok_line t, tok_column t).

Lemma emit_nil : forall r, emit [] r = r.
Proof. intros [[[p n] o]| |]; reflexivity. Qed.

Lemma emit_emit : forall a b r, emit a (emit b r) = emit (a ++ b) r.
Proof. intros a b [[[p n] o]| |]; cbn; try reflexivity. now rewrite app_assoc. Qed.

(* what lines_loop does behind a line whose loop answered r: the pending token is pushed, then the lines ls are read.
   They are all the lines that are left, which gives the line count of the last-line test *)
Definition fin (m : mode) (line : N) (r : res lstate) (ls : list (list N)) : res lstate :=
  match r with
  | Ok (p', n', out) =>
      emit (out ++ push_opt p') (lines_loop m (line + 1 + N.of_nat (length ls)) (line + 1) None n' ls)
  | Err e => Err e
  | Panic q => Panic q
  end.

Lemma fin_emit : forall m line o r ls, fin m line (emit o r) ls = emit o (fin m line r ls).
Proof.
  intros m line o [[[p n] o']| |] ls; cbn; try reflexivity.
  rewrite emit_emit. now rewrite app_assoc.
Qed.

(* Rlc ("the Rest, read from Line and Column lc"): the tokenizer positioned at 0-based (line, column) = lc in front of
   the remaining text s.  It forgets the division into lines and the line count: the scan lemmas below speak of texts *)
Definition Rlc (m : mode) (lc : N * N) (p : option token) (n : Z) (s : list N) : res lstate :=
  fin m (fst lc)
      (line_loop m (is_nil (snd (split_lines s))) (fst lc) (snd lc) p n (fst (split_lines s)))
      (snd (split_lines s)).

Definition finish (r : res lstate) : res (list token) :=
  match r with
  | Ok (p, _, out) => Ok (out ++ push_opt p)
  | Err e => Err e
  | Panic p => Panic p
  end.

Lemma lines_loop_Rlc : forall m line n t,
  lines_loop m (line + N.of_nat (length (lines_of t))) line None n (lines_of t) = Rlc m (line, 0) None n t.
Proof.
  intros m line n [|c t]; [reflexivity|]. unfold Rlc, lines_of, as_lines.
  destruct (split_lines (c :: t)) as [l ls]. cbn [lines_loop fin fst snd].
  replace (line =? _) with (is_nil ls) by (destruct ls; cbn [is_nil length]; lia).
  replace (line + N.of_nat (length (l :: ls))) with (line + 1 + N.of_nat (length ls)) by (cbn [length]; lia).
  reflexivity.
Qed.

Lemma tokenize_Rlc : forall m s, tokenize m s = finish (Rlc m (0, 0) None 0%Z s).
Proof. intros m s. exact (f_equal finish (lines_loop_Rlc m 0 0%Z s)). Qed.

Lemma split_nl : forall t, split_lines (10 :: t) = ([], lines_of t).
Proof. reflexivity. Qed.
Lemma split_crnl : forall t, split_lines (13 :: 10 :: t) = ([], lines_of t).
Proof. reflexivity. Qed.

(* a character is a LF, the CR of a CR LF, or one more character of its line *)
Lemma split_lines_cons : forall c t,
  c = 10 \/ (exists t2, c = 13 /\ t = 10 :: t2) \/
  (c <> 10 /\ (c = 13 -> hd_error t <> Some 10) /\
   split_lines (c :: t) = (c :: fst (split_lines t), snd (split_lines t))).
Proof.
  intros c t. destruct (N.eq_dec c 10) as [->|H10]; [left; reflexivity | right].
  cbn [split_lines]. replace (c =? 10) with false by lia.
  destruct t as [|c2 t2]; [right; repeat split; [exact H10 | discriminate]|].
  destruct ((c =? 13) && (c2 =? 10)) eqn:E.
  - left. exists t2. split; [|f_equal]; lia.
  - right. repeat split; [exact H10|]. intros -> [= ->]. discriminate E.
Qed.

Lemma split_cons_nocr : forall c t, c <> 10 -> c <> 13 ->
  split_lines (c :: t) = (c :: fst (split_lines t), snd (split_lines t)).
Proof.
  intros c t H10 H13.
  destruct (split_lines_cons c t) as [E | [(t2 & E & _) | (_ & _ & E)]]; [contradiction | contradiction | exact E].
Qed.

Definition peek (t : list N) : option N := hd_error (fst (split_lines t)).
Definition is_last (t : list N) : bool := is_nil (snd (split_lines t)).

(* the character peeked at within the line is the next character of the text, unless that is a line end *)
Lemma peek_eqb : forall t x, x <> 10 -> x <> 13 -> opt_eqb (peek t) x = opt_eqb (hd_error t) x.
Proof.
  intros [|c t] x H10 H13; [reflexivity|]. unfold peek.
  destruct (split_lines_cons c t) as [-> | [(t2 & -> & ->) | (_ & _ & ->)]];
    [rewrite split_nl | rewrite split_crnl | reflexivity]; cbn [fst hd_error opt_eqb]; lia.
Qed.

Lemma lines_of_cons_not_nil : forall s, s <> [] -> is_nil (lines_of s) = false.
Proof. intros [|c s] H; [congruence|reflexivity]. Qed.

(* the sanctioned panic ("unclosed comment blocks") needs a character that is the last one of the last
   line; a text that goes on is not in that situation *)
Lemma goes_on : forall s, s <> [] -> s <> [10] -> s <> [13; 10] -> is_none (peek s) && is_last s = false.
Proof.
  intros [|c s] H0 H1 H2; [congruence|]. unfold peek, is_last.
  destruct (split_lines_cons c s) as [-> | [(t2 & -> & ->) | (_ & _ & ->)]];
    [rewrite split_nl | rewrite split_crnl | reflexivity];
    cbn [fst snd hd_error is_none andb]; apply lines_of_cons_not_nil; intros ->.
  - now apply H1.
  - now apply H2.
Qed.

Lemma adv1_other : forall lc c, c <> 10 -> adv1 lc c = (fst lc, snd lc + 1).
Proof. intros. unfold adv1. now replace (c =? 10) with false by lia. Qed.

Lemma advance_app : forall lc a b, advance lc (a ++ b) = advance (advance lc a) b.
Proof. intros. unfold advance. apply fold_left_app. Qed.

Definition nolf (c : N) : bool := negb (c =? 10).

Lemma lchar_nolf : forall a, forallb lchar_ok a = true -> forallb nolf a = true.
Proof.
  induction a as [|c a IH]; intros H; [reflexivity|].
  cbn [forallb] in *. apply andb_prop in H as [Hc Ha]. unfold lchar_ok in Hc. unfold nolf at 1.
  rewrite IH by assumption. apply andb_true_intro; split; [lia|reflexivity].
Qed.

Lemma advance_nolf : forall a lc, forallb nolf a = true ->
  advance lc a = (fst lc, snd lc + N.of_nat (length a)).
Proof.
  induction a as [|c a IH]; intros lc H.
  - cbn. destruct lc; cbn. f_equal. lia.
  - cbn [forallb] in H. apply andb_prop in H as [Hc Ha]. unfold nolf in Hc.
    change (advance lc (c :: a)) with (advance (adv1 lc c) a).
    rewrite IH by assumption. rewrite adv1_other by lia. cbn [fst snd length]. f_equal. lia.
Qed.

Lemma advance_line : forall a lc r, forallb nolf a = true -> advance lc (a ++ 10 :: r) = advance (fst lc + 1, 0) r.
Proof. intros a lc r H. rewrite advance_app. rewrite (advance_nolf a) by assumption. reflexivity. Qed.

Lemma line_loop_cons : forall m ll line col p n c rest,
  line_loop m ll line col p n (c :: rest) =
  match step m ll line col p n c (hd_error rest) with
  | Fail q => Panic q
  | Break => Ok (p, n, [])
  | Continue sk p' n' out =>
      emit out
        (if sk then
           match rest with
           | _ :: rest' => line_loop m ll line (col + 2) p' n' rest'
           | [] => Ok (p', n', [])
           end
         else line_loop m ll line (col + 1) p' n' rest)
  end.
Proof. reflexivity. Qed.

Lemma Rlc_step2 : forall m lc p n c c2 t p' n' out, c <> 10 -> c <> 13 -> c2 <> 10 -> c2 <> 13 ->
  (forall ll, step m ll (fst lc) (snd lc) p n c (Some c2) = Continue true p' n' out) ->
  Rlc m lc p n (c :: c2 :: t) = emit out (Rlc m (adv1 (adv1 lc c) c2) p' n' t).
Proof.
  intros m lc p n c c2 t p' n' out H10 H13 H210 H213 Hs. unfold Rlc.
  rewrite (split_cons_nocr c) by assumption. rewrite (split_cons_nocr c2) by assumption. cbn [fst snd].
  rewrite line_loop_cons. cbn [hd_error]. rewrite Hs.
  rewrite fin_emit. rewrite !adv1_other by assumption. cbn [fst snd].
  replace (snd lc + 1 + 1) with (snd lc + 2) by lia. reflexivity.
Qed.

Lemma Rlc_nl : forall m lc p n t,
  Rlc m lc p n (10 :: t) = emit (push_opt p) (Rlc m (adv1 lc 10) None n t).
Proof.
  intros. unfold Rlc at 1. rewrite split_nl. cbn [fst snd line_loop fin app].
  rewrite lines_loop_Rlc. reflexivity.
Qed.

Lemma Rlc_crnl : forall m lc p n t,
  Rlc m lc p n (13 :: 10 :: t) = emit (push_opt p) (Rlc m (adv1 (adv1 lc 13) 10) None n t).
Proof.
  intros. unfold Rlc at 1. rewrite split_crnl. cbn [fst snd line_loop fin app].
  rewrite lines_loop_Rlc. reflexivity.
Qed.

Lemma Rlc_nil : forall m lc p n, Rlc m lc p n [] = Ok (None, n, push_opt p).
Proof. intros. unfold Rlc. cbn. now rewrite app_nil_r. Qed.

(* one character other than LF: it stays in its line, or it is the CR of a CR LF; then the line end pushes the
   pending token, and that must be what the step on a CR would have done *)
Lemma Rlc_char : forall m lc p n c t p' out, c <> 10 ->
  step m (is_last t) (fst lc) (snd lc) p n c (peek t) = Continue false p' n out ->
  (c = 13 -> out ++ push_opt p' = push_opt p) ->
  Rlc m lc p n (c :: t) = emit out (Rlc m (adv1 lc c) p' n t).
Proof.
  intros m lc p n c t p' out H10 Hs Hcr.
  destruct (split_lines_cons c t) as [-> | [(t2 & -> & ->) | (_ & _ & E)]]; [contradiction | |].
  - rewrite Rlc_crnl, Rlc_nl, emit_emit, (Hcr eq_refl). reflexivity.
  - unfold Rlc. rewrite E. cbn [fst snd]. rewrite line_loop_cons. unfold is_last, peek in Hs. rewrite Hs.
    rewrite fin_emit, adv1_other by assumption. reflexivity.
Qed.

Lemma step_dashdash : forall m ll line col p,
  step m ll line col p 0 45 (Some 45) = Break.
Proof. reflexivity. Qed.

(* str::lines: a text without LF in front of a LF is (the beginning of) one line, whatever CRs it has *)
Lemma split_skip : forall a t, forallb nolf a = true -> snd (split_lines (a ++ 10 :: t)) = lines_of t.
Proof.
  induction a as [|c a IH]; intros t H; [reflexivity|].
  cbn [forallb] in H. apply andb_prop in H as [Hc Ha]. unfold nolf in Hc. cbn [app].
  destruct (split_lines_cons c (a ++ 10 :: t)) as [-> | [(t2 & -> & E2) | (_ & _ & ->)]];
    [discriminate Hc | | exact (IH t Ha)].
  (* CR LF: the LF is the one behind a *)
  destruct a as [|c2 a]; [|injection E2 as -> _; discriminate Ha]. reflexivity.
Qed.

Lemma Rlc_skip : forall m lc p a t, forallb nolf a = true ->
  Rlc m lc p 0 (45 :: 45 :: a ++ 10 :: t) = emit (push_opt p) (Rlc m (advance lc (45 :: 45 :: a ++ [10])) None 0 t).
Proof.
  intros m lc p a t H.
  change (45 :: 45 :: a ++ [10]) with ((45 :: 45 :: a) ++ [10]). rewrite advance_line by exact H.
  unfold Rlc at 1.
  rewrite (split_cons_nocr 45) by lia. rewrite (split_cons_nocr 45) by lia. cbn [fst snd].
  rewrite line_loop_cons. cbn [hd_error]. rewrite step_dashdash, split_skip by exact H. cbn [fin app].
  now rewrite lines_loop_Rlc.
Qed.

Lemma step_blank : forall m ll line col p pk c, c = 32 \/ c = 9 \/ c = 13 ->
  step m ll line col p 0 c pk = Continue false None 0 (push_opt p).
Proof. intros m ll line col p pk c [-> | [-> | ->]]; reflexivity. Qed.

Lemma Rlc_blank : forall m lc p c t, c = 32 \/ c = 9 \/ c = 13 ->
  Rlc m lc p 0 (c :: t) = emit (push_opt p) (Rlc m (adv1 lc c) None 0 t).
Proof. intros m lc p c t Hc. apply Rlc_char; [lia | apply step_blank, Hc | intros _; apply app_nil_r]. Qed.

Lemma step_open0 : forall m ll line col p,
  step m ll line col p 0 47 (Some 42) = Continue true None 1 (push_opt p).
Proof. reflexivity. Qed.
Lemma step_c_close : forall m ll line col p d, (1 <= d)%Z ->
  step m ll line col p d 42 (Some 47) = Continue true p (d - 1)%Z [].
Proof. intros. unfold step. replace (0 <? d)%Z with true by lia. reflexivity. Qed.

Lemma step_c_open : forall m ll line col p d, (1 <= d)%Z -> (d < I32_MAX)%Z ->
  step m ll line col p d 47 (Some 42) = Continue true p (d + 1)%Z [].
Proof.
  intros. unfold step, nest_incr. replace (0 <? d)%Z with true by lia.
  replace (d =? I32_MAX)%Z with false by lia. reflexivity.
Qed.

Lemma Rlc_open0 : forall m lc p t,
  Rlc m lc p 0 (47 :: 42 :: t) = emit (push_opt p) (Rlc m (advance lc [47; 42]) None 1 t).
Proof. intros m lc p t. apply Rlc_step2; try discriminate. intros ll. apply step_open0. Qed.

Lemma Rlc_c_close : forall m lc p d t, (1 <= d)%Z ->
  Rlc m lc p d (42 :: 47 :: t) = Rlc m (advance lc [42; 47]) p (d - 1)%Z t.
Proof.
  intros m lc p d t Hd. rewrite (Rlc_step2 m lc p d 42 47 t p (d - 1)%Z []); try discriminate; [apply emit_nil|].
  intros ll. apply step_c_close, Hd.
Qed.

Lemma Rlc_c_open : forall m lc p d t, (1 <= d)%Z -> (d < I32_MAX)%Z ->
  Rlc m lc p d (47 :: 42 :: t) = Rlc m (advance lc [47; 42]) p (d + 1)%Z t.
Proof.
  intros m lc p d t Hd Hm. rewrite (Rlc_step2 m lc p d 47 42 t p (d + 1)%Z []); try discriminate; [apply emit_nil|].
  intros ll. apply step_c_open; assumption.
Qed.

(* a character that is comment content: a '*' not in front of '/', a '/' not in front of '*', or any
   other character that is not the last one of an unterminated text *)
Lemma step_c_plain : forall m ll line col p d c pk, (1 <= d)%Z ->
  (c =? 42) && opt_eqb pk 47 = false -> (c =? 47) && opt_eqb pk 42 = false ->
  is_none pk && ll = false ->
  step m ll line col p d c pk = Continue false p d [].
Proof.
  intros m ll line col p d c pk Hd H1 H2 Hp. unfold step.
  replace (0 <? d)%Z with true by lia.
  destruct (c =? 42) eqn:E1.
  - cbn [andb] in H1. rewrite H1. reflexivity.
  - destruct (c =? 47) eqn:E2.
    + cbn [andb] in H2. rewrite H2. reflexivity.
    + rewrite Hp. reflexivity.
Qed.

Lemma step_c_char : forall m ll line col p d c pk, (1 <= d)%Z -> c <> 42 -> c <> 47 ->
  is_none pk && ll = false ->
  step m ll line col p d c pk = Continue false p d [].
Proof.
  intros m ll line col p d c pk Hd H42 H47 Hp.
  apply step_c_plain; [assumption | | | assumption]; apply andb_false_iff; left; lia.
Qed.

Lemma body_cont : forall a t,
  is_none (peek (a ++ 42 :: 47 :: t)) && is_last (a ++ 42 :: 47 :: t) = false.
Proof.
  intros a t. apply goes_on.
  - intro E. symmetry in E. now apply app_cons_not_nil in E.
  - intro E. destruct a as [|x [|y [|z a]]]; cbn [app] in E; discriminate E.
  - intro E. destruct a as [|x [|y [|z a]]]; cbn [app] in E; discriminate E.
Qed.

Lemma render_body_cons : forall i b, render_body (i :: b) = render_citem i ++ render_body b.
Proof. reflexivity. Qed.

Lemma render_gap_cons : forall i g, render_gap (i :: g) = render_gitem i ++ render_gap g.
Proof. reflexivity. Qed.

Lemma hd_body : forall b t, hd_error (render_body b ++ 42 :: 47 :: t) = Some (next_char b).
Proof. intros [|[c| | | |] b] t; reflexivity. Qed.

Lemma Rlc_c_char : forall m lc p d c t, (1 <= d)%Z -> c <> 10 ->
  (c =? 42) && opt_eqb (hd_error t) 47 = false -> (c =? 47) && opt_eqb (hd_error t) 42 = false ->
  is_none (peek t) && is_last t = false ->
  Rlc m lc p d (c :: t) = Rlc m (adv1 lc c) p d t.
Proof.
  intros m lc p d c t Hd H10 Hs1 Hs2 Hc.
  rewrite (Rlc_char m lc p d c t p []); [apply emit_nil | assumption | | reflexivity].
  apply step_c_plain; rewrite ?peek_eqb by discriminate; assumption.
Qed.

(* behind "/*" nothing is pending *)
Lemma scan_body : forall m b d lc t, (1 <= d)%Z -> body_ok d b = true ->
  Rlc m lc None d (render_body b ++ 42 :: 47 :: t)
  = Rlc m (advance lc (render_body b ++ [42; 47])) None 0 t.
Proof.
  intros m. induction b as [|i b IH]; intros d lc t Hd H.
  - cbn [body_ok] in H. assert (d = 1%Z) by lia. subst d.
    cbn [render_body flat_map app]. apply Rlc_c_close. lia.
  - rewrite render_body_cons, <- !app_assoc, advance_app.
    destruct i as [c| | | |]; cbn [render_citem app body_ok] in *.
    + apply andb_prop in H as [Hc Hb]. unfold cchar_ok in Hc.
      rewrite Rlc_c_char; try assumption.
      * apply (IH d); assumption.
      * lia.
      * rewrite hd_body. cbn [opt_eqb]. lia.
      * rewrite hd_body. cbn [opt_eqb]. lia.
      * apply body_cont.
    + rewrite Rlc_nl, emit_nil. apply (IH d); assumption.
    + rewrite Rlc_crnl, emit_nil. apply (IH d); assumption.
    + apply andb_prop in H as [Hc Hb]. rewrite Rlc_c_open by lia. apply (IH (d + 1)%Z); [lia | assumption].
    + apply andb_prop in H as [Hc Hb]. rewrite Rlc_c_close by lia. apply (IH (d - 1)%Z); [lia | assumption].
Qed.

Lemma body_nolf : forall b d, has_nl b = false -> body_ok d b = true ->
  forallb nolf (render_body b) = true.
Proof.
  induction b as [|i b IH]; intros d Hn H; [reflexivity|].
  cbn [has_nl existsb] in Hn. apply orb_false_elim in Hn as [Hi Hn].
  rewrite render_body_cons, forallb_app.
  destruct i as [c| | | |]; cbn [is_cnl] in Hi; try discriminate; cbn [body_ok render_citem] in *.
  - apply andb_prop in H as [Hc Hb]. unfold cchar_ok in Hc.
    rewrite (IH d) by assumption. cbn [forallb]. unfold nolf. rewrite !andb_true_r. lia.
  - apply andb_prop in H as [Hc Hb]. rewrite (IH (d + 1)%Z) by assumption. reflexivity.
  - apply andb_prop in H as [Hc Hb]. rewrite (IH (d - 1)%Z) by assumption. reflexivity.
Qed.

Definition is_dd (i : gitem) : bool := match i with GLineD _ => true | _ => false end.

Lemma gline_shape : forall c crlf, forallb lchar_ok c = true ->
  exists a, render_gitem (GLine c crlf) = 45 :: 45 :: a ++ [10] /\ forallb nolf a = true.
Proof.
  intros c crlf H. apply lchar_nolf in H. exists (c ++ if crlf then [13] else []). split.
  - cbn [render_gitem]. destruct crlf; rewrite <- app_assoc; reflexivity.
  - rewrite forallb_app, H. destruct crlf; reflexivity.
Qed.

(* every item except "--" c "--" is read by the crate as what it is, whatever follows; it pushes the pending
   token (white-space, line ends, line comments and block comments all do) *)
Lemma scan_gitem : forall m it lc p t, gitem_okb it = true -> is_dd it = false ->
  Rlc m lc p 0 (render_gitem it ++ t) = emit (push_opt p) (Rlc m (advance lc (render_gitem it)) None 0 t).
Proof.
  intros m it lc p t H Hd.
  destruct it as [| | | |c crlf|b| |c]; [| | | | | | |discriminate Hd].
  - apply Rlc_blank. auto.
  - apply Rlc_blank. auto.
  - apply Rlc_crnl.
  - apply Rlc_nl.
  - (* line comment: the rest of the line is skipped *)
    destruct (gline_shape c crlf H) as (a & -> & Ha). cbn [app]. rewrite <- app_assoc. cbn [app].
    apply Rlc_skip, Ha.
  - cbn [gitem_okb render_gitem app] in *.
    rewrite Rlc_open0, <- app_assoc. cbn [app].
    rewrite (scan_body m b 1%Z) by (assumption || lia). reflexivity.
  - apply Rlc_blank. auto.
Qed.

(* an item either ends the current line or lies within it *)
Definition ends_line (i : gitem) : bool := match i with GCrLf | GLf | GLine _ _ => true | _ => false end.

Lemma line_end : forall it dd g, ends_line it = true -> gap_ok dd (it :: g) = true ->
  (exists a, render_gitem it = a ++ [10] /\ forallb nolf a = true) /\ gap_ok false g = true.
Proof.
  intros it dd g He H. cbn [gap_ok] in H. apply andb_prop in H as [Hi Hg].
  destruct it as [| | | |c crlf|b| |c]; try discriminate He; (split; [|exact Hg]).
  - exists [13]. split; reflexivity.
  - exists []. split; reflexivity.
  - destruct (gline_shape c crlf Hi) as (a & E & Ha). exists (45 :: 45 :: a). split; [exact E | exact Ha].
Qed.

(* on a line that the crate is skipping only items without a line end may stand *)
Lemma within_line : forall it g, ends_line it = false -> gap_ok true (it :: g) = true ->
  forallb nolf (render_gitem it) = true /\ gap_ok true g = true.
Proof.
  intros it g He H. cbn [gap_ok] in H. apply andb_prop in H as [Hi Hg].
  destruct it as [| | | |c crlf|b| |c]; try discriminate He; cbn [render_gitem gitem_okb negb orb] in *;
    try (split; [reflexivity | exact Hg]).
  - apply andb_prop in Hg as [Hnl Hg]. apply negb_true_iff in Hnl. split; [|exact Hg].
    change (47 :: 42 :: render_body b ++ [42; 47]) with ([47; 42] ++ render_body b ++ [42; 47]).
    rewrite !forallb_app. rewrite (body_nolf b 1%Z) by assumption. reflexivity.
  - unfold dcomment_ok in Hi. apply andb_prop in Hi as [Hi _]. apply andb_prop in Hi as [Hi _]. split; [|exact Hg].
    change (45 :: 45 :: c ++ [45; 45]) with ([45; 45] ++ c ++ [45; 45]).
    rewrite !forallb_app. rewrite (lchar_nolf c) by assumption. reflexivity.
Qed.

(* an empty gap leaves the pending token pending, any other gap pushes it.  Behind "--" c "--" the crate skips the
   rest of the line (pre: what it has skipped so far), whose end lies in the same gap *)
Lemma scan_gap_dd : forall m g lc p t,
  (gap_ok false g = true ->
   Rlc m lc p 0 (render_gap g ++ t)
   = if is_nil g then Rlc m lc p 0 t else emit (push_opt p) (Rlc m (advance lc (render_gap g)) None 0 t)) /\
  (forall pre, gap_ok true g = true -> forallb nolf pre = true ->
   Rlc m lc p 0 (45 :: 45 :: pre ++ render_gap g ++ t)
   = emit (push_opt p) (Rlc m (advance lc (45 :: 45 :: pre ++ render_gap g)) None 0 t)).
Proof.
  intros m. induction g as [|it g IH]; intros lc p t; [split; [reflexivity | discriminate]|].
  assert (Hgo : forall lc', gap_ok false g = true ->
            Rlc m lc' None 0 (render_gap g ++ t) = Rlc m (advance lc' (render_gap g)) None 0 t).
  { intros lc' Hg. rewrite (proj1 (IH lc' None t) Hg). destruct g; [reflexivity | apply emit_nil]. }
  rewrite render_gap_cons. split; [intros H | intros pre H Hpre].
  - cbn [is_nil]. destruct (is_dd it) eqn:Edd.
    + (* in front of "--" c "--" gap_ok does not look at dd *)
      destruct it as [| | | |c crlf|b| |c]; try discriminate Edd.
      destruct (within_line (GLineD c) g eq_refl H) as [Hc Hg].
      change (render_gitem (GLineD c) ++ render_gap g) with (45 :: 45 :: (c ++ [45; 45]) ++ render_gap g).
      cbn [app]. rewrite <- app_assoc. apply (proj2 (IH lc p t)); assumption.
    + cbn [gap_ok] in H. apply andb_prop in H as [Hi Hg]. rewrite <- app_assoc, scan_gitem by assumption.
      assert (Hg' : gap_ok false g = true) by (destruct it; try discriminate Edd; exact Hg).
      rewrite Hgo by assumption. rewrite advance_app. reflexivity.
  - destruct (ends_line it) eqn:He.
    + destruct (line_end it true g He H) as [(a & -> & Ha) Hg].
      rewrite <- !app_assoc, !(app_assoc pre a). cbn [app].
      rewrite Rlc_skip by (rewrite forallb_app, Hpre, Ha; reflexivity). rewrite Hgo by assumption.
      rewrite <- advance_app. cbn [app]. rewrite <- !app_assoc. reflexivity.
    + destruct (within_line it g He H) as [Hx Hg].
      rewrite <- app_assoc, !(app_assoc pre). apply (proj2 (IH lc p t)); [exact Hg|].
      rewrite forallb_app, Hpre, Hx. reflexivity.
Qed.

Lemma scan_gap : forall m g lc p t, gap_okb g = true ->
  Rlc m lc p 0 (render_gap g ++ t)
  = if is_nil g then Rlc m lc p 0 t else emit (push_opt p) (Rlc m (advance lc (render_gap g)) None 0 t).
Proof. intros m g lc p t. apply scan_gap_dd. Qed.

Lemma scan_gap_none : forall m g lc t, gap_okb g = true ->
  Rlc m lc None 0 (render_gap g ++ t) = Rlc m (advance lc (render_gap g)) None 0 t.
Proof. intros m g lc t H. rewrite scan_gap by exact H. destruct g; [reflexivity | apply emit_nil]. Qed.

Lemma sep_char_facts : forall c, is_sep_char c = true ->
  c <> 10 /\ c <> 13 /\ c <> 45 /\ c <> 47 /\ c <> 42.
Proof. intros c H. repeat split; intros ->; discriminate. Qed.

Lemma merge_sep : forall p l c x,
  merge p (Separator l c x) = (Some (Separator l c x), push_opt p).
Proof. intros [[? ? ?|? ? ?]|] l0 c0 x; reflexivity. Qed.

Lemma step_sep : forall m ll line col p c pk, is_sep_char c = true ->
  step m ll line col p 0 c pk
  = Continue false (Some (Separator (line + 1) (col + 1) c)) 0 (push_opt p).
Proof.
  intros m ll line col p c pk H. destruct (sep_char_facts c H) as (_ & _ & H45 & H47 & _).
  unfold step. cbn [Z.ltb Z.compare Z.eqb andb].
  replace (c =? 45) with false by lia. replace (c =? 47) with false by lia. cbn [andb].
  rewrite H. now rewrite merge_sep.
Qed.

Lemma text_char_facts : forall c, text_char c = true ->
  c <> 10 /\ c <> 13 /\ is_sep_char c = false /\ negb (is_control c) && negb (c =? 32) = true.
Proof.
  intros c H. unfold text_char in H.
  apply andb_prop in H as [H H3]. pose proof H as H'. apply andb_prop in H as [H1 H2].
  unfold is_control in H1.
  repeat split; try (intros ->; discriminate); [|assumption].
  now destruct (is_sep_char c).
Qed.

Lemma step_text : forall m ll line col p c pk, text_char c = true ->
  (c =? 45) && opt_eqb pk 45 = false -> (c =? 47) && opt_eqb pk 42 = false ->
  step m ll line col p 0 c pk
  = let (p', out) := merge p (Text (line + 1) (col + 1) [c]) in Continue false p' 0 out.
Proof.
  intros m ll line col p c pk H H1 H2. destruct (text_char_facts c H) as (_ & _ & Hs & Hc).
  unfold step. cbn [Z.ltb Z.compare Z.eqb andb].
  rewrite H1, H2, Hs, Hc. reflexivity.
Qed.

Lemma hd_app_firstn : forall s t : list N, hd_error (s ++ firstn 1 t) = hd_error (s ++ t).
Proof. intros [|c s] [|x t]; reflexivity. Qed.

(* a text without the pair a b, in front of t: the pair can only arise from its last character and the first of t *)
Lemma no_pair_app1 : forall a b s t, no_pair a b s = true ->
  (last s 0 = a -> opt_eqb (hd_error t) b = false) -> no_pair a b (s ++ firstn 1 t) = true.
Proof.
  intros a b s t.
  assert (B : no_pair a b (firstn 1 t) = true)
    by (destruct t; cbn [firstn no_pair hd_error opt_eqb]; rewrite ?andb_false_r; reflexivity).
  induction s as [|c [|c2 s] IH]; intros H Hl; [exact B | |].
  - change ([c] ++ firstn 1 t) with (c :: [] ++ firstn 1 t). cbn [no_pair]. rewrite hd_app_firstn. cbn [app].
    rewrite B. destruct (c =? a) eqn:E; [rewrite Hl by apply N.eqb_eq, E|]; reflexivity.
  - cbn [no_pair app hd_error] in *. apply andb_prop in H as [H1 H2]. rewrite H1. apply IH; assumption.
Qed.

(* one character of a text item: it is merged with the pending token *)
Lemma Rlc_text_char : forall m lc p c s t, text_char c = true ->
  no_pair 45 45 ((c :: s) ++ firstn 1 t) = true -> no_pair 47 42 ((c :: s) ++ firstn 1 t) = true ->
  Rlc m lc p 0 ((c :: s) ++ t)
  = (let (p', out) := merge p (Text (fst lc + 1) (snd lc + 1) [c]) in emit out (Rlc m (adv1 lc c) p' 0 (s ++ t)))
    /\ no_pair 45 45 (s ++ firstn 1 t) = true /\ no_pair 47 42 (s ++ firstn 1 t) = true.
Proof.
  intros m lc p c s t Hc Hd Hs. cbn [app no_pair] in *. rewrite hd_app_firstn in Hd, Hs.
  apply andb_prop in Hd as [Hd1 Hd], Hs as [Hs1 Hs]. apply negb_true_iff in Hd1, Hs1. split; [|split; assumption].
  destruct (text_char_facts c Hc) as (H10 & H13 & _).
  destruct (merge p (Text (fst lc + 1) (snd lc + 1) [c])) as [p' out] eqn:E.
  apply Rlc_char; [exact H10 | | contradiction].
  rewrite step_text, E by (rewrite ?peek_eqb by discriminate; assumption). reflexivity.
Qed.

Lemma text_rest : forall m s acc lc l0 c0 t, forallb text_char s = true ->
  no_pair 45 45 (s ++ firstn 1 t) = true -> no_pair 47 42 (s ++ firstn 1 t) = true ->
  Rlc m lc (Some (Text l0 c0 acc)) 0 (s ++ t)
  = Rlc m (advance lc s) (Some (Text l0 c0 (acc ++ s))) 0 t.
Proof.
  intros m. induction s as [|c s IH]; intros acc lc l0 c0 t H Hd Hs.
  - cbn. now rewrite app_nil_r.
  - cbn [forallb] in H. apply andb_prop in H as [Hc H].
    destruct (Rlc_text_char m lc (Some (Text l0 c0 acc)) c s t Hc Hd Hs) as (-> & Hd' & Hs').
    cbn [merge token_append]. rewrite emit_nil, IH by assumption. rewrite <- app_assoc. reflexivity.
Qed.

Definition not_text (p : option token) : Prop :=
  match p with Some (Text _ _ _) => False | _ => True end.

(* an item in front of t: a text item needs a pending token that is no text (else the two would be merged), and one that
   ends in '/' must not be followed by '*' (together they would open a comment) *)
Lemma scan_tok : forall m tk lc p t, tok_okb tk = true ->
  (is_text tk = true -> not_text p) ->
  (forall s, tk = PText s -> last s 0 = 47 -> opt_eqb (hd_error t) 42 = false) ->
  Rlc m lc p 0 (render_tok tk ++ t)
  = emit (push_opt p) (Rlc m (advance lc (render_tok tk)) (Some (mk_tok lc tk)) 0 t).
Proof.
  intros m [s|c] lc p t Hok Hp Hr; cbn [render_tok tok_okb mk_tok is_text] in *.
  - unfold text_okb in Hok.
    apply andb_prop in Hok as [Hok H5]. apply andb_prop in Hok as [Hok H4].
    apply andb_prop in Hok as [Hok H3]. apply andb_prop in Hok as [H1 H2].
    assert (Hd : no_pair 45 45 (s ++ firstn 1 t) = true)
      by (apply no_pair_app1; [assumption | intros E; rewrite E in H5; discriminate H5]).
    assert (Hs : no_pair 47 42 (s ++ firstn 1 t) = true) by (apply no_pair_app1; [assumption | apply (Hr _ eq_refl)]).
    destruct s as [|c s]; [discriminate|].
    cbn [forallb] in H2. apply andb_prop in H2 as [Hc H2].
    destruct (Rlc_text_char m lc p c s t Hc Hd Hs) as (-> & Hd' & Hs').
    (* the pending token is no text: the character starts a new one *)
    replace (merge p (Text (fst lc + 1) (snd lc + 1) [c])) with (Some (Text (fst lc + 1) (snd lc + 1) [c]), push_opt p)
      by (destruct p as [[]|]; [destruct (Hp eq_refl) | reflexivity | reflexivity]).
    rewrite text_rest by assumption. reflexivity.
  - destruct (sep_char_facts c Hok) as (H10 & H13 & _).
    cbn [app].
    rewrite (Rlc_char m lc p 0%Z c t (Some (Separator (fst lc + 1) (snd lc + 1) c)) (push_opt p));
      [reflexivity | exact H10 | now apply step_sep | contradiction].
Qed.

(* the pending token p may stay pending in front of the items ts: it is no text when the first item is one *)
Definition compat (p : option token) (ts : list ptoken) : Prop :=
  match ts with t :: _ => is_text t = true -> not_text p | [] => True end.

Lemma hd_gitem : forall it t, opt_eqb (hd_error (render_gitem it ++ t)) 42 = false.
Proof. intros [| | | |c crlf|b| |c] t; reflexivity. Qed.

Lemma hd_after : forall g ts gs, forallb tok_okb ts = true ->
  (g = [] -> match ts with t2 :: _ => is_text t2 = false | [] => True end) ->
  opt_eqb (hd_error (render_gap g ++ render_items ts gs)) 42 = false.
Proof.
  intros [|it g] ts gs Hok Hg.
  - cbn [render_gap flat_map app]. specialize (Hg eq_refl).
    destruct ts as [|[s|c] ts]; [reflexivity|discriminate|].
    destruct gs as [|g2 gs]; [reflexivity|].
    cbn [forallb tok_okb] in Hok. apply andb_prop in Hok as [Hc _].
    destruct (sep_char_facts c Hc) as (_ & _ & _ & _ & H42).
    cbn. lia.
  - rewrite render_gap_cons, <- app_assoc. apply hd_gitem.
Qed.

(* the induction of C13, item by item: a non-empty gap pushes the item, an empty one leaves it pending, and the
   condition on tt_gaps keeps a pending text from meeting a text *)
Lemma scan_items : forall m ts gs lc p,
  forallb tok_okb ts = true -> forallb gap_okb gs = true ->
  forallb (fun g => negb (is_nil g)) (tt_gaps ts gs) = true -> compat p ts ->
  Rlc m lc p 0 (render_items ts gs) = Ok (None, 0%Z, push_opt p ++ expect_items lc ts gs).
Proof.
  intros m. induction ts as [|t ts IH]; intros [|g gs] lc p Htok Hgap Hfl Hc;
    try (cbn [render_items expect_items]; rewrite Rlc_nil; now rewrite app_nil_r).
  cbn [forallb] in Htok, Hgap.
  apply andb_prop in Htok as [Ht Hts]. apply andb_prop in Hgap as [Hg Hgs].
  cbn [tt_gaps] in Hfl. rewrite forallb_app in Hfl. apply andb_prop in Hfl as [Hfl1 Hfl2].
  cbn [render_items expect_items].
  rewrite scan_tok; [|assumption|exact Hc|].
  2:{ intros s -> _. apply hd_after; [assumption|]. intros ->.
      destruct ts as [|t2 ts]; [exact I|]. cbn [is_text andb] in Hfl1.
      destruct (is_text t2); [discriminate|reflexivity]. }
  rewrite scan_gap by assumption. destruct g as [|it g]; cbn [is_nil].
  - (* the token stays pending: the next one is not a text *)
    cbn [render_gap flat_map advance fold_left].
    rewrite IH; try assumption.
    + reflexivity.
    + destruct ts as [|t2 ts]; [exact I|]. cbn [compat]. intros Ht2. rewrite Ht2 in Hfl1.
      destruct t as [s|c]; [discriminate Hfl1 | exact I].
  - rewrite IH; try assumption.
    + reflexivity.
    + destruct ts; [exact I | intros _; exact I].
Qed.

Lemma lex_safe_inv : forall ts gs, lex_safe ts gs ->
  length gs = S (length ts) /\ forallb tok_okb ts = true /\ forallb gap_okb gs = true /\
  forallb (fun g => negb (is_nil g)) (tt_gaps ts (tl gs)) = true.
Proof.
  intros ts gs H. unfold lex_safe, lex_safeb in H.
  apply andb_prop in H as [H Hne]. apply andb_prop in H as [H Hgap]. apply andb_prop in H as [Hlen Htok].
  apply Nat.eqb_eq in Hlen. auto.
Qed.

Theorem tokenize_render : forall m ts gs, lex_safe ts gs ->
  tokenize m (render ts gs) = Ok (expect ts gs).
Proof.
  intros m ts gs Hs. destruct (lex_safe_inv ts gs Hs) as (_ & Htok & Hgap & Hne).
  destruct gs as [|g0 gs]; [reflexivity|]. cbn [tl forallb] in *. apply andb_prop in Hgap as [Hg0 Hgs].
  rewrite tokenize_Rlc. unfold render, expect.
  rewrite scan_gap_none by assumption.
  rewrite scan_items; try assumption.
  - cbn. now rewrite app_nil_r.
  - destruct ts; cbn; auto.
Qed.

Lemma strip_expect_items : forall ts gs lc, length gs = length ts ->
  map strip (expect_items lc ts gs) = ts.
Proof.
  induction ts as [|t ts IH]; intros [|g gs] lc Hl; cbn in *; try discriminate; try reflexivity.
  f_equal; [destruct t; reflexivity | apply IH; congruence].
Qed.

Lemma loc_expect_items : forall ts gs lc,
  map loc (expect_items lc ts gs) = positions_items lc ts gs.
Proof.
  induction ts as [|t ts IH]; intros [|g gs] lc; cbn; try reflexivity.
  f_equal; [destruct t; reflexivity | apply IH].
Qed.

Lemma strip_expect : forall ts g, lex_safe ts g -> map strip (expect ts g) = ts.
Proof.
  intros ts [|g0 g] H; [discriminate|]. apply lex_safe_inv in H as [H _].
  cbn [length] in H. apply strip_expect_items. lia.
Qed.

Lemma loc_expect : forall ts g, map loc (expect ts g) = positions ts g.
Proof. intros ts [|g0 g]; [reflexivity | apply loc_expect_items]. Qed.

(* `positions` is the line/column of the items' offsets in the rendered text, where the
   1-based (line, column) of the character at offset off is: line = 1 + number of LF before it,
   column = 1 + number of characters since the last LF *)
Definition pos_at (text : list N) (off : nat) : N * N :=
  let lc := advance (0, 0) (firstn off text) in (fst lc + 1, snd lc + 1).

Fixpoint offsets_items (n : nat) (ts : list ptoken) (gs : list gap) : list nat :=
  match ts, gs with
  | t :: ts', g :: gs' =>
      n :: offsets_items (n + length (render_tok t) + length (render_gap g)) ts' gs'
  | _, _ => []
  end.
Definition offsets (ts : list ptoken) (gs : list gap) : list nat :=
  match gs with [] => [] | g0 :: gs' => offsets_items (length (render_gap g0)) ts gs' end.

Lemma positions_items_at : forall ts gs pre,
  positions_items (advance (0, 0) pre) ts gs
  = map (pos_at (pre ++ render_items ts gs)) (offsets_items (length pre) ts gs).
Proof.
  induction ts as [|t ts IH]; intros [|g gs] pre; try reflexivity.
  cbn [positions_items render_items offsets_items map]. f_equal.
  - unfold pos_at. rewrite firstn_app_exact by reflexivity. reflexivity.
  - rewrite <- !advance_app. rewrite (IH gs (pre ++ render_tok t ++ render_gap g)).
    rewrite <- !app_assoc. rewrite !app_length, Nat.add_assoc. reflexivity.
Qed.

(* each offset is where the item's characters really are *)
Lemma offsets_items_point : forall ts gs pre, length gs = length ts ->
  Forall2 (fun off t => firstn (length (render_tok t)) (skipn off (pre ++ render_items ts gs)) = render_tok t)
          (offsets_items (length pre) ts gs) ts.
Proof.
  induction ts as [|t ts IH]; intros [|g gs] pre Hl; try discriminate; [constructor|].
  cbn [offsets_items render_items]. constructor.
  - rewrite skipn_app_exact by reflexivity. apply firstn_app_exact. reflexivity.
  - specialize (IH gs (pre ++ render_tok t ++ render_gap g)).
    rewrite <- !app_assoc in IH. rewrite !app_length, Nat.add_assoc in IH.
    apply IH. cbn [length] in Hl. congruence.
Qed.

(* the body grammar is no restriction on comment texts: body_of gives the structure of a comment text, read from left
   to right as X.680 12.6.4 / the crate do ("/*" opens, "*/" closes, everything else is content), and is a legal body
   whenever it is balanced *)
Fixpoint body_of (s : list N) : list citem :=
  match s with
  | [] => []
  | c :: t =>
      match t with
      | c2 :: t2 =>
          if (c =? 47) && (c2 =? 42) then COpen :: body_of t2
          else if (c =? 42) && (c2 =? 47) then CClose :: body_of t2
          else if (c =? 13) && (c2 =? 10) then CCrNl :: body_of t2
          else if c =? 10 then CNl :: body_of t
          else CChar c :: body_of t
      | [] => if c =? 10 then [CNl] else [CChar c]
      end
  end.

(* depth conditions only *)
Fixpoint balanced (d : Z) (b : list citem) : bool :=
  match b with
  | [] => (d =? 1)%Z
  | COpen :: b' => (d <? I32_MAX)%Z && balanced (d + 1)%Z b'
  | CClose :: b' => (2 <=? d)%Z && balanced (d - 1)%Z b'
  | _ :: b' => balanced d b'
  end.

Lemma body_of_cons2 : forall c c2 t2,
  body_of (c :: c2 :: t2) =
    if (c =? 47) && (c2 =? 42) then COpen :: body_of t2
    else if (c =? 42) && (c2 =? 47) then CClose :: body_of t2
    else if (c =? 13) && (c2 =? 10) then CCrNl :: body_of t2
    else if c =? 10 then CNl :: body_of (c2 :: t2)
    else CChar c :: body_of (c2 :: t2).
Proof. reflexivity. Qed.

(* which item a text of two or more characters begins with, and where the reading goes on *)
Lemma body_of_cases : forall c c2 t2,
  (c = 47 /\ c2 = 42 /\ body_of (c :: c2 :: t2) = COpen :: body_of t2) \/
  (c = 42 /\ c2 = 47 /\ body_of (c :: c2 :: t2) = CClose :: body_of t2) \/
  (c = 13 /\ c2 = 10 /\ body_of (c :: c2 :: t2) = CCrNl :: body_of t2) \/
  (c = 10 /\ body_of (c :: c2 :: t2) = CNl :: body_of (c2 :: t2)) \/
  (cchar_ok c c2 = true /\ body_of (c :: c2 :: t2) = CChar c :: body_of (c2 :: t2)).
Proof.
  intros c c2 t2. rewrite body_of_cons2. unfold cchar_ok.
  destruct ((c =? 47) && (c2 =? 42)) eqn:E1; [left; repeat split; lia | right].
  destruct ((c =? 42) && (c2 =? 47)) eqn:E2; [left; repeat split; lia | right].
  destruct ((c =? 13) && (c2 =? 10)) eqn:E3; [left; repeat split; lia | right].
  destruct (c =? 10) eqn:E4; [left | right]; (split; [lia | reflexivity]).
Qed.

(* body_of and line_loop look at two characters and go on behind the first or behind both *)
Lemma list_ind2 : forall (A : Type) (Q : list A -> Prop),
  Q [] -> (forall c, Q [c]) -> (forall c c2 t, Q t -> Q (c2 :: t) -> Q (c :: c2 :: t)) -> forall l, Q l.
Proof.
  intros A Q H0 H1 H2 l. assert (H : Q l /\ Q (tl l)); [|apply H].
  induction l as [|c [|c2 t] [IHa IHb]]; auto.
Qed.

Theorem render_body_of : forall s, render_body (body_of s) = s.
Proof.
  induction s as [|c|c c2 t2 IH2 IH1] using list_ind2; [reflexivity| |].
  - cbn [body_of]. destruct (c =? 10) eqn:E; cbn; [f_equal; lia|reflexivity].
  - destruct (body_of_cases c c2 t2) as [(-> & -> & E) | [(-> & -> & E) | [(-> & -> & E) | [(-> & E) | (_ & E)]]]];
      rewrite E, render_body_cons, ?IH1, ?IH2; reflexivity.
Qed.

(* a rendered body begins with next_char, and the body of a text renders as that text *)
Lemma next_body_of : forall c t, next_char (body_of (c :: t)) = c.
Proof.
  intros c t. pose proof (hd_body (body_of (c :: t)) []) as H.
  rewrite render_body_of in H. now injection H.
Qed.

Lemma last_tail : forall (i : citem) l, last (i :: l) CNl <> CChar 47 -> last l CNl <> CChar 47.
Proof. intros i [|j l] H; [discriminate|exact H]. Qed.

(* a text that is balanced when read from left to right and whose last item is not a content '/' (which
   would pair with the '*' of the closing "*/") is a legal body: the side condition on '*' and '/'
   excludes no comment *)
Lemma body_of_ok_at : forall s d,
  balanced d (body_of s) = true -> last (body_of s) CNl <> CChar 47 -> body_ok d (body_of s) = true.
Proof.
  induction s as [|c|c c2 t2 IH2 IH1] using list_ind2; intros d Hb Hlast; [exact Hb| |].
  - cbn [body_of] in *. destruct (c =? 10) eqn:E; cbn [body_ok balanced next_char last] in *; [exact Hb|].
    rewrite Hb. unfold cchar_ok.
    assert (c <> 47) by (intros ->; now apply Hlast). lia.
  - destruct (body_of_cases c c2 t2) as [(_ & _ & E) | [(_ & _ & E) | [(_ & _ & E) | [(_ & E) | (Hc & E)]]]];
      rewrite E in *; apply last_tail in Hlast; cbn [body_ok balanced] in *.
    + apply andb_prop in Hb as [H1 H2]. rewrite H1. apply IH2; assumption.
    + apply andb_prop in Hb as [H1 H2]. rewrite H1. apply IH2; assumption.
    + apply IH2; assumption.
    + apply IH1; assumption.
    + rewrite next_body_of, Hc. apply IH1; assumption.
Qed.

Theorem body_of_ok : forall s, balanced 1 (body_of s) = true -> last (body_of s) CNl <> CChar 47 ->
  body_ok 1 (body_of s) = true.
Proof. intros s. apply body_of_ok_at. Qed.

(* a subclass of lex_safe (lex_safe_old_sub), its members named `_old`: no lone CR, no `-- c --`, and comment content
   without '*', '/', CR *)
Definition cchar_old (c : N) : bool :=
  negb (c =? 42) && negb (c =? 47) && negb (c =? 10) && negb (c =? 13).
Fixpoint body_old (d : Z) (b : list citem) : bool :=
  match b with
  | [] => (d =? 1)%Z
  | CChar c :: b' => cchar_old c && body_old d b'
  | CNl :: b' => body_old d b'
  | CCrNl :: b' => body_old d b'
  | COpen :: b' => (d <? I32_MAX)%Z && body_old (d + 1)%Z b'
  | CClose :: b' => (2 <=? d)%Z && body_old (d - 1)%Z b'
  end.
Definition gitem_old (i : gitem) : bool :=
  match i with
  | GLine c _ => forallb lchar_ok c
  | GBlock b => body_old 1 b
  | GCr | GLineD _ => false
  | _ => true
  end.
Definition lex_safeb_old (ts : list ptoken) (gs : list gap) : bool :=
  (length gs =? S (length ts))%nat && forallb tok_okb ts && forallb (forallb gitem_old) gs
  && forallb (fun g => negb (is_nil g)) (tt_gaps ts (tl gs)).

Lemma body_old_ok : forall b d, body_old d b = true -> body_ok d b = true.
Proof.
  induction b as [|i b IH]; intros d H; [exact H|].
  destruct i as [c| | | |]; cbn [body_old body_ok] in *.
  - apply andb_prop in H as [Hc Hb]. rewrite (IH d) by assumption.
    unfold cchar_old in Hc. unfold cchar_ok. lia.
  - now apply IH.
  - now apply IH.
  - apply andb_prop in H as [Hc Hb]. rewrite Hc. now apply IH.
  - apply andb_prop in H as [Hc Hb]. rewrite Hc. now apply IH.
Qed.

Lemma gap_old_ok : forall g, forallb gitem_old g = true -> gap_okb g = true.
Proof.
  unfold gap_okb. induction g as [|i g IH]; intros H; [reflexivity|].
  cbn [forallb] in H. apply andb_prop in H as [Hi Hg]. specialize (IH Hg).
  destruct i as [| | | |c crlf|b| |c]; cbn [gap_ok gitem_okb gitem_old] in *; try discriminate Hi;
    try exact IH.
  - rewrite Hi. exact IH.
  - rewrite (body_old_ok _ _ Hi). exact IH.
Qed.

Theorem lex_safe_old_sub : forall ts gs, lex_safeb_old ts gs = true -> lex_safe ts gs.
Proof.
  intros ts gs H. unfold lex_safeb_old in H. unfold lex_safe, lex_safeb.
  apply andb_prop in H as [H H4]. apply andb_prop in H as [H H3]. apply andb_prop in H as [H1 H2].
  rewrite H1, H2, H4. rewrite andb_true_r. cbn [andb].
  apply forallb_forall. intros g Hin. apply gap_old_ok.
  rewrite forallb_forall in H3. now apply H3.
Qed.

(* the panic! of the unclosed comment block; the overflow of nest_lvl (i32) after 2^31 - 1 unclosed "/*" *)
Definition lex_panic_class (m : mode) (p : N) : Prop :=
  p = P_OTHER \/ (p = P_ARITH /\ overflow_checks m = true).

Definition lex_ok {A : Type} (m : mode) (r : res A) : Prop :=
  match r with Ok _ => True | Err _ => False | Panic p => lex_panic_class m p end.

Lemma lex_ok_emit : forall m out r, lex_ok m r -> lex_ok m (emit out r).
Proof. intros m out [[[a b] c] | e | q] H; exact H. Qed.

(* the two places of [step] that increment the nesting counter *)
Lemma nest_incr_fail : forall m n (k : Z -> action) p, (forall z, k z <> Fail p) ->
  match nest_incr m n with Ok z => k z | Err _ => Fail P_OTHER | Panic q => Fail q end = Fail p ->
  lex_panic_class m p.
Proof.
  intros m n k p Hk. unfold nest_incr.
  destruct (n =? I32_MAX)%Z; [destruct (overflow_checks m) eqn:Eo|]; intros H; try (now apply Hk in H).
  injection H as <-. right. split; [reflexivity | exact Eo].
Qed.

Lemma step_fail : forall m last l c prev n ch pk p,
  step m last l c prev n ch pk = Fail p -> lex_panic_class m p.
Proof.
  intros m last l c prev n ch pk p. unfold step. destruct (0 <? n)%Z.
  - destruct (ch =? 42); [destruct (opt_eqb pk 47); discriminate|].
    destruct (ch =? 47).
    + destruct (opt_eqb pk 42); [|discriminate]. apply nest_incr_fail. discriminate.
    + destruct (is_none pk && last); [|discriminate]. intros [= <-]. left. reflexivity.
  - destruct ((n =? 0)%Z && (ch =? 45) && opt_eqb pk 45); [discriminate|].
    destruct ((ch =? 47) && opt_eqb pk 42); [apply nest_incr_fail; discriminate|].
    destruct (is_sep_char ch); [destruct (merge prev _); discriminate|].
    destruct (negb (is_control ch) && negb (ch =? 32)); [destruct (merge prev _); discriminate|].
    destruct ((ch =? 32) || (ch =? 13) || (ch =? 10) || (ch =? 9)); discriminate.
Qed.

(* the loop goes on with the rest of the line or, after a two-character delimiter, with its tail *)
Lemma line_loop_ok : forall m last l cs c prev nest, lex_ok m (line_loop m last l c prev nest cs).
Proof.
  intros m last l cs. induction cs as [|ch|ch c2 rest IH2 IH1] using list_ind2; intros c prev nest; [exact I| |];
    rewrite line_loop_cons;
    (destruct (step m last l c prev nest ch _) as [sk pv nl out | | q] eqn:Hs;
       [| exact I | exact (step_fail _ _ _ _ _ _ _ _ _ Hs)]);
    apply lex_ok_emit; destruct sk.
  - exact I.
  - exact I.
  - apply IH2.
  - apply IH1.
Qed.

Lemma lines_loop_ok : forall m count ls l prev nest, lex_ok m (lines_loop m count l prev nest ls).
Proof.
  intros m count ls. induction ls as [|ln ls IH]; intros l prev nest; [exact I|].
  cbn [lines_loop]. pose proof (line_loop_ok m (l =? count - 1) l ln 0 prev nest) as H.
  destruct (line_loop m (l =? count - 1) l 0 prev nest ln) as [[[pv nl] out] | e | q]; [|exact H ..].
  apply lex_ok_emit, IH.
Qed.

Theorem tokenize_outcomes : forall m s,
  (forall p, tokenize m s = Panic p -> lex_panic_class m p) /\ (forall e, tokenize m s <> Err e).
Proof.
  intros m s. unfold tokenize.
  pose proof (lines_loop_ok m (N.of_nat (length (lines_of s))) (lines_of s) 0 None 0%Z) as H.
  destruct (lines_loop m (N.of_nat (length (lines_of s))) 0 None 0%Z (lines_of s)) as [[[pv nl] out] | e | q];
    split; try discriminate; [contradiction|]. intros p [= <-]. exact H.
Qed.
