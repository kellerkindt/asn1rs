(* Front/TypeGrammarProofs.v -- parse-after-print for ENUMERATED, literals, OIDs, IMPORTS, the recursive type grammar
   and whole modules (C07).  Surface syntax, printers and well-formedness predicates are in Front/Print.v. *)
From Coq Require Import String.
From Coq Require Import ZifyBool.
From A1 Require Import Front.Print Front.ParseProofs.
From A1 Require Front.ModuleGrammarProofs.
Module MG := A1.Front.ModuleGrammarProofs.
Local Open Scope N_scope.

Lemma istext_P : forall c, is_text (P c) = false. Proof. reflexivity. Qed.
Lemma toktext_P : forall c, tok_text (P c) = None. Proof. reflexivity. Qed.

Lemma eq_ignore_case_refl : forall s, eq_ignore_case s s = true.
Proof. exact eq_ignore_case_same. Qed.

(* Lists with one extension marker.  The loop has accumulated acc_len items and holds e0 as marker position;
   ext = Some k: the marker is still to be printed, after k more items.  What the loop ends with: *)
Definition ext_result (acc_len : nat) (ext : option nat) (e0 : option N) : option N :=
  match ext with Some k => Some (N.of_nat (acc_len + k)) | None => e0 end.

(* a marker still to be printed follows one of the next n items, and none has been read yet *)
Definition marker_ok (ext : option nat) (n : nat) (e0 : option N) : Prop :=
  match ext with Some k => (k < n)%nat /\ e0 = None | None => True end.

Lemma marker_ok_top : forall ext n, ext_pos_ok ext n -> marker_ok (option_map N.to_nat ext) n None.
Proof. intros [k|] n H; [split; [exact H | reflexivity] | exact I]. Qed.

Lemma ext_result_top : forall ext, ext_result 0 (option_map N.to_nat ext) None = ext.
Proof. intros [k|]; cbn [option_map ext_result]; [f_equal; lia | reflexivity]. Qed.

Lemma ext_result_next : forall ext n e0,
  ext_result (S n) (ext_pred ext) (match ext with Some O => Some (N.of_nat n) | _ => e0 end) = ext_result n ext e0.
Proof.
  intros [[|k]|] n e0; cbn [ext_pred ext_result]; [rewrite Nat.add_0_r | f_equal; f_equal; lia |]; reflexivity.
Qed.

Lemma marker_ok_pred : forall ext n (e0 e' : option N),
  marker_ok ext (S n) e0 -> marker_ok (ext_pred ext) n (match ext with Some O => e' | _ => e0 end).
Proof. intros [[|k]|] n e0 e' H; cbn [ext_pred marker_ok] in *; [exact I | split; [lia | apply H] | exact I]. Qed.

(* the position the loops record for a marker, field_len.saturating_sub(1), when x is the last item read *)
Lemma marker_pos : forall (X : Type) (x : X) acc, N.of_nat (length (x :: acc)) - 1 = N.of_nat (length acc).
Proof. intros X x acc. cbn [length]. lia. Qed.

(* "," (go on) or "}" (stop) behind an item *)
Definition sepc (b : bool) : N := if b then C_COMMA else C_RBRACE.

(* One step of such a list: an item, the marker if it stands here, then "}" or "," and the rest.  L is the loop
   (read_enumerated_loop, components_loop, choice_loop), known by what one iteration does on the marker and on
   the item at hand. *)
Section MarkerStep.
  Context {X : Type} (L : nat -> toks -> list X -> option N -> pres (list X * option N * toks)).
  Hypothesis Hmark : forall f (b : bool) more x acc,
    L (S f) (marker_toks ++ P (sepc b) :: more) (x :: acc) None =
    if b then L f more (x :: acc) (Some (N.of_nat (length acc)))
    else POk (rev (x :: acc), Some (N.of_nat (length acc)), more).
  (* [item more]: the tokens of the item in front of [more] *)
  Variables (f : nat) (item : toks -> toks) (x : X) (acc : list X) (e0 : option N).
  Hypothesis Hitem : forall (b : bool) more,
    L (S (S f)) (item (P (sepc b) :: more)) acc e0 =
    if b then L (S f) more (x :: acc) e0 else POk (rev (x :: acc), e0, more).

  Lemma marker_last : forall ext rest, marker_ok ext 1 e0 ->
    L (S (S f)) (item (ext_here ext ++ P C_RBRACE :: rest)) acc e0
    = POk (rev (x :: acc), ext_result (length acc) ext e0, rest).
  Proof.
    intros [[|k]|] rest Hext; cbn [ext_here app ext_result marker_ok] in Hext |- *.
    - rewrite (Hitem true), (proj2 Hext), (Hmark _ false), Nat.add_0_r. reflexivity.
    - destruct Hext as [Hk _]. lia.
    - apply (Hitem false).
  Qed.

  (* ",": the loop goes on behind it, one or two iterations later, with the item accumulated; HL says what it
     reads there *)
  Lemma marker_cons : forall ext more n vals rest, marker_ok ext (S n) e0 ->
    (forall f' e', (f <= f')%nat -> marker_ok (ext_pred ext) n e' ->
       L f' more (x :: acc) e'
       = POk ((rev (x :: acc) ++ vals)%list, ext_result (S (length acc)) (ext_pred ext) e', rest)) ->
    L (S (S f)) (item (ext_here ext ++ P C_COMMA :: more)) acc e0
    = POk ((rev acc ++ x :: vals)%list, ext_result (length acc) ext e0, rest).
  Proof.
    intros ext more n vals rest Hext HL.
    assert (E : L (S (S f)) (item (ext_here ext ++ P C_COMMA :: more)) acc e0
                = L (match ext with Some O => f | _ => S f end) more (x :: acc)
                    (match ext with Some O => Some (N.of_nat (length acc)) | _ => e0 end)).
    { destruct ext as [[|k]|]; cbn [ext_here app]; rewrite (Hitem true); try reflexivity.
      rewrite (proj2 Hext). apply (Hmark _ true). }
    rewrite E, HL; [| destruct ext as [[|k]|]; lia | apply marker_ok_pred, Hext].
    rewrite ext_result_next. cbn [rev]. rewrite <- app_assoc. reflexivity.
  Qed.
End MarkerStep.

Lemma enum_mark : forall f (b : bool) more (x : str * option N) acc,
  read_enumerated_loop (S f) (marker_toks ++ P (sepc b) :: more) (x :: acc) None =
  if b then read_enumerated_loop f more (x :: acc) (Some (N.of_nat (length acc)))
  else POk (rev (x :: acc), Some (N.of_nat (length acc)), more).
Proof.
  intros f b more x acc. cbn [read_enumerated_loop marker_toks app]. rewrite nif_P. cbn [is_none_N negb]. tk.
  rewrite marker_pos. destruct b; reflexivity.
Qed.

Lemma enum_item : forall f it (b : bool) more acc e0, enum_item_ok it ->
  read_enumerated_loop (S f) (print_enum_item it ++ P (sepc b) :: more) acc e0 =
  if b then read_enumerated_loop f more (enum_item_value it :: acc) e0
  else POk (rev (enum_item_value it :: acc), e0, more).
Proof.
  intros f [name [[num n]|]] b more acc e0 Hit; unfold print_enum_item, enum_item_value; cbn [fst snd app];
    cbn [read_enumerated_loop]; tk.
  - unfold enum_item_ok in Hit. cbn [snd] in Hit. rewrite !eqsep_P.
    change (C_LPAREN =? C_COMMA) with false. change (C_LPAREN =? C_RBRACE) with false.
    change (C_LPAREN =? C_LPAREN) with true.
    cbn [orb]. tk. rewrite toktext_T, Hit. tk. destruct b; reflexivity.
  - destruct b; reflexivity.
Qed.

Lemma read_enumerated_loop_print : forall its fuel acc e0 ext rest,
  its <> [] -> Forall enum_item_ok its ->
  marker_ok ext (length its) e0 ->
  (length (print_enum_items its ext) <= fuel)%nat ->
  read_enumerated_loop fuel (print_enum_items its ext ++ rest) acc e0
  = POk ((rev acc ++ map enum_item_value its)%list, ext_result (length acc) ext e0, rest).
Proof.
  induction its as [|it its IH]; intros fuel acc e0 ext rest Hne Hok Hext Hf; [congruence|].
  inversion Hok as [|? ? Hit Hrest]; subst.
  cbn [print_enum_items] in Hf |- *. rewrite !app_length in Hf. rewrite <- !app_assoc.
  assert (H1 : (1 <= length (print_enum_item it))%nat).
  { unfold print_enum_item. destruct (snd it) as [[num n]|]; cbn [length]; lia. }
  destruct its as [|it2 its']; cbn [app length] in Hf |- *; (destruct fuel as [|[|f]]; [lia ..|]);
    pose proof (fun b more => enum_item (S f) it b more acc e0 Hit) as Hitem.
  - exact (marker_last _ enum_mark _ (app (print_enum_item it)) _ _ _ Hitem ext rest Hext).
  - apply (marker_cons _ enum_mark _ (app (print_enum_item it)) _ _ _ Hitem ext _ (length (it2 :: its')) _ _ Hext).
    intros f' e' Hf' He'. apply IH; [discriminate | exact Hrest | exact He' | lia].
Qed.

Theorem read_enumerated_print : forall its ext rest,
  enum_wf its ext ->
  read_enumerated (print_enumerated its ext ++ rest) = POk (map enum_item_value its, ext, rest).
Proof.
  intros its ext rest [Hne [Hpos Hok]]. unfold read_enumerated, print_enumerated. cbn [app].
  rewrite nse_P. cbn [pbind].
  rewrite read_enumerated_loop_print; [| exact Hne | exact Hok | |].
  - cbn [rev app length]. rewrite ext_result_top. reflexivity.
  - apply marker_ok_top, Hpos.
  - rewrite app_length. lia.
Qed.

Lemma eq_ignore_case_length : forall a b, eq_ignore_case a b = true -> length a = length b.
Proof.
  induction a as [|x a IH]; destruct b as [|y b]; cbn [eq_ignore_case]; intros H; try discriminate; [reflexivity|].
  apply andb_true_iff in H. destruct H as [_ H]. cbn [length]. f_equal. apply IH. exact H.
Qed.

Lemma single_letter : forall s k, 97 <= k -> k <= 122 -> eq_ignore_case s [k] = true -> s = [k] \/ s = [k - 32].
Proof.
  intros s k H1 H2 H. destruct s as [|c [|d r]]; cbn [eq_ignore_case] in H; try discriminate.
  - rewrite andb_true_r in H. apply N.eqb_eq in H. unfold to_ascii_lower in H.
    destruct ((65 <=? c) && (c <=? 90)) eqn:Ec; destruct ((65 <=? k) && (k <=? 90)) eqn:Ek; try lia.
    + right. f_equal. lia.
    + left. f_equal. exact H.
  - apply andb_true_iff in H. destruct H as [_ H]. discriminate H.
Qed.

Lemma literal_string : forall body, literal_of_asn_str (34 :: body ++ [34]) = POk (Some (LString body)).
Proof.
  intros body. unfold literal_of_asn_str. rewrite !(low_head_not_keyword (_ :: _)) by reflexivity.
  replace (ends_with (34 :: body ++ [34]) [34]) with true by (symmetry; apply (ends_with_suffix (34 :: body) [34] [34] eq_refl)).
  cbn [andb].
  destruct (body ++ [34])%list as [|b r] eqn:E; [destruct body; discriminate E|].
  rewrite <- E. rewrite removelast_last. reflexivity.
Qed.

Lemma literal_int : forall s z, is_int_text s = true -> parse_i64 s = Some z ->
  literal_of_asn_str s = POk (Some (LInteger z)).
Proof.
  intros s z Hi Hp. unfold literal_of_asn_str.
  rewrite !(low_head_not_keyword s) by (reflexivity || exact (i64_numeral_head s z Hp)).
  destruct s as [|c r]; [discriminate Hp|]. rewrite (first_char_is c r).
  assert (Hc : (c =? 34) = false).
  { destruct (c =? 34) eqn:E; [|reflexivity]. apply N.eqb_eq in E. subst c.
    assert (Hn : parse_i64 (34 :: r) = None) by reflexivity. congruence. }
  rewrite Hc. cbn [andb]. rewrite Hi, Hp. reflexivity.
Qed.

Lemma literal_bool : forall s (b : bool), eq_ignore_case s (if b then KW "true" else KW "false") = true ->
  literal_of_asn_str s = POk (Some (LBool b)).
Proof.
  intros s b H. unfold literal_of_asn_str. destruct b.
  - rewrite H. reflexivity.
  - destruct (eq_ignore_case s (KW "true")) eqn:E.
    + apply eq_ignore_case_length in E. apply eq_ignore_case_length in H. rewrite E in H. discriminate H.
    + rewrite H. reflexivity.
Qed.

Lemma removelast2 : forall (body : str) x y, removelast (removelast (body ++ [x; y])) = body.
Proof.
  intros body x y. change (body ++ [x; y])%list with (body ++ [x] ++ [y])%list. rewrite app_assoc.
  rewrite removelast_last. apply removelast_last.
Qed.

(* 'body'x: the hstring and bstring arms of try_from_asn_str; the two slices leave the body *)
Lemma literal_apos : forall body x,
  literal_of_asn_str (39 :: body ++ [39; x]) =
  if (x =? 104) || (x =? 72) then
    if forallb is_hexdigit body then POk (Some (LOctets (hex_bytes body))) else POk None
  else if (x =? 98) || (x =? 66) then
    if forallb (fun c => (c =? 48) || (c =? 49)) body then POk (Some (LOctets (bit_bytes body))) else POk None
  else POk None.
Proof.
  intros body x. unfold literal_of_asn_str. rewrite !(low_head_not_keyword (_ :: _)) by reflexivity.
  change (39 :: body ++ [39; x])%list with ((39 :: body) ++ [39; x])%list.
  rewrite !(ends_with_suffix _ [39; x] [39; _]) by reflexivity. cbn [app str_eqb]. rewrite !andb_true_r.
  assert (E : exists a b r, (body ++ [39; x])%list = a :: b :: r) by (destruct body as [|a [|b r]]; repeat eexists).
  destruct E as (a & b & r & E). rewrite E. change (is_int_text (39 :: a :: b :: r)) with false.
  rewrite <- E, removelast2. reflexivity.
Qed.

Lemma literal_hex : forall hex suffix,
  forallb is_hexdigit hex = true -> eq_ignore_case suffix (KW "H") = true ->
  literal_of_asn_str (39 :: hex ++ 39 :: suffix) = POk (Some (LOctets (hex_bytes hex))).
Proof.
  intros hex suffix Hh Hs.
  (* KW "H" is the capital letter: eq_ignore_case lowers both sides *)
  destruct (single_letter suffix 104) as [-> | ->]; [lia | lia | destruct suffix; exact Hs | |];
    rewrite literal_apos, Hh; reflexivity.
Qed.

Lemma literal_bits : forall bits suffix,
  forallb (fun c => (c =? 48) || (c =? 49)) bits = true -> eq_ignore_case suffix (KW "B") = true ->
  literal_of_asn_str (39 :: bits ++ 39 :: suffix) = POk (Some (LOctets (bit_bytes bits))).
Proof.
  intros bits suffix Hb Hs.
  destruct (single_letter suffix 98) as [-> | ->]; [lia | lia | destruct suffix; exact Hs | |];
    rewrite literal_apos, Hb; reflexivity.
Qed.

Lemma hex_bytes_even : forall hex, Nat.even (length hex) = true -> hex_bytes hex = hex_pairs hex.
Proof.
  intros hex H. unfold hex_bytes. apply Nat.even_spec in H. destruct H as [k Hk]. rewrite Hk.
  replace (N.of_nat (2 * k)) with (2 * N.of_nat k) by lia. rewrite N.odd_mul. reflexivity.
Qed.

Lemma bit_bytes_aligned : forall bits, Nat.modulo (length bits) 8 = O ->
  bit_bytes bits = chunks8 (S (length bits)) bits.
Proof. intros bits H. unfold bit_bytes. rewrite H. reflexivity. Qed.

Lemma read_string_loop_pieces : forall delim l ps fuel col acc rest,
  Forall (piece_ok delim) ps -> (length (print_pieces delim l col ps) <= fuel)%nat ->
  read_string_loop fuel delim (print_pieces delim l col ps ++ rest) acc col
  = POk ((acc ++ concat (map piece_text ps) ++ [delim])%list, rest).
Proof.
  intros delim l. induction ps as [|p ps IH]; intros fuel col acc rest Hok Hf;
    (destruct fuel as [|fuel]; [cbn [print_pieces length] in Hf; lia|]).
  - cbn [print_pieces app read_string_loop next_or_err pbind eq_separator]. rewrite N.eqb_refl. reflexivity.
  - inversion Hok as [|? ? Hp Hps]; subst.
    assert (Hsp : forall g, spaces col (col + g) = repeat 32 (N.to_nat g)).
    { intros g. unfold spaces. f_equal. lia. }
    cbn [print_pieces app read_string_loop next_or_err pbind].
    destruct p as [g s | g c]; cbn [piece_tok eq_separator piece_end piece_text].
    + rewrite Hsp. rewrite IH; [| exact Hps | apply le_S_n, Hf].
      cbn [map concat piece_text]. rewrite <- !app_assoc. reflexivity.
    + cbn [piece_ok] in Hp. apply N.eqb_neq in Hp. rewrite Hp.
      rewrite Hsp. rewrite IH; [| exact Hps | apply le_S_n, Hf].
      cbn [map concat piece_text]. rewrite <- !app_assoc. reflexivity.
Qed.

Lemma read_string_literal_print : forall delim l col first ps rest,
  Forall (piece_ok delim) ps ->
  read_string_literal delim (print_quoted delim l col first ps ++ rest)
  = POk (delim :: (first ++ concat (map piece_text ps)) ++ [delim], rest)%list.
Proof.
  intros delim l col first ps rest Hok. unfold read_string_literal, print_quoted. cbn [app].
  rewrite nse_S. cbn [pbind next_or_err tok_text tok_column].
  rewrite read_string_loop_pieces; [| exact Hok |].
  - rewrite <- !app_assoc. reflexivity.
  - rewrite app_length. lia.
Qed.

Lemma read_literal_quoted : forall delim l col first ps rest,
  read_literal (print_quoted delim l col first ps ++ rest) =
  (let? (s, r') :=
     (if delim =? C_QUOTE then read_string_literal C_QUOTE (print_quoted delim l col first ps ++ rest)
      else if delim =? C_APOS then read_hex_or_bit_string_literal (print_quoted delim l col first ps ++ rest)
      else PErr E_UNSUPPORTED_LITERAL (Some (Separator l col delim))) in
   let? l0 := literal_of_asn_str s in
   match l0 with
   | Some v => POk (v, r')
   | None => PErr E_INVALID_LITERAL (Some (Text l col s))
   end).
Proof. reflexivity. Qed.

Lemma read_literal_apos : forall l col body k suffix rest,
  eq_ignore_case suffix (KW "H") || eq_ignore_case suffix (KW "B") = true ->
  read_literal (print_quoted C_APOS l col body [] ++ Text l k suffix :: rest) =
  (let? l0 := literal_of_asn_str (39 :: body ++ 39 :: suffix) in
   match l0 with
   | Some v => POk (v, rest)
   | None => PErr E_INVALID_LITERAL (Some (Text l col (39 :: body ++ 39 :: suffix)))
   end).
Proof.
  intros l col body k suffix rest Hs. rewrite read_literal_quoted.
  change (C_APOS =? C_QUOTE) with false. change (C_APOS =? C_APOS) with true. cbv iota.
  unfold read_hex_or_bit_string_literal. rewrite read_string_literal_print by constructor. cbn [pbind app map concat].
  unfold next_text_eq_any_ic_or_err. cbn [existsb eq_text_ic]. rewrite orb_false_r, Hs. cbn [pbind].
  rewrite app_nil_r, <- app_assoc. reflexivity.
Qed.

Theorem read_literal_print : forall v rest,
  slit_wf v -> read_literal (print_slit v ++ rest) = POk (denote_slit v, rest).
Proof.
  intros v rest Hwf. destruct v as [s b | s z | l col first ps | l col hex suffix | l col bits suffix];
    cbn [slit_wf] in Hwf; cbn [print_slit denote_slit].
  - cbn [app]. unfold read_literal. cbn [peek_is_text_ic]. rewrite !eqtext_T.
    assert (Hc : eq_ignore_case s (KW "true") || eq_ignore_case s (KW "false") = true).
    { destruct b; rewrite Hwf; [reflexivity | apply orb_true_r]. }
    rewrite Hc. cbn [orb]. rewrite nte_T. cbn [pbind]. rewrite (literal_bool s b Hwf). reflexivity.
  - destruct Hwf as [Hi Hp]. cbn [app]. unfold read_literal. rewrite toktext_T, Hi, !orb_true_r.
    rewrite nte_T. cbn [pbind]. rewrite (literal_int s z Hi Hp). reflexivity.
  - rewrite read_literal_quoted. change (C_QUOTE =? C_QUOTE) with true. cbv iota.
    rewrite read_string_literal_print by exact Hwf. cbn [pbind].
    change C_QUOTE with 34. rewrite literal_string. reflexivity.
  - destruct Hwf as (Hh & He & Hs). rewrite <- app_assoc. cbn [app].
    rewrite read_literal_apos by (rewrite Hs; reflexivity).
    rewrite (literal_hex hex suffix Hh Hs), (hex_bytes_even hex He). reflexivity.
  - destruct Hwf as (Hb & He & Hs). rewrite <- app_assoc. cbn [app].
    rewrite read_literal_apos by (rewrite Hs; apply orb_true_r).
    rewrite (literal_bits bits suffix Hb Hs), (bit_bytes_aligned bits He). reflexivity.
Qed.

Theorem read_literal_value_ref : forall s rest,
  value_ref_ok s -> read_literal (T s :: rest) = PErr E_UNSUPPORTED_LITERAL (Some (T s)).
Proof.
  intros s rest [H1 [H2 H3]]. unfold read_literal. cbn [peek_is_text_ic]. rewrite !eqtext_T, toktext_T, H1, H2, H3.
  reflexivity.
Qed.

Lemma oid_body_no_lparen : forall cs rest,
  peek_is_sep C_LPAREN (flat_map print_oidc cs ++ P C_RBRACE :: rest) = false.
Proof.
  intros [|[c num] cs] rest; [reflexivity|]. cbn [flat_map]. unfold print_oidc. cbn [fst snd].
  destruct c; reflexivity.
Qed.

Lemma read_oid_loop_print : forall cs fuel acc rest,
  Forall oidc_ok cs -> (length (flat_map print_oidc cs) < fuel)%nat ->
  read_oid_loop fuel (flat_map print_oidc cs ++ P C_RBRACE :: rest) acc = POk ((rev acc ++ map fst cs)%list, rest).
Proof.
  induction cs as [|[c num] cs IH]; intros fuel acc rest Hok Hf; (destruct fuel as [|fuel]; [lia|]).
  - cbn [flat_map app map]. rewrite app_nil_r. reflexivity.
  - inversion Hok as [|? ? Hc Hcs]; subst. cbn [flat_map] in Hf. rewrite app_length in Hf. unfold print_oidc at 1 in Hf.
    cbn [flat_map map fst]. unfold print_oidc at 1. cbn [fst snd] in Hf |- *. unfold oidc_ok in Hc. cbn [fst snd] in Hc.
    destruct c as [s | n | s n]; cbn [app length] in Hf |- *; unfold T at 1; cbn [read_oid_loop eq_separator].
    + rewrite Hc. rewrite (nis_no _ _ (oid_body_no_lparen cs rest)).
      rewrite IH; [| exact Hcs | lia]. cbn [rev]. rewrite <- app_assoc. reflexivity.
    + destruct Hc as [Hn Hp]. rewrite Hn, Hp.
      rewrite IH; [| exact Hcs | lia]. cbn [rev]. rewrite <- app_assoc. reflexivity.
    + destruct Hc as [Hn Hp]. rewrite Hn. tk. rewrite Hp. tk.
      rewrite IH; [| exact Hcs | lia]. cbn [rev]. rewrite <- app_assoc. reflexivity.
Qed.

Theorem read_oid_print : forall cs rest,
  Forall oidc_ok cs -> read_oid (print_oid_body cs ++ rest) = POk (map fst cs, rest).
Proof.
  intros cs rest Hok. unfold read_oid, print_oid_body. rewrite <- app_assoc. cbn [app].
  rewrite read_oid_loop_print; [reflexivity | exact Hok |].
  rewrite app_length. lia.
Qed.

Theorem maybe_read_oid_print : forall o rest,
  opt_oid_ok o -> (o = None -> peek_is_sep C_LBRACE rest = false) ->
  maybe_read_oid (print_opt_oid o ++ rest) = POk (denote_opt_oid o, rest).
Proof.
  intros [cs|] rest Hok Hfollow; unfold maybe_read_oid; cbn [print_opt_oid app denote_opt_oid option_map].
  - rewrite nis_P. rewrite read_oid_print by exact Hok. reflexivity.
  - rewrite (nis_no _ _ (Hfollow eq_refl)). reflexivity.
Qed.

Lemma imports_no_lbrace : forall is rest, Forall import_ok is ->
  peek_is_sep C_LBRACE (flat_map print_import is ++ P C_SEMI :: rest) = false.
Proof.
  intros [|i is] rest Hok; [reflexivity|]. inversion Hok as [|? ? [Hw _] _]; subst.
  cbn [flat_map]. unfold print_import at 1. destruct (si_what i) as [|s [|s2 ss]]; [congruence | reflexivity | reflexivity].
Qed.

(* the loop inside an import: ss are the symbols still to come, is the imports behind it *)
Lemma read_imports_loop_print : forall fuel ss what acc from oid is rest,
  ss <> [] -> opt_oid_ok oid -> Forall import_ok is ->
  (length (print_symbols ss ++ T (KW "FROM") :: T from :: print_opt_oid oid ++ flat_map print_import is) < fuel)%nat ->
  read_imports_loop fuel
    (print_symbols ss ++ T (KW "FROM") :: T from :: print_opt_oid oid ++ flat_map print_import is ++ P C_SEMI :: rest)
    what acc
  = POk ((rev acc ++ {| i_what := what ++ ss; i_from := from; i_from_oid := denote_opt_oid oid |}
                     :: map denote_import is)%list, rest).
Proof.
  induction fuel as [|fuel IH]; intros ss what acc from oid is rest Hne Hoid His Hf; [lia|].
  destruct ss as [|s [|s2 ss]]; [congruence | |].
  - cbn [print_symbols app length] in Hf |- *. unfold T at 1. cbn [read_imports_loop eq_separator]. tk.
    rewrite eqsep_T, eqtext_T. change (eq_ignore_case (KW "FROM") (KW "FROM")) with true. cbv iota. tk.
    rewrite maybe_read_oid_print; [| exact Hoid | intros _; apply imports_no_lbrace; exact His]. cbn [pbind].
    rewrite app_length in Hf.
    destruct is as [|i is].
    + destruct fuel as [|fuel]; [lia|]. reflexivity.
    + inversion His as [|? ? [Hw Ho] His']; subst. cbn [flat_map map] in Hf |- *.
      unfold print_import at 1 in Hf. unfold print_import at 1.
      rewrite <- !app_assoc. cbn [app]. rewrite <- !app_assoc in Hf. cbn [app] in Hf.
      rewrite IH; [| assumption .. | lia]. cbn [rev]. rewrite <- app_assoc. reflexivity.
  - change (print_symbols (s :: s2 :: ss)) with (T s :: P C_COMMA :: print_symbols (s2 :: ss)) in *.
    cbn [app length] in Hf |- *. unfold T at 1. cbn [read_imports_loop eq_separator]. tk. rewrite eqsep_P.
    change (C_COMMA =? C_COMMA) with true. cbv iota.
    rewrite IH; [| discriminate | assumption .. | lia]. rewrite <- app_assoc. reflexivity.
Qed.

Theorem read_imports_print : forall is rest,
  Forall import_ok is -> read_imports (print_imports is ++ rest) = POk (map denote_import is, rest).
Proof.
  intros [|i is] rest Hok; [reflexivity|]. inversion Hok as [|? ? [Hw Ho] His]; subst.
  unfold read_imports, print_imports. cbn [flat_map]. unfold print_import at 1 3. rewrite <- !app_assoc. cbn [app].
  apply (read_imports_loop_print _ _ [] []); try assumption. rewrite !app_length. cbn [length]. rewrite !app_length. lia.
Qed.

(* read_sequence_or_sequence_of: what SEQUENCE and SET do, up to the constructors *)
Definition seq_or_set (mk_of : uty -> size (lit_or_ref N) -> uty) (mk : list ufield -> option N -> uty)
    (f : nat) (ts : toks) : pres (uty * toks) :=
  let? (size, r) := maybe_read_size ts in
  let (b, r1) := next_is_text_ic (KW "OF") r in
  if b then
    let? (text', r2) := next_text_or_err r1 in
    let? (inner, ts') := read_role_given_text f text' r2 in POk (mk_of inner size, ts')
  else let? (fs, e, ts') := read_components f r1 in POk (mk fs e, ts').

(* the arm of read_role_given_text that the type word of s selects *)
Definition role_body (s : sty) (f : nat) (ts : toks) : pres (uty * toks) :=
  match s with
  | SBoolean => POk (TBoolean, ts)
  | SNull => POk (TNull, ts)
  | SInteger _ _ => let? (r, c, ts') := read_integer ts in POk (TInteger r c, ts')
  | SString cs _ => let? (z, ts') := maybe_read_size ts in POk (TString z cs, ts')
  | SOctetString _ =>
      let? (_, r) := next_text_eq_ic_or_err (KW "STRING") ts in
      let? (z, ts') := maybe_read_size r in POk (TOctetString z, ts')
  | SBitString _ _ =>
      let? (_, r) := next_text_eq_ic_or_err (KW "STRING") ts in
      let? (c, r1) := maybe_read_constants N constant_u64_parser r in
      let? (z, ts') := maybe_read_size r1 in POk (TBitString z c, ts')
  | SEnumerated _ _ => let? (v, e, ts') := read_enumerated ts in POk (TEnumerated v e, ts')
  | SChoice _ _ => let? (v, e, ts') := read_choice f ts in POk (TChoice v e, ts')
  | SSequence _ _ | SSequenceOf _ _ => seq_or_set TSequenceOf TSequence f ts
  | SSet _ _ | SSetOf _ _ => seq_or_set TSetOf TSet f ts
  | SRef name => let? ts' := maybe_read_with_components ts in POk (TRef name None, ts')
  end.

Lemma rrgt_word : forall s f ts, wf_sty s -> read_role_given_text (S f) (sty_word s) ts = role_body s f ts.
Proof.
  intros s f ts H. destruct s; try reflexivity; [destruct cs; reflexivity|].
  (* a reference: its name is none of the fourteen words *)
  cbn [wf_sty sty_word role_body read_role_given_text] in *. unfold is_builtin_word in H.
  repeat (apply orb_false_iff in H; destruct H as [H ?]).
  unfold charset_of.
  repeat match goal with E : str_eqb _ _ = false |- _ => rewrite E; clear E end.
  reflexivity.
Qed.

Lemma nit_of : forall r, next_is_text_ic (KW "OF") (T (KW "OF") :: r) = (true, r). Proof. reflexivity. Qed.
Lemma mrs_lbrace : forall r, maybe_read_size (P C_LBRACE :: r) = POk (SAny, P C_LBRACE :: r). Proof. reflexivity. Qed.

Lemma print_size_head : forall s sa sb rest, size_wf s sa sb ->
  next_is_sep C_LPAREN (print_size s sa sb ++ rest) = (false, print_size s sa sb ++ rest) /\
  peek_is_text_ic (KW "SIZE") (print_size s sa sb ++ rest) = true /\
  peek_is_sep C_LBRACE (print_size s sa sb ++ rest) = false.
Proof. intros [|a e|a b e] sa sb rest H; [contradiction H| |]; repeat split; reflexivity. Qed.

Lemma maybe_read_size_print : forall z rest, ssize_wf z ->
  (z = SSNone -> peek_is_sep C_LPAREN rest = false /\ peek_is_text_ic (KW "SIZE") rest = false) ->
  maybe_read_size (print_ssize z ++ rest) = POk (denote_ssize z, rest).
Proof.
  intros [|s sa sb|s sa sb] rest Hwf Hf; cbn [ssize_wf] in Hwf; unfold maybe_read_size; cbn [print_ssize denote_ssize].
  - destruct (Hf eq_refl) as [H1 H2]. cbn [app]. rewrite (nis_no _ _ H1). rewrite H2. reflexivity.
  - destruct (print_size_head s sa sb rest Hwf) as [H1 [H2 _]]. rewrite H1, H2. cbv beta iota.
    apply read_size_print. exact Hwf.
  - cbn [app]. rewrite nis_P. rewrite <- app_assoc. rewrite read_size_print by exact Hwf. cbn [pbind app].
    rewrite nse_P. reflexivity.
Qed.

Lemma print_ssize_no_lbrace : forall z rest, ssize_wf z ->
  (z = SSNone -> peek_is_sep C_LBRACE rest = false) -> peek_is_sep C_LBRACE (print_ssize z ++ rest) = false.
Proof.
  intros [|s sa sb|s sa sb] rest Hwf Hf; cbn [ssize_wf] in Hwf; cbn [print_ssize].
  - apply Hf. reflexivity.
  - apply (print_size_head s sa sb rest Hwf).
  - reflexivity.
Qed.

Lemma read_integer_consts_only : forall (cs : list (str * str * Z)) rest,
  Forall (item_ok Z constant_i64_parser) cs ->
  (cs = [] -> peek_is_sep C_LBRACE rest = false) -> peek_is_sep C_LPAREN rest = false ->
  read_integer (print_constants cs ++ rest) = POk ((None, None, false), map item_value cs, rest).
Proof.
  intros cs rest Hok H1 H2. rewrite read_integer_eq, maybe_read_constants_print by assumption. cbn [pbind].
  unfold read_integer_rest. rewrite (nis_no _ _ H2). reflexivity.
Qed.

Lemma follow_ok_tok : forall s t r,
  eq_separator t C_LBRACE = false -> eq_separator t C_LPAREN = false -> eq_text_ic t (KW "SIZE") = false ->
  follow_ok s (t :: r).
Proof.
  intros s t r H1 H2 H3. unfold follow_ok. destruct (follow_req s) as [[b p] z].
  cbn [peek_is_sep peek_is_text_ic]. auto.
Qed.

Definition ends_item (tl : list token) : Prop :=
  exists c tl', tl = P c :: tl' /\ (c = C_COMMA \/ c = C_RBRACE).

Lemma follow_ok_ends_item : forall s tl, ends_item tl -> follow_ok s tl.
Proof. intros s tl [c [tl' [-> [-> | ->]]]]; apply follow_ok_tok; reflexivity. Qed.

Lemma ends_item_sepc : forall b tl, ends_item (P (sepc b) :: tl).
Proof. intros b tl. exists (sepc b), tl. destruct b; auto. Qed.

Lemma follow_ok_sdefault : forall s d tl, ends_item tl -> follow_ok s (print_sdefault d ++ tl).
Proof.
  intros s [| |l|x] tl H; cbn [print_sdefault app];
    [apply follow_ok_ends_item; exact H | apply follow_ok_tok; reflexivity ..].
Qed.

Lemma ends_item_ext_here : forall e tl, ends_item tl -> ends_item (ext_here e ++ tl).
Proof.
  intros [[|k]|] tl H; cbn [ext_here app]; try exact H.
  exists C_COMMA, (marker_toks ++ tl)%list. split; [reflexivity | left; reflexivity].
Qed.

Lemma field_clause_print : forall ty0 d c tl t1 r3,
  sdefault_wf d -> (print_sdefault d ++ P c :: tl)%list = t1 :: r3 ->
  field_clause ty0 t1 r3
  = POk (match d with SDOptional => TOptional ty0 | _ => ty0 end, denote_sdefault d, P c, tl).
Proof.
  intros ty0 [| | l | s] c tl t1 r3 Hd E; cbn [print_sdefault app sdefault_wf denote_sdefault] in *;
    injection E as <- <-; unfold field_clause.
  - rewrite !eqtext_P. reflexivity.
  - rewrite eqtext_T. change (eq_ignore_case (KW "OPTIONAL") (KW "OPTIONAL")) with true. cbv iota. tk. reflexivity.
  - rewrite eqtext_T, eqtext_T. change (eq_ignore_case (KW "DEFAULT") (KW "OPTIONAL")) with false.
    change (eq_ignore_case (KW "DEFAULT") (KW "DEFAULT")) with true. cbv iota.
    rewrite read_literal_print by exact Hd. tk. reflexivity.
  - rewrite eqtext_T, eqtext_T. change (eq_ignore_case (KW "DEFAULT") (KW "OPTIONAL")) with false.
    change (eq_ignore_case (KW "DEFAULT") (KW "DEFAULT")) with true. cbv iota.
    rewrite read_literal_value_ref by exact Hd.
    change (E_UNSUPPORTED_LITERAL =? E_UNSUPPORTED_LITERAL) with true. rewrite istext_T. cbn [andb]. tk. reflexivity.
Qed.

Lemma read_field_print : forall f name (tag : stag) t d (b : bool) tl,
  stag_ok tag -> sdefault_wf d ->
  read_role_given_text f (sty_word t) (sty_args t ++ print_sdefault d ++ P (sepc b) :: tl)
    = POk (denote_sty t, print_sdefault d ++ P (sepc b) :: tl) ->
  read_field (S f)
    (T name :: print_opt_tag (fst tag) (snd tag) ++ T (sty_word t) :: sty_args t ++ print_sdefault d ++ P (sepc b) :: tl)
  = POk ((name, (fst tag, match d with SDOptional => TOptional (denote_sty t) | _ => denote_sty t end,
                 denote_sdefault d)),
         b, tl).
Proof.
  intros f name tag t d b tl Htag Hd Ht.
  rewrite read_field_S. tk. rewrite next_with_opt_tag_print by exact Htag. tk. rewrite Ht. cbn [pbind].
  destruct (print_sdefault d ++ P (sepc b) :: tl)%list as [|t1 r3] eqn:E; [destruct d; discriminate E|]. tk.
  rewrite (field_clause_print _ d _ tl t1 r3 Hd E). cbn [pbind]. rewrite !eqsep_P.
  destruct b; reflexivity.
Qed.

(* The three statements of the mutual induction over sty / sfields / svariants: Ps s for a type behind its word, Pf fs
   for the components behind "{", Pv vs for the alternatives.  The call on the type word costs one unit of fuel, whatever
   the type; behind it two units per printed token are enough, because of two calls in a row one consumes a token (the
   comment at stp_type_grammar in Front/ParseTotalProofs.v) *)
Definition Ps (s : sty) : Prop := forall f rest,
  wf_sty s -> follow_ok s rest -> (2 * length (sty_args s) < f)%nat ->
  read_role_given_text (S f) (sty_word s) (sty_args s ++ rest) = POk (denote_sty s, rest).

Definition Pf (fs : sfields) : Prop := forall fuel acc e0 ext rest,
  wf_sfields fs -> marker_ok ext (sfields_length fs) e0 ->
  (2 * length (print_fields fs ext) <= fuel)%nat ->
  components_loop fuel (print_fields fs ext ++ rest) acc e0
  = POk ((rev acc ++ denote_fields fs)%list, ext_result (length acc) ext e0, rest).

Definition Pv (vs : svariants) : Prop := forall fuel acc e0 ext rest,
  vs <> SVNil -> wf_svariants vs -> marker_ok ext (svariants_length vs) e0 ->
  (2 * length (print_variants vs ext) <= fuel)%nat ->
  choice_loop fuel (print_variants vs ext ++ rest) acc e0
  = POk ((rev acc ++ denote_variants vs)%list, ext_result (length acc) ext e0, rest).

(* a production is proved on its arm *)
Lemma ps_intro : forall s,
  (forall f rest, wf_sty s -> follow_ok s rest -> (2 * length (sty_args s) < f)%nat ->
     role_body s f (sty_args s ++ rest) = POk (denote_sty s, rest)) -> Ps s.
Proof. intros s H f rest Hwf Hfo Hf. rewrite rrgt_word by exact Hwf. apply H; assumption. Qed.

Lemma ps_boolean : Ps SBoolean.
Proof. apply ps_intro. reflexivity. Qed.

Lemma ps_null : Ps SNull.
Proof. apply ps_intro. reflexivity. Qed.

Lemma ps_integer : forall cs rg, Ps (SInteger cs rg).
Proof.
  intros cs rg. apply ps_intro. intros f rest [Hcs Hrg] Hfo _.
  cbn [role_body sty_args denote_sty]. rewrite <- app_assoc.
  destruct rg as [[[r sa] sb]|]; cbn [print_opt_range denote_range].
  - rewrite read_integer_print by assumption. reflexivity.
  - cbn [app]. unfold follow_ok in Hfo. rewrite read_integer_consts_only.
    + reflexivity.
    + exact Hcs.
    + intros ->. cbn [follow_req] in Hfo. apply Hfo. reflexivity.
    + destruct cs; cbn [follow_req] in Hfo; apply Hfo; reflexivity.
Qed.

Lemma follow_ok_no_size : forall s rest b, follow_ok s rest -> follow_req s = (b, true, true) ->
  peek_is_sep C_LPAREN rest = false /\ peek_is_text_ic (KW "SIZE") rest = false.
Proof. intros s rest b H E. unfold follow_ok in H. rewrite E in H. destruct H as (_ & H1 & H2). auto. Qed.

Lemma ps_string : forall cs sz, Ps (SString cs sz).
Proof.
  intros cs sz. apply ps_intro. intros f rest Hwf Hfo _. cbn [wf_sty] in Hwf. cbn [role_body sty_args denote_sty].
  rewrite maybe_read_size_print; [reflexivity | exact Hwf |].
  intros ->. exact (follow_ok_no_size _ _ false Hfo eq_refl).
Qed.

Lemma ps_octet : forall sz, Ps (SOctetString sz).
Proof.
  intros sz. apply ps_intro. intros f rest Hwf Hfo _. cbn [wf_sty] in Hwf. cbn [role_body sty_args denote_sty app].
  rewrite nteq_T by reflexivity. cbn [pbind].
  rewrite maybe_read_size_print; [reflexivity | exact Hwf |].
  intros ->. exact (follow_ok_no_size _ _ false Hfo eq_refl).
Qed.

Lemma ps_bit : forall cs sz, Ps (SBitString cs sz).
Proof.
  intros cs sz. apply ps_intro. intros f rest [Hcs Hsz] Hfo _.
  cbn [role_body sty_args denote_sty app]. rewrite nteq_T by reflexivity. cbn [pbind].
  rewrite <- app_assoc. unfold follow_ok in Hfo.
  rewrite maybe_read_constants_print; [| exact Hcs |].
  - cbn [pbind]. rewrite maybe_read_size_print; [reflexivity | exact Hsz |].
    intros ->. fold (follow_ok (SBitString cs SSNone) rest) in Hfo. destruct cs; exact (follow_ok_no_size _ _ _ Hfo eq_refl).
  - intros ->. apply print_ssize_no_lbrace; [exact Hsz|]. intros ->. cbn [follow_req] in Hfo. apply Hfo. reflexivity.
Qed.

Lemma ps_enumerated : forall its ext, Ps (SEnumerated its ext).
Proof.
  intros its ext. apply ps_intro. intros f rest Hwf _ _. cbn [wf_sty] in Hwf. cbn [role_body sty_args denote_sty].
  rewrite read_enumerated_print by exact Hwf. reflexivity.
Qed.

Lemma ps_ref : forall name, Ps (SRef name).
Proof.
  intros name. apply ps_intro. intros f rest _ Hfo _. cbn [role_body sty_args denote_sty app].
  unfold follow_ok in Hfo. cbn [follow_req] in Hfo. destruct Hfo as [_ [Hp _]].
  unfold maybe_read_with_components. rewrite (nis_no _ _ (Hp eq_refl)). reflexivity.
Qed.

Lemma seq_or_set_of : forall mk_of mk sz t f rest,
  Ps t -> ssize_wf sz -> wf_sty t -> follow_ok t rest ->
  (2 * length (print_ssize sz ++ T (KW "OF") :: T (sty_word t) :: sty_args t) < f)%nat ->
  seq_or_set mk_of mk f ((print_ssize sz ++ T (KW "OF") :: T (sty_word t) :: sty_args t) ++ rest)
  = POk (mk_of (denote_sty t) (denote_ssize sz), rest).
Proof.
  intros mk_of mk sz t f rest IHt Hsz Hwt Hfo Hfuel. unfold seq_or_set.
  rewrite app_length in Hfuel. cbn [length] in Hfuel. destruct f as [|f]; [lia|]. rewrite <- app_assoc.
  rewrite maybe_read_size_print; [| exact Hsz | intros _; split; reflexivity].
  cbn [pbind app]. rewrite nit_of. rewrite nte_T. cbn [pbind].
  rewrite IHt; [reflexivity | exact Hwt | exact Hfo | lia].
Qed.

Lemma ps_seqof : forall sz t, Ps t -> Ps (SSequenceOf sz t).
Proof.
  intros sz t IHt. apply ps_intro. intros f rest [Hsz Hwt] Hfo Hfuel. apply seq_or_set_of; assumption.
Qed.

Lemma ps_setof : forall sz t, Ps t -> Ps (SSetOf sz t).
Proof.
  intros sz t IHt. apply ps_intro. intros f rest [Hsz Hwt] Hfo Hfuel. apply seq_or_set_of; assumption.
Qed.

Lemma seq_or_set_fields : forall mk_of mk fs ext f rest,
  Pf fs -> wf_sfields fs -> ext_pos_ok ext (sfields_length fs) ->
  (2 * length (print_fields fs (option_map N.to_nat ext)) <= f)%nat ->
  seq_or_set mk_of mk (S f) (P C_LBRACE :: print_fields fs (option_map N.to_nat ext) ++ rest)
  = POk (mk (denote_fields fs) ext, rest).
Proof.
  intros mk_of mk fs ext f rest IHf Hwf Hpos Hfuel. unfold seq_or_set.
  rewrite mrs_lbrace. tk. cbv beta iota. cbn [read_components]. tk.
  rewrite IHf; [| exact Hwf | apply marker_ok_top, Hpos | exact Hfuel].
  cbn [rev app length]. rewrite ext_result_top. reflexivity.
Qed.

Lemma ps_sequence : forall fs ext, Pf fs -> Ps (SSequence fs ext).
Proof.
  intros fs ext IHf. apply ps_intro. intros f rest [Hwf Hpos] _ Hfuel. cbn [sty_args length] in Hfuel.
  destruct f as [|f]; [lia|]. apply seq_or_set_fields; try assumption. lia.
Qed.

Lemma ps_set : forall fs ext, Pf fs -> Ps (SSet fs ext).
Proof.
  intros fs ext IHf. apply ps_intro. intros f rest [Hwf Hpos] _ Hfuel. cbn [sty_args length] in Hfuel.
  destruct f as [|f]; [lia|]. apply seq_or_set_fields; try assumption. lia.
Qed.

Lemma ps_choice : forall vs ext, Pv vs -> Ps (SChoice vs ext).
Proof.
  intros vs ext IHv. apply ps_intro. intros f rest (Hne & Hwf & Hpos) _ Hfuel.
  cbn [sty_args length] in Hfuel. destruct f as [|f]; [lia|].
  cbn [role_body sty_args denote_sty app read_choice]. rewrite nse_P. cbn [pbind].
  rewrite IHv; [| exact Hne | exact Hwf | | lia].
  - cbn [rev app length pbind]. rewrite ext_result_top. reflexivity.
  - apply marker_ok_top, Hpos.
Qed.

Lemma pf_nil : Pf SFNil.
Proof.
  intros fuel acc e0 ext rest _ Hext Hfuel. cbn [print_fields length] in Hfuel. destruct fuel as [|f]; [lia|].
  cbn [print_fields app denote_fields]. rewrite components_loop_S. rewrite nis_P. cbv beta iota.
  rewrite app_nil_r. destruct ext as [k|]; [|reflexivity]. destruct Hext as [Hk _]. cbn [sfields_length] in Hk. lia.
Qed.

Lemma fields_tail_ends : forall r e rest,
  ends_item (match r with SFNil => [P C_RBRACE] | SFCons _ _ _ _ _ => P C_COMMA :: print_fields r e end ++ rest).
Proof.
  intros [|n tg t d r] e rest; cbn [app].
  - exists C_RBRACE, rest. split; [reflexivity | right; reflexivity].
  - eexists C_COMMA, _. split; [reflexivity | left; reflexivity].
Qed.

Lemma components_mark : forall f (b : bool) more (x : ufield) acc,
  components_loop (S f) (marker_toks ++ P (sepc b) :: more) (x :: acc) None =
  if b then components_loop f more (x :: acc) (Some (N.of_nat (length acc)))
  else POk (rev (x :: acc), Some (N.of_nat (length acc)), more).
Proof.
  intros f b more x acc. rewrite components_loop_S. cbn [marker_toks app].
  rewrite nis_no by reflexivity. cbv beta iota. rewrite nis_P. cbv beta iota zeta. tk. rewrite !eqsep_P.
  rewrite marker_pos. destruct b; reflexivity.
Qed.

Lemma pf_cons : forall name tag t d r, Ps t -> Pf r -> Pf (SFCons name tag t d r).
Proof.
  intros name tag t d r IHt IHr fuel acc e0 ext rest Hwf Hext Hfuel.
  cbn [wf_sfields] in Hwf. destruct Hwf as [Htag [Hwt [Hd Hwr]]].
  cbn [print_fields] in Hfuel |- *. cbn [length] in Hfuel. rewrite !app_length in Hfuel. cbn [length] in Hfuel.
  rewrite !app_length in Hfuel.
  destruct fuel as [|[|[|f]]]; [lia ..|].
  pose (item := fun more : toks =>
    T name :: print_opt_tag (fst tag) (snd tag) ++ T (sty_word t) :: sty_args t ++ print_sdefault d ++ more).
  set (fld := (name, (fst tag, match d with SDOptional => TOptional (denote_sty t) | _ => denote_sty t end,
                      denote_sdefault d)) : ufield).
  assert (Hitem : forall (b : bool) more,
    components_loop (S (S (S f))) (item (P (sepc b) :: more)) acc e0 =
    if b then components_loop (S (S f)) more (fld :: acc) e0 else POk (rev (fld :: acc), e0, more)).
  { intros b more. unfold item. rewrite components_loop_S. rewrite nis_T. cbv beta iota. rewrite nis_T. cbv beta iota.
    rewrite read_field_print; try assumption; [reflexivity|].
    apply IHt; [exact Hwt | apply follow_ok_sdefault, ends_item_sepc | lia]. }
  cbn [app]. rewrite <- !app_assoc. cbn [app]. rewrite <- !app_assoc.
  destruct r as [|n2 tg2 t2 d2 r2]; cbn [app].
  - exact (marker_last _ components_mark _ item _ _ _ Hitem ext rest Hext).
  - apply (marker_cons _ components_mark _ item _ _ _ Hitem ext _ _ _ _ Hext).
    intros f' e' Hf' He'. apply IHr; [exact Hwr | exact He' | cbn [length] in Hfuel; lia].
Qed.

Lemma pv_nil : Pv SVNil.
Proof. intros fuel acc e0 ext rest Hne. congruence. Qed.

Lemma choice_mark : forall f (b : bool) more (x : str * option atag * uty) acc,
  choice_loop (S f) (marker_toks ++ P (sepc b) :: more) (x :: acc) None =
  if b then choice_loop f more (x :: acc) (Some (N.of_nat (length acc)))
  else POk (rev (x :: acc), Some (N.of_nat (length acc)), more).
Proof.
  intros f b more x acc. rewrite choice_loop_S. cbn [marker_toks app]. rewrite nif_P. cbn [is_none_N negb]. tk.
  rewrite marker_pos. destruct b; reflexivity.
Qed.

Lemma pv_cons : forall name tag t r, Ps t -> Pv r -> Pv (SVCons name tag t r).
Proof.
  intros name tag t r IHt IHr fuel acc e0 ext rest _ Hwf Hext Hfuel.
  cbn [wf_svariants] in Hwf. destruct Hwf as [Htag [Hwt Hwr]].
  cbn [print_variants] in Hfuel |- *. cbn [length] in Hfuel. rewrite !app_length in Hfuel. cbn [length] in Hfuel.
  rewrite !app_length in Hfuel.
  destruct fuel as [|[|f]]; [lia ..|].
  pose (item := fun more : toks => T name :: print_opt_tag (fst tag) (snd tag) ++ T (sty_word t) :: sty_args t ++ more).
  set (var := (name, fst tag, denote_sty t) : str * option atag * uty).
  assert (Hitem : forall (b : bool) more,
    choice_loop (S (S f)) (item (P (sepc b) :: more)) acc e0 =
    if b then choice_loop (S f) more (var :: acc) e0 else POk (rev (var :: acc), e0, more)).
  { intros b more. unfold item. rewrite choice_loop_S. tk. rewrite next_with_opt_tag_print by exact Htag. tk.
    rewrite IHt; [| exact Hwt | apply follow_ok_ends_item, ends_item_sepc | lia].
    tk. destruct b; reflexivity. }
  cbn [app]. rewrite <- !app_assoc. cbn [app]. rewrite <- !app_assoc.
  destruct r as [|n2 tg2 t2 r2]; cbn [app].
  - exact (marker_last _ choice_mark _ item _ _ _ Hitem ext rest Hext).
  - apply (marker_cons _ choice_mark _ item _ _ _ Hitem ext _ _ _ _ Hext).
    intros f' e' Hf' He'. apply IHr; [discriminate | exact Hwr | exact He' | cbn [length] in Hfuel; lia].
Qed.

Scheme sty_ind' := Induction for sty Sort Prop
  with sfields_ind' := Induction for sfields Sort Prop
  with svariants_ind' := Induction for svariants Sort Prop.
Combined Scheme sty_mutind from sty_ind', sfields_ind', svariants_ind'.

Lemma type_grammar_all : (forall s, Ps s) /\ (forall fs, Pf fs) /\ (forall vs, Pv vs).
Proof.
  apply sty_mutind; intros.
  - apply ps_boolean.
  - apply ps_null.
  - apply ps_integer.
  - apply ps_string.
  - apply ps_octet.
  - apply ps_bit.
  - apply ps_enumerated.
  - apply ps_sequence; assumption.
  - apply ps_set; assumption.
  - apply ps_seqof; assumption.
  - apply ps_setof; assumption.
  - apply ps_choice; assumption.
  - apply ps_ref.
  - apply pf_nil.
  - apply pf_cons; assumption.
  - apply pv_nil.
  - apply pv_cons; assumption.
Qed.

Theorem read_role_given_text_print : forall s rest fuel,
  wf_sty s -> follow_ok s rest -> (2 * length (print_sty s) <= fuel)%nat ->
  read_role_given_text fuel (sty_word s) (sty_args s ++ rest) = POk (denote_sty s, rest).
Proof.
  intros s rest fuel Hwf Hfo Hfuel. cbn [print_sty length] in Hfuel. destruct fuel as [|f]; [lia|].
  apply (proj1 type_grammar_all); [exact Hwf | exact Hfo | lia].
Qed.

Theorem read_role_print : forall s rest fuel,
  wf_sty s -> follow_ok s rest -> (2 * length (print_sty s) <= fuel)%nat ->
  read_role fuel (print_sty s ++ rest) = POk (denote_sty s, rest).
Proof.
  intros s rest fuel Hwf Hfo Hfuel. unfold read_role, print_sty. cbn [app]. rewrite nte_T. cbn [pbind].
  apply read_role_given_text_print; assumption.
Qed.

(* the module level: an instance of Front/ModuleGrammarProofs.parse_module_items (MG) *)

Lemma definition_sep_ok : forall r, definition_sep (P C_COLON :: P C_COLON :: P C_EQ :: r) = POk r.
Proof. reflexivity. Qed.

Theorem read_definition_print : forall fuel (tag : stag) t rest,
  stag_ok tag -> wf_sty t -> follow_ok t rest -> (2 * length (print_sty t) <= fuel)%nat ->
  read_definition fuel (assign_toks ++ print_opt_tag (fst tag) (snd tag) ++ print_sty t ++ rest)
  = POk ((fst tag, denote_sty t, None), rest).
Proof.
  intros fuel tag t rest Htag Hwf Hfo Hfuel. unfold read_definition, assign_toks. cbn [app].
  rewrite definition_sep_ok. cbn [pbind].
  unfold print_sty. cbn [app]. rewrite next_with_opt_tag_print by exact Htag. cbn [pbind].
  change (T (sty_word t)) with (Text 0 0 (sty_word t)). cbv iota.
  rewrite read_role_given_text_print by assumption. reflexivity.
Qed.

Theorem read_value_reference_print : forall fuel t l rest,
  wf_sty t -> slit_wf l -> (2 * length (print_sty t) <= fuel)%nat ->
  read_value_reference fuel (print_sty t ++ assign_toks ++ print_slit l ++ rest)
  = POk ((None, denote_sty t, None), denote_slit l, rest).
Proof.
  intros fuel t l rest Hwf Hl Hfuel. unfold read_value_reference, assign_toks. cbn [app].
  rewrite read_role_print; [| exact Hwf | apply follow_ok_tok; reflexivity | exact Hfuel].
  cbn [pbind]. rewrite definition_sep_ok. cbn [pbind]. rewrite read_literal_print by exact Hl. reflexivity.
Qed.

Definition def_item (d : str * stag * sty) : MG.item :=
  let '(name, tag, t) := d in
  MG.IDef name (assign_toks ++ print_opt_tag (fst tag) (snd tag) ++ print_sty t) (fst tag, denote_sty t, None)
    (follow_ok t).

Definition val_item (v : str * sty * slit) : MG.item :=
  let '(name, t, l) := v in
  MG.IVal name (print_sty t ++ assign_toks ++ print_slit l) (None, denote_sty t, None) (denote_slit l)
    (fun _ => True).

(* the assignments of a module as items of MG, and what MG.parse_module_items asks of them *)
Lemma module_items : forall fuel ds vs tail,
  defs_wf ds (flat_map print_val vs ++ tail) -> Forall val_wf vs ->
  (2 * (length (flat_map print_def ds) + length (flat_map print_val vs)) <= fuel)%nat ->
  let its := (map def_item ds ++ map val_item vs)%list in
  MG.print_items its = (flat_map print_def ds ++ flat_map print_val vs)%list /\
  MG.item_defs its = map denote_def ds /\ MG.item_vals its = map denote_val vs /\
  Forall (MG.item_ok fuel) its /\ MG.follows its tail.
Proof.
  intros fuel ds vs tail. unfold MG.item_defs, MG.item_vals. cbv zeta.
  induction ds as [|[[name tag] t] ds IH]; cbn [map app flat_map defs_wf].
  - intros _. induction vs as [|[[name t] l] vs IH]; cbn [map flat_map]; intros Hv Hfuel.
    + repeat split; constructor.
    + inversion Hv as [|? ? Hv1 Hvs]; subst. destruct Hv1 as (Hn & Hwt & Hl).
      rewrite app_length in Hfuel. cbn [print_val length] in Hfuel. rewrite !app_length in Hfuel.
      destruct IH as (E1 & E2 & E3 & Ho & Hf); [exact Hvs | cbn [length] in Hfuel |- *; lia |].
      cbn [val_item MG.print_items MG.item_toks MG.follows print_val denote_val app]. rewrite E1, E2, E3.
      repeat split; try assumption. constructor; [|exact Ho]. split; [exact Hn|].
      intros rest _. rewrite <- !app_assoc. apply read_value_reference_print; try assumption. lia.
  - intros (Hn & Htag & Hwt & Hfo & Hds) Hv Hfuel.
    rewrite app_length in Hfuel. cbn [print_def length] in Hfuel. rewrite !app_length in Hfuel.
    destruct IH as (E1 & E2 & E3 & Ho & Hf); [exact Hds | exact Hv | cbn [length] in Hfuel |- *; lia |].
    cbn [def_item MG.print_items MG.item_toks MG.follows print_def denote_def app]. rewrite E1, E2, E3, <- !app_assoc.
    repeat split; try assumption. constructor; [|exact Ho]. split; [exact Hn|].
    intros rest Hfo'. rewrite <- !app_assoc. apply read_definition_print; try assumption. lia.
Qed.

Lemma nice_imports : forall is,
  Forall (fun i => import_ok i /\ make_name_nice (si_from i) = si_from i) is ->
  map MG.nice_import (map denote_import is) = map denote_import is.
Proof.
  induction is as [|i is IH]; intros H; [reflexivity|]. inversion H as [|? ? [_ Hi] His]; subst.
  cbn [map]. rewrite (IH His). f_equal. unfold MG.nice_import, denote_import. cbn [i_what i_from i_from_oid].
  rewrite Hi. reflexivity.
Qed.

Theorem parse_print_module : forall m, wf_module m -> parse (print_module m) = POk (denote_module m).
Proof.
  intros m [Hname [Hoid [Himps [Hdefs Hvals]]]]. unfold parse.
  set (fuel := parse_fuel (print_module m)).
  assert (Hfuel : (2 * (length (flat_map print_def (sm_defs m)) + length (flat_map print_val (sm_vals m))) <= fuel)%nat).
  { unfold fuel, parse_fuel, print_module. cbn [length]. rewrite !app_length. lia. }
  clearbody fuel.
  destruct (module_items fuel _ _ _ Hdefs Hvals Hfuel) as (Etoks & Edefs & Evals & Hok & Hfol).
  set (its := (map def_item (sm_defs m) ++ map val_item (sm_vals m))%list) in *.
  pose (hdr := [T (KW "DEFINITIONS"); T (KW "AUTOMATIC"); T (KW "TAGS"); P C_COLON; P C_COLON; P C_EQ]).
  pose (itoks := print_imports_section (sm_imports m)).
  assert (Hshape : print_module m =
            T (sm_name m) :: print_opt_oid (sm_oid m) ++ hdr ++ T (KW "BEGIN")
              :: (itoks ++ MG.print_items its ++ T (KW "END") :: [])).
  { unfold print_module. rewrite Etoks, <- !app_assoc. reflexivity. }
  rewrite Hshape.
  pose proof (MG.parse_module_items fuel (sm_name m) (print_opt_oid (sm_oid m)) (denote_opt_oid (sm_oid m)) hdr itoks
                (map denote_import (sm_imports m)) its []) as Hp.
  cbv zeta in Hp. rewrite Hp; clear Hp; try assumption.
  - unfold denote_module. rewrite Hname, Edefs, Evals, (nice_imports _ Himps). reflexivity.
  - apply maybe_read_oid_print; [exact Hoid | intros _; reflexivity].
  - unfold hdr. repeat (constructor; [reflexivity|]). constructor.
  - unfold itoks. destruct (sm_imports m) as [|i is] eqn:Ei.
    + left. split; reflexivity.
    + right. exists (print_imports (i :: is)). split; [reflexivity|]. intros rest.
      apply read_imports_print. revert Himps. apply Forall_impl. intros a [Ha _]. exact Ha.
Qed.
