(* Props/C08.v -- property C08 (generated Rust carries the whole model).  This file states the theorems; each is proved by a
   lemma of Front/CodegenProofs.v, AttrItemProofs.v or DescrProofs.v or derived from one in a line or two; witnesses and
   non-vacuity examples are computed here.

   PARTIAL.  Proved:
   - the attribute TYPE sub-language: every type the generator can print into `#[asn(..)]` (the image of
     RustType::into_asn: boolean, null, integer ranges incl. negative numbers and min/max, the five character string
     kinds, octet_string, bit_string, every size form, optional(..), default(.., literal), sequence_of / set_of with and
     without size, complex(Name, tag(..)) with the four tag classes) is read back by the model of the macro's parser as
     the same type (C08_reparse_type_partial, C08_reparse_type_in_context);
   - the whole attribute around it -- kind or type, tag(..), extensible_after(..), const(..) -- in the four contexts of the
     parser (C08_reparse_attribute, _wf);
   - of the item level: the header kind is recognised, extensible_after(name) finds its member among the emitted member
     names, into_asn keeps tag, type and constants outside the classes below (C08_header_kind, C08_ext_index_struct / _enum, C08_into_asn_keeps,
     C08_optional_constants_kept);
   - the descriptor constants of the expansion as a function of the Rust model of the definition (C08_consts and the
     theorems after it).
   Not covered by a theorem (tie / oracle of checks/C08.py only): struct / enum bodies as a whole (member types, field and
   variant names beyond the extensible_after lookup), the composition with to_rust and to_rust_keep_names (but for the
   constants of an INTEGER: C08_optional_constants_kept), the step from the ASN.1 module to the Rust model the descriptor
   constants are computed from; the lexing of the printed text by proc_macro2 is trusted.
   Excluded by hypothesis and refuted below (they are real deviations of the crate, which the oracle of checks/C08.py reports too):
   half-open integer ranges (F08-7), OCTET/BIT STRING default literals (F08-1), complex(Name) without a tag (F08-3)
   -- [Known_C08_attr] --; at item level extensible_after(..) naming an escaped field (F08-2, [Known_C08_ext_escaped]) and
   the constants into_asn drops ([Known_C08_consts_dropped]: named bits of a BIT STRING, F08-15
   bitstring_constants_lost_on_reparse, and named numbers of an INTEGER below default(..), F08-21
   default_integer_constants_lost_on_reparse -- into_asn looks through optional(..) only (Type::no_optional_mut));
   both witnessed by C08_refuted_consts_dropped.
   Named numbers of an OPTIONAL component (and, on the re-parse side, of an extension addition, which to_rust wraps in
   Option) are kept: Context::to_rust_constants recurses through Type::Optional.  C08_optional_constants_kept states it
   and guards the repaired defect of class extension_addition_constants_lost_on_reparse (a `fixed:` line of
   KNOWN_FINDINGS.txt); Default(..) answers none (F08-21). *)
From A1 Require Import Front.Codegen Front.Attr Front.AttrItem Front.CodegenProofs Front.AttrItemProofs Front.Descr Front.DescrProofs.
From Coq Require Import String.
Local Open Scope N_scope.

Theorem C08_reparse_type_partial : forall t,
  wf_aty t -> parse_attr_type (S (depth t)) (print_ty t) = Ok t.
Proof.
  intros t Hw. unfold parse_attr_type. rewrite <- (app_nil_r (print_ty t)).
  rewrite (reparse_ty t Hw (S (depth t)) [] (Nat.lt_succ_diag_r _) I). reflexivity.
Qed.

(* the same inside a larger buffer: what the nested productions rely on (the rest starts with punctuation or is empty) *)
Theorem C08_reparse_type_in_context : forall t, wf_aty t -> forall fuel rest,
  (depth t < fuel)%nat -> rest_ok rest -> parse_ty fuel (print_ty t ++ rest) = Ok (t, rest).
Proof. exact reparse_ty. Qed.

(* INTEGER (1..MAX, ...) is printed as integer(1..max,...) and comes back as 1..i64::MAX *)
Theorem C08_refuted_half_open_range :
  parse_attr_type 1 (print_ty (AInt (Some 1%Z) None true)) = Ok (AInt (Some 1%Z) (Some I64_MAX) true) /\
  parse_attr_type 1 (print_ty (AInt None (Some 70000%Z) true)) = Ok (AInt (Some 0%Z) (Some 70000%Z) true) /\
  parse_attr_type 1 (print_ty (AInt None (Some 0%Z) true)) = Ok (AInt (Some I64_MIN) (Some 0%Z) true).
Proof. repeat split; vm_compute; reflexivity. Qed.

(* OCTET STRING DEFAULT '00'H is printed as default(octet_string, [0x00, ]): not a literal the macro reads *)
Theorem C08_refuted_octet_default :
  parse_attr_type 2 (print_ty (ADef (AOct SAny) (LOct [0]))) = Err E_SYN.
Proof. vm_compute. reflexivity. Qed.

(* a reference whose tag is unknown is printed as complex(Name); the parser insists on `, tag(..)` *)
Theorem C08_refuted_untagged_complex :
  parse_attr_type 1 (print_ty (ARef (codes "External") None)) = Err E_SYN.
Proof. vm_compute. reflexivity. Qed.

(* non-vacuity: a deep well-formed type using most productions *)
Definition sample : aty :=
  ADef (AOpt (ASeqOf (ASetOf (AInt (Some (-5)%Z) (Some 5%Z) true) (SRange 1 4 true)) (SFix 2 false)))
       (LEnum (codes "Colour") (codes "DarkBlue")).
Example C08_nonvacuous : wf_aty sample /\ parse_attr_type (S (depth sample)) (print_ty sample) = Ok sample.
Proof.
  split; [|vm_compute; reflexivity].
  cbn [sample wf_aty wf_lit wf_size]. repeat split; try reflexivity; vm_compute; intros H; discriminate H.
Qed.

Example C08_nonvacuous_ref :
  wf_aty (AOpt (ARef (codes "Other") (Some (TApplication 7)))) /\ wf_aty (AStr (SRange 0 255 false) Ia5) /\ wf_aty (ABits SAny).
Proof. cbn [wf_aty wf_size]. repeat split; try reflexivity; vm_compute; intros H; discriminate H. Qed.

(* the whole attribute (Front/AttrItem.v)

   [print_attr] is RustCodeGenerator::asn_attribute as add_definition / add_struct / add_tuple_struct / add_data_enum call
   it (kind or type, tag(..), extensible_after(name), const(NAME(value), ..)); [parse_attr c] is AsnAttribute::<C>::parse
   for the four contexts proc_macro/mod.rs uses (c = CHeader: DefinitionHeader, CTransparent: fields of structs and tuple
   structs, CChoiceVariant, CEnumVariant).  Tied to the crate by op 3413 (printed tokens and the re-parsed attribute as
   parse_asn_definition shows it).

   [attr_in_model c a]: the parts are those the context admits (what the generator prints: no const on a header, no
   extensible_after on a field, neither on a variant), numbers fit i64 / usize, names are identifiers that are not
   keywords, a SIZE range has two different bounds, ENUMERATED default literals carry mangled names.
   [Known_C08_attr a]: the type part contains an OCTET/BIT STRING default literal (F08-1), a reference without tag (F08-3)
   or an integer range with exactly one bound (F08-7) -- refuted above. *)
Theorem C08_reparse_attribute : forall c a fuel,
  attr_in_model c a -> ~ Known_C08_attr a -> (attr_depth a < fuel)%nat ->
  parse_attr c fuel (print_attr a) = Ok a.
Proof. intros c a fuel Hm Hk. apply reparse_attribute, wf_attr_of_classes; assumption. Qed.

(* the same with the hypotheses folded into one predicate ([wf_attr] uses [wf_aty] of the type theorem) *)
Theorem C08_reparse_attribute_wf : forall c a fuel,
  wf_attr c a -> (attr_depth a < fuel)%nat -> parse_attr c fuel (print_attr a) = Ok a.
Proof. exact reparse_attribute. Qed.

(* item level (proc_macro/mod.rs): the header kind is recognised, and find_extensible_index finds the member
   extensible_after(..) names at its position -- for a struct outside F08-2 ([Known_C08_ext_escaped]: the name is one of
   the generator's KEYWORDS, so the field is emitted with a trailing underscore but named without it), when the emitted
   member names are pairwise different (C09's subject) *)
Theorem C08_header_kind : forall k, header_kind (hkind_name k) = Some k.
Proof. intros k. destruct k; reflexivity. Qed.

Theorem C08_ext_index_struct : forall k names i name,
  k = HSequence \/ k = HSet ->
  nth_error names i = Some name -> no_hyphen name -> ~ Known_C08_ext_escaped name ->
  NoDup (emitted_members k names) ->
  find_ext_index (Some name) (emitted_members k names) = Ok (Some i).
Proof.
  intros k names i name Hk Hn Hh Hesc. pose proof (gen_field_name_id name Hh Hesc) as Hf.
  destruct Hk; subst k; exact (find_ext_index_map (fun n => gen_field_name n true) name names i Hn Hf).
Qed.

Theorem C08_ext_index_enum : forall k names i name,
  k = HChoice \/ k = HEnumerated ->
  nth_error names i = Some name -> gen_variant_name name = name ->
  NoDup (emitted_members k names) ->
  find_ext_index (Some name) (emitted_members k names) = Ok (Some i).
Proof.
  intros k names i name Hk Hn Hv. destruct Hk; subst k; exact (find_ext_index_map gen_variant_name name names i Hn Hv).
Qed.

(* F08-2: SEQUENCE { type BOOLEAN, ... }: the attribute itself is read back, but no member is called `type` *)
Theorem C08_refuted_ext_escaped :
  let a := mk_attr (PHeader S_sequence) None [] (Some (codes "type")) in
  parse_attr CHeader 1 (print_attr a) = Ok a /\
  Known_C08_ext_escaped (codes "type") /\
  find_ext_index (a_ext a) (emitted_members HSequence [codes "type"]) = Err E_SYN.
Proof. cbv zeta. split; [|split]; vm_compute; reflexivity. Qed.

(* into_asn: what parse_asn_definition keeps of a field / variant attribute.  Outside [Known_C08_consts_dropped] (F08-15:
   named bits of a BIT STRING; F08-21: named numbers of an INTEGER below default(..)) everything is kept *)
Theorem C08_into_asn_keeps : forall t a,
  a_primary a = PType t -> ~ Known_C08_untagged_complex t -> ~ Known_C08_consts_dropped a ->
  (forall n g, t = ARef n g -> a_consts a = []) ->
  into_asn (match t with ARef n _ => n | _ => [] end) a = Some (a_tag a, t, a_consts a).
Proof. intros t a Hp Hu Hd _. exact (into_asn_keeps t a Hp Hu Hd). Qed.

(* S ::= SEQUENCE { a BOOLEAN, ..., b INTEGER { x(1) } (0..9) } and g INTEGER { c(3) } (0..9) OPTIONAL: the constants
   printed next to integer(..) or optional(integer(..)) survive print -> parse -> into_asn -> to_rust_constants *)
Theorem C08_optional_constants_kept : forall a t fuel,
  a_primary a = PType t -> wf_attr CTransparent a -> (attr_depth a < fuel)%nat -> is_integer (no_optional t) = true ->
  exists a', parse_attr CTransparent fuel (print_attr a) = Ok a' /\
             into_asn [] a' = Some (a_tag a, t, a_consts a) /\
             field_rust_constants t (a_consts a) = a_consts a.
Proof.
  intros a t fuel Hp Hw Hf Hi. exists a. split; [exact (reparse_attribute CTransparent a fuel Hw Hf)|].
  split; [exact (into_asn_integer [] a t Hp Hi) | exact (to_rust_constants_keeps t (a_consts a) Hi)].
Qed.

(* ... but not below default(..), and never for a transparent definition whose type is not the INTEGER itself *)
Example C08_constants_not_kept :
  field_rust_constants (ADef (AInt (Some 0%Z) (Some 9%Z) false) (LInt 1%Z)) [(codes "A", 1%Z)] = [] /\
  tuple_rust_constants (AOpt (AInt None None false)) [(codes "A", 1%Z)] = [] /\
  field_rust_constants (AOpt (AOpt (AInt None None false))) [(codes "A", 1%Z)] = [(codes "A", 1%Z)].
Proof. repeat split; reflexivity. Qed.

Theorem C08_refuted_consts_dropped :
  let bits := mk_attr (PType (ABits (SFix 16 false))) None [(codes "FIRST", 0%Z)] None in
  let dflt := mk_attr (PType (ADef (AInt (Some 0%Z) (Some 9%Z) false) (LInt 1%Z))) None [(codes "A", 1%Z)] None in
  parse_attr CTransparent 2 (print_attr bits) = Ok bits /\ into_asn [] bits = Some (None, ABits (SFix 16 false), []) /\
  parse_attr CTransparent 2 (print_attr dflt) = Ok dflt /\
  into_asn [] dflt = Some (None, ADef (AInt (Some 0%Z) (Some 9%Z) false) (LInt 1%Z), []).
Proof. cbv zeta. split; [|split; [|split]]; vm_compute; reflexivity. Qed.

(* non-vacuity: a header with every part, a field with every part, a variant *)
Definition sample_header : attr := mk_attr (PHeader S_choice) (Some (TApplication 3)) [] (Some (codes "DarkBlue")).
Definition sample_field : attr :=
  mk_attr (PType (AOpt (AInt (Some (-5)%Z) (Some 5%Z) true))) (Some (TContext 2))
          [(codes "LOW", (-5)%Z); (codes "HIGH_VALUE", 5%Z)] None.
Definition sample_variant : attr := mk_attr (PType (ARef (codes "Other") (Some (TPrivate 9)))) (Some (TPrivate 9)) [] None.

Example C08_nonvacuous_attribute :
  (attr_in_model CHeader sample_header /\ ~ Known_C08_attr sample_header) /\
  (attr_in_model CTransparent sample_field /\ ~ Known_C08_attr sample_field) /\
  (attr_in_model CChoiceVariant sample_variant /\ ~ Known_C08_attr sample_variant) /\
  parse_attr CTransparent 2 (print_attr sample_field) = Ok sample_field.
Proof.
  assert (Hname : forall s, is_rust_ident s = true -> is_keyword s = false -> wf_name s) by (intros s H1 H2; split; assumption).
  split; [|split; [|split]].
  - split; [|intros H; exact H].
    split; [exact I|]. split; [split; [reflexivity | apply N.leb_le; vm_compute; reflexivity]|]. split; [reflexivity | exact I].
  - split.
    + split; [split; vm_compute; reflexivity|].
      split; [split; [reflexivity | apply N.leb_le; vm_compute; reflexivity]|]. split; [exact I|].
      split; [reflexivity|].
      constructor; [split; [apply Hname; vm_compute; reflexivity | vm_compute; reflexivity]|].
      constructor; [split; [apply Hname; vm_compute; reflexivity | vm_compute; reflexivity]|]. constructor.
    + intros [H|[H|H]]; exact H.
  - split.
    + split; [split; [apply Hname; vm_compute; reflexivity | apply N.leb_le; vm_compute; reflexivity]|].
      split; [split; [reflexivity | apply N.leb_le; vm_compute; reflexivity]|]. split; exact I.
    + intros [H|[H|H]]; exact H.
  - vm_compute. reflexivity.
Qed.

(* the descriptor constants (Front/Descr.v)

   [consts_of m name d] is what generate/walker.rs emits for the definition d of the Rust model, restricted to MIN / MAX /
   EXTENSIBLE, STD_VARIANT_COUNT / VARIANT_COUNT, EXTENDED_AFTER_FIELD / FIELD_COUNT / STD_OPTIONAL_FIELDS (TAG: property
   C16; NAME, DEFAULT_VALUE, MIN_T / MAX_T not modelled).  Tied to the crate by op 3414: for every definition op 3401
   re-parses, the model's answer on the dump of the re-parsed Rust model is compared with the constants extracted from
   the crate's expand() (checks/C08.py extra_checks).
   PARTIAL in one respect: the constants are related to the RUST MODEL of the definition (what the attribute parser
   re-derives, by the theorems above the same as what the generator started from); the step from the ASN.1 module to
   that model (to_rust) is covered by the oracle of checks/C08.py only (F08-9 .. F08-14 live there).

   C08_consts: whenever the expansion does not panic, the constants are those of the member constraint types followed by
   the definition's own, which are: for a SEQUENCE / SET (canonically sorted!) the marker position, the number of
   components and the number of OPTIONAL / DEFAULT components up to and including the one the marker follows
   ([count_opt (root_fields ext fs)], all components without marker); for a tuple struct one field, optional or not;
   for ENUMERATED / CHOICE the number of items, the number of root items (marker position + 1, all without marker) and
   whether there is a marker. *)
Theorem C08_consts : forall m name d cs,
  def_in_range d -> consts_of m name d = Ok cs ->
  exists fc, member_consts name d = Ok fc /\ cs = fc ++ own_consts_spec name d.
Proof. exact consts_spec. Qed.

(* the loop of write_sequence_constraint_insert_consts on its own: take_while(index <= ext or usize::MAX), filter, count *)
Theorem C08_std_optional_fields : forall ext fs,
  N.of_nat (List.length fs) <= USIZE_MAX ->
  opt_count_from 0 (ext_limit ext) fs = count_opt (root_fields ext fs).
Proof. exact opt_count_root. Qed.

(* sort_fields_canonically never moves an extension addition in front of a root component: the count is that of the root *)
Theorem C08_set_sort_keeps_root : forall fs e sorted,
  sort_fields fs (Some e) = Ok sorted ->
  opt_count_from 0 e sorted = opt_count_from 0 e fs /\ List.length sorted = List.length fs.
Proof.
  intros fs e sorted H. destruct (sort_keeps_root fs (Some e) sorted H) as [Hl Hc].
  split; [|exact Hl]. rewrite !opt_count_marker. exact Hc.
Qed.

(* member constraint types: an INTEGER field (below OPTIONAL too) carries numbers::Constraint with exactly the bounds of its
   range, a string its size bounds; a MIN / MAX constant exists exactly when the bound does *)
Theorem C08_consts_integer : forall base fname tg k mn mx e,
  field_consts base fname tg (RInt k mn mx e) = Ok (bound_consts (constraint_type_name base fname) TrNumbers mn mx e) /\
  field_consts base fname tg (ROption (RInt k mn mx e)) = Ok (bound_consts (constraint_type_name base fname) TrNumbers mn mx e).
Proof. intros. split; reflexivity. Qed.

Theorem C08_consts_bounds : forall owner tr mn mx e c v,
  In (mk_dconst owner tr c v) (bound_consts owner tr mn mx e) <->
  (c = CMin /\ exists z, mn = Some z /\ v = VZ z) \/ (c = CMax /\ exists z, mx = Some z /\ v = VZ z) \/ (c = CExtensible /\ v = VB e).
Proof. exact bound_consts_spec. Qed.

(* non-vacuity: SET { a [1] BOOLEAN OPTIONAL, b [0] INTEGER (0..9), ..., c [2] NULL OPTIONAL }: the sort swaps a and b, one
   optional root component *)
Example C08_nonvacuous_consts :
  let fs := [mk_rfield (codes "a") (ROption RBool) (Some (TContext 1)) [];
             mk_rfield (codes "b") (RInt IntTy.U8 (Some 0%Z) (Some 9%Z) false) (Some (TContext 0)) [];
             mk_rfield (codes "c") (ROption RNull) (Some (TContext 2)) []] in
  consts_of dev_mode (codes "T") (DStruct true fs None (Some 1)) =
  Ok (bound_consts (constraint_type_name (codes "T") (codes "b")) TrNumbers (Some 0%Z) (Some 9%Z) false ++
      [mk_dconst (codes "T") TrSet CExtendedAfterField (VON (Some 1)); mk_dconst (codes "T") TrSet CFieldCount (VN 3);
       mk_dconst (codes "T") TrSet CStdOptionalFields (VN 1)]) /\
  option_map (map rf_name) (match sort_fields fs (Some 1) with Ok l => Some l | _ => None end) = Some [codes "b"; codes "a"; codes "c"].
Proof. cbv zeta. split; vm_compute; reflexivity. Qed.

Print Assumptions C08_reparse_type_partial.
Print Assumptions C08_consts.
Print Assumptions C08_std_optional_fields.
Print Assumptions C08_set_sort_keeps_root.
Print Assumptions C08_consts_integer.
Print Assumptions C08_consts_bounds.
Print Assumptions C08_reparse_attribute.
Print Assumptions C08_reparse_attribute_wf.
Print Assumptions C08_header_kind.
Print Assumptions C08_ext_index_struct.
Print Assumptions C08_ext_index_enum.
Print Assumptions C08_refuted_ext_escaped.
Print Assumptions C08_into_asn_keeps.
Print Assumptions C08_optional_constants_kept.
Print Assumptions C08_refuted_consts_dropped.
Print Assumptions C08_reparse_type_in_context.
Print Assumptions C08_refuted_half_open_range.
Print Assumptions C08_refuted_octet_default.
Print Assumptions C08_refuted_untagged_complex.
