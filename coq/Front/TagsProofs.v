(* Front/TagsProofs.v -- proofs about the model of Front/Tags.v (property C16).  In order: the order of `enum Tag` is that
   of X.680 8.6 (x680_le, written down independently, against the generated variant order); the insertion sort sort_by,
   for any comparison, permutes, sorts, is stable, and sorts a false-flagged block followed by a true-flagged block
   block by block; hence the shape of sort_fields_canonically (root fields by tag, then additions by tag); implicit
   context tags; when the TAG constant is the tag a field is sorted by (tag_const_deviates); the step from a component
   to its Rust field (comp_effective_tag: own tag, else resolved tag, else universal tag); STD_OPTIONAL_FIELDS as the
   optional root fields in wire order; write_constraints and layout_of.
   Front/Descr.v (property C08) models assign_implicit_tags, the canonical sort and the STD_OPTIONAL_FIELDS count a
   second time, independently, over its own field type; Front/DescrProofs.v proves only that its insertion sort is
   sort_by here (isort_sort_by) and reuses the sorting lemmas of this file.  Of resolve_tag / resolve_type_tag
   Extract/OpsParse.v has a second, independent model (over Ast.rty, for C14: Front/ResolveTotalProofs.v); nothing relates the two. *)
From A1 Require Import Base.ListFacts Front.Tags Gen.TagConsts.
From Coq Require Import Sorting.Permutation Sorting.Sorted.
Require Import ZifyBool.
Local Open Scope N_scope.

(* X.680 8.6: "universal class first, then application, context-specific, private; within a class ascending
   tag number" -- written down without reference to the generated variant order *)
Definition x680_class_index (c : tclass) : nat :=
  match c with Universal => 0 | Application => 1 | ContextSpecific => 2 | Private => 3 end.
Definition x680_lt (a b : tag) : Prop :=
  (x680_class_index (fst a) < x680_class_index (fst b))%nat \/ (fst a = fst b /\ snd a < snd b).
Definition x680_le (a b : tag) : Prop := x680_lt a b \/ a = b.

(* proved by computation against Gen/TagConsts.v: reordering the variants of `enum Tag` breaks it *)
Lemma class_rank_is_x680 c : class_rank c = x680_class_index c.
Proof. destruct c; vm_compute; reflexivity. Qed.

Lemma x680_class_index_inj a b : x680_class_index a = x680_class_index b -> a = b.
Proof. destruct a, b; simpl; intros H; try reflexivity; discriminate. Qed.

Lemma tag_cmp_spec a b :
  match tag_cmp a b with Lt => x680_lt a b | Eq => a = b | Gt => x680_lt b a end.
Proof.
  destruct a as [ca na], b as [cb nb]. unfold tag_cmp, x680_lt. cbn [fst snd].
  rewrite !class_rank_is_x680.
  destruct (Nat.compare_spec (x680_class_index ca) (x680_class_index cb)) as [Hc|Hc|Hc].
  - apply x680_class_index_inj in Hc. subst cb. destruct (N.compare_spec na nb) as [->|Hn|Hn]; auto.
  - left. exact Hc.
  - left. exact Hc.
Qed.

Lemma x680_lt_asym a b : x680_lt a b -> x680_lt b a -> False.
Proof.
  unfold x680_lt. intros [H1|[H1 H1']] [H2|[H2 H2']]; try lia.
  - rewrite H2 in H1. lia.
  - rewrite H1 in H2. lia.
Qed.

Lemma tag_le_is_x680_le a b : tag_le a b = true <-> x680_le a b.
Proof.
  unfold tag_le, x680_le. pose proof (tag_cmp_spec a b) as H.
  destruct (tag_cmp a b); cbn [not_gt]; split; intros H0; auto; try discriminate.
  exfalso. destruct H0 as [H0|H0].
  - exact (x680_lt_asym _ _ H0 H).
  - subst b. exact (x680_lt_asym _ _ H H).
Qed.

Lemma tag_cmp_eq a b : tag_cmp a b = Eq -> a = b.
Proof. intros H. pose proof (tag_cmp_spec a b) as S. rewrite H in S. exact S. Qed.
Lemma tag_cmp_refl a : tag_cmp a a = Eq.
Proof. unfold tag_cmp. rewrite Nat.compare_refl. apply N.compare_refl. Qed.
Lemma tag_cmp_gt_lt a b : tag_cmp a b = Gt -> tag_cmp b a = Lt.
Proof.
  intros H. pose proof (tag_cmp_spec a b) as S. rewrite H in S.
  pose proof (tag_cmp_spec b a) as S'. destruct (tag_cmp b a); auto.
  - subst. exfalso. exact (x680_lt_asym _ _ S S).
  - exfalso. exact (x680_lt_asym _ _ S S').
Qed.

Lemma otag_cmp_refl a : otag_cmp a a = Eq.
Proof. destruct a; simpl; auto using tag_cmp_refl. Qed.
Lemma otag_cmp_eq a b : otag_cmp a b = Eq -> a = b.
Proof. destruct a, b; simpl; intros H; try discriminate; auto. f_equal. apply tag_cmp_eq, H. Qed.
Lemma otag_cmp_gt_lt a b : otag_cmp a b = Gt -> otag_cmp b a = Lt.
Proof. destruct a, b; simpl; intros H; try discriminate; auto using tag_cmp_gt_lt. Qed.

Lemma key_cmp_refl k : key_cmp k k = Eq.
Proof. destruct k as [b t]. unfold key_cmp. cbn [fst snd]. destruct b; simpl; apply otag_cmp_refl. Qed.
Lemma key_cmp_eq a b : key_cmp a b = Eq -> a = b.
Proof.
  destruct a as [b1 t1], b as [b2 t2]. unfold key_cmp. cbn [fst snd].
  destruct b1, b2; simpl; intros H; try discriminate; f_equal; apply otag_cmp_eq, H.
Qed.
Lemma key_cmp_gt_lt a b : key_cmp a b = Gt -> key_cmp b a = Lt.
Proof.
  destruct a as [b1 t1], b as [b2 t2]. unfold key_cmp. cbn [fst snd].
  destruct b1, b2; simpl; intros H; try discriminate; auto using otag_cmp_gt_lt.
Qed.

Section SortFacts.
  Context {A : Type} (cmp : A -> A -> comparison).
  Definition cle (a b : A) : Prop := cmp a b <> Gt.

  Lemma insert_perm x l : Permutation (insert cmp x l) (x :: l).
  Proof.
    induction l as [|y l IH]; simpl; [reflexivity|].
    destruct (cmp x y); try reflexivity.
    rewrite IH. apply perm_swap.
  Qed.
  Lemma sort_by_perm l : Permutation (sort_by cmp l) l.
  Proof.
    induction l as [|x l IH]; simpl; [constructor|].
    rewrite insert_perm. constructor. exact IH.
  Qed.
  Lemma sort_by_length l : length (sort_by cmp l) = length l.
  Proof. apply Permutation_length, sort_by_perm. Qed.

  Hypothesis cmp_gt_le : forall a b, cmp a b = Gt -> cmp b a <> Gt.

  Lemma insert_sorted x l : Sorted cle l -> Sorted cle (insert cmp x l).
  Proof.
    induction l as [|y l IH]; simpl; intros Hs.
    - repeat constructor.
    - destruct (cmp x y) eqn:E.
      1,2: constructor; [exact Hs|]; constructor; unfold cle; rewrite E; discriminate.
      inversion Hs as [|? ? Hs' Hhd]; subst. constructor; [apply IH, Hs'|].
      (* y stays in front: of x, or of the head of l that it was in front of already *)
      destruct l as [|z l]; simpl; [|destruct (cmp x z)]; try (constructor; apply cmp_gt_le, E).
      inversion Hhd; subst. constructor. assumption.
  Qed.
  Lemma sort_by_sorted l : Sorted cle (sort_by cmp l).
  Proof. induction l as [|x l IH]; simpl; [constructor|]. apply insert_sorted, IH. Qed.

  Lemma sort_by_hd_min l t :
    (forall a b c, cle a b -> cle b c -> cle a c) ->
    hd_error (sort_by cmp l) = Some t -> In t l /\ Forall (cle t) l.
  Proof.
    intros Htrans H.
    pose proof (Sorted_StronglySorted Htrans (sort_by_sorted l)) as HSS. pose proof (sort_by_perm l) as HP.
    destruct (sort_by cmp l) as [|t' l']; simpl in H; [discriminate|]. inversion H; subst t'.
    split; [apply (Permutation_in _ HP); left; reflexivity|].
    inversion HSS as [|? ? _ Hall]; subst. rewrite Forall_forall in *. intros u Hu.
    apply (Permutation_in _ (Permutation_sym HP)) in Hu. destruct Hu as [<-|Hu]; [intros E; exact (cmp_gt_le _ _ E E) | exact (Hall u Hu)].
  Qed.

  (* either the sort leaves the list as it is, or some element is above its successor *)
  Lemma sort_by_id_or l : sort_by cmp l = l \/ ~ Sorted cle l.
  Proof.
    induction l as [|x l IH]; [left; reflexivity|].
    destruct IH as [IH|IH]; [|right; intros HS; inversion HS; auto].
    cbn [sort_by]. rewrite IH. destruct l as [|y l]; [left; reflexivity|]. cbn [insert].
    destruct (cmp x y) eqn:E; [left; reflexivity..|right].
    intros HS. inversion HS as [|? ? _ Hhd]; subst. inversion Hhd as [|? ? Hle]; subst. exact (Hle E).
  Qed.
  Lemma sort_by_id l : Sorted cle l -> sort_by cmp l = l.
  Proof. destruct (sort_by_id_or l); [trivial|contradiction]. Qed.

  (* stability: elements that compare as equal with each other keep their input order *)
  Lemma insert_stable (p : A -> bool) x l :
    (forall a b, p a = true -> p b = true -> cmp a b <> Gt) ->
    filter p (insert cmp x l) = filter p (x :: l).
  Proof.
    intros Hp. induction l as [|y l IH]; simpl; [reflexivity|].
    destruct (cmp x y) eqn:E; try reflexivity.
    cbn [filter]. rewrite IH. cbn [filter].
    destruct (p x) eqn:Px, (p y) eqn:Py; try reflexivity.
    exfalso. exact (Hp x y Px Py E).
  Qed.
  Lemma sort_by_stable (p : A -> bool) l :
    (forall a b, p a = true -> p b = true -> cmp a b <> Gt) ->
    filter p (sort_by cmp l) = filter p l.
  Proof.
    intros Hp. induction l as [|x l IH]; simpl; [reflexivity|].
    rewrite (insert_stable p x _ Hp). cbn [filter]. rewrite IH. reflexivity.
  Qed.
End SortFacts.

(* sorting a list made of a block of [false]-flagged elements followed by [true]-flagged ones sorts each
   block on its own *)
Section TwoBlocks.
  Context {A : Type} (cmp : A -> A -> comparison) (flag : A -> bool).
  Hypothesis flag_lt : forall a b, flag a = false -> flag b = true -> cmp a b = Lt.
  Hypothesis flag_gt : forall a b, flag a = true -> flag b = false -> cmp a b = Gt.

  Lemma insert_low x l1 l2 :
    flag x = false -> Forall (fun a => flag a = true) l2 ->
    insert cmp x (l1 ++ l2) = insert cmp x l1 ++ l2.
  Proof.
    intros Hx H2. induction l1 as [|y l1 IH]; simpl.
    - destruct l2 as [|z l2]; simpl; [reflexivity|].
      inversion H2; subst. rewrite (flag_lt x z Hx); auto.
    - destruct (cmp x y); try reflexivity. simpl. rewrite IH. reflexivity.
  Qed.
  Lemma insert_high x l1 l2 :
    flag x = true -> Forall (fun a => flag a = false) l1 ->
    insert cmp x (l1 ++ l2) = l1 ++ insert cmp x l2.
  Proof.
    intros Hx H1. induction l1 as [|y l1 IH]; simpl; [reflexivity|].
    inversion H1; subst. rewrite (flag_gt x y Hx); auto. rewrite IH; auto.
  Qed.

  Lemma sort_by_two_blocks l1 l2 :
    Forall (fun a => flag a = false) l1 -> Forall (fun a => flag a = true) l2 ->
    sort_by cmp (l1 ++ l2) = sort_by cmp l1 ++ sort_by cmp l2.
  Proof.
    intros H1 H2. induction l1 as [|x l1 IH]; simpl; [reflexivity|].
    inversion H1; subst. rewrite IH by assumption.
    apply insert_low; [assumption|]. rewrite sort_by_perm. exact H2.
  Qed.
End TwoBlocks.

Lemma insert_map {A B} (cmpA : A -> A -> comparison) (cmpB : B -> B -> comparison) (g : A -> B) x l :
  (forall a b, cmpB (g a) (g b) = cmpA a b) ->
  insert cmpB (g x) (map g l) = map g (insert cmpA x l).
Proof.
  intros H. induction l as [|y l IH]; simpl; [reflexivity|].
  rewrite H. destruct (cmpA x y); try reflexivity. simpl. rewrite IH. reflexivity.
Qed.
Lemma sort_by_map {A B} (cmpA : A -> A -> comparison) (cmpB : B -> B -> comparison) (g : A -> B) l :
  (forall a b, cmpB (g a) (g b) = cmpA a b) ->
  sort_by cmpB (map g l) = map g (sort_by cmpA l).
Proof.
  intros H. induction l as [|x l IH]; simpl; [reflexivity|].
  rewrite IH. apply insert_map, H.
Qed.

(* what sort_fields_canonically stores in a field before it sorts *)
Definition fill (f : rfield) : rfield := with_tag f (sort_tag f).
(* comparison of two fields of the same group *)
Definition ftag_cmp (f g : rfield) : comparison := otag_cmp (rf_tag f) (rf_tag g).
Definition ftag_le (f g : rfield) : Prop := ftag_cmp f g <> Gt.

(* number of fields in front of the first extension addition *)
Definition root_count (ext_after : option nat) (n : nat) : nat :=
  match ext_after with None => n | Some after => Nat.min (S after) n end.

(* with at least one component in front of the marker the root fields are exactly those components *)
Lemma root_count_marker p n : p <> O -> root_count (ext_after_of_marker (Some p)) n = Nat.min p n.
Proof. intros Hp. unfold root_count, ext_after_of_marker. destruct p; [congruence|]. reflexivity. Qed.

(* sort_prepare succeeds exactly when every field has a tag to be sorted by *)
Lemma sort_prepare_spec ext l :
  match sort_prepare ext l with
  | Ok r => r = map (fun p => (is_addition ext (fst p), fill (snd p))) l /\ Forall (fun p => sort_tag (snd p) <> None) l
  | _ => ~ Forall (fun p => sort_tag (snd p) <> None) l
  end.
Proof.
  induction l as [|[i f] l IH]; cbn [sort_prepare]; [split; constructor|].
  destruct (sort_tag f) as [t|] eqn:E; [|intros H; inversion H; auto].
  destruct (sort_prepare ext l) as [r| |]; cbn [bind]; [|intros H; inversion H; auto..].
  destruct IH as [-> HF]. split; [cbn [map fst snd]; unfold fill; rewrite E; reflexivity | constructor; [cbn [snd]; congruence | exact HF]].
Qed.

Lemma enumerate_from_snd {A} i (l : list A) : map snd (enumerate_from i l) = l.
Proof. revert i. induction l; intros; simpl; congruence. Qed.
Lemma enumerate_from_fst {A} i (l : list A) : map fst (enumerate_from i l) = seq i (length l).
Proof. revert i. induction l; intros; simpl; congruence. Qed.
Lemma field_cmp_same_flag b f g : field_cmp (b, f) (b, g) = ftag_cmp f g.
Proof. unfold field_cmp, field_key, key_cmp, ftag_cmp. cbn [fst snd]. destruct b; reflexivity. Qed.

Lemma firstn_skipn_map {A B} (g : A -> B) n l :
  map g l = map g (firstn n l) ++ map g (skipn n l).
Proof. rewrite <- map_app, firstn_skipn. reflexivity. Qed.

Lemma is_addition_root ext n j : (j < n)%nat -> is_addition ext j = negb (j <? root_count ext n)%nat.
Proof. unfold is_addition, root_count. destruct ext as [after|]; intros H; lia. Qed.

(* among the first n indices the first root_count carry no addition, all later ones do *)
Lemma keyed_blocks {A B} ext (g : A -> B) n : forall (l : list A) i, (i + length l = n)%nat ->
  let k := (root_count ext n - i)%nat in
  map (fun p => (is_addition ext (fst p), g (snd p))) (enumerate_from i l)
  = map (pair false) (map g (firstn k l)) ++ map (pair true) (map g (skipn k l)).
Proof.
  induction l as [|x l IH]; intros i Hn; cbv zeta; cbn [enumerate_from map length fst snd] in *.
  - rewrite firstn_nil, skipn_nil. reflexivity.
  - rewrite (IH (S i)) by lia. rewrite (is_addition_root ext n i) by lia. cbv zeta.
    destruct (Nat.ltb_spec i (root_count ext n)) as [Hi|Hi]; cbn [negb].
    + replace (root_count ext n - i)%nat with (S (root_count ext n - S i)) by lia. reflexivity.
    + replace (root_count ext n - i)%nat with O by lia. replace (root_count ext n - S i)%nat with O by lia. reflexivity.
Qed.

(* the shape of the result: the root fields sorted by tag, then the additions sorted by tag *)
Theorem sort_fields_canonically_shape fs ext out :
  sort_fields_canonically fs ext = Ok out ->
  let filled := map fill fs in
  let nroot := root_count ext (length fs) in
  out = sort_by ftag_cmp (firstn nroot filled) ++ sort_by ftag_cmp (skipn nroot filled)
  /\ Forall (fun f => sort_tag f <> None) fs.
Proof.
  unfold sort_fields_canonically. intros H. apply bind_ok in H. destruct H as (r & E & [= <-]).
  pose proof (sort_prepare_spec ext (enumerate fs)) as Sp. rewrite E in Sp. destruct Sp as [-> HF]. cbv zeta. split.
  2:{ rewrite <- (enumerate_from_snd O fs), Forall_map. exact HF. }
  unfold enumerate. rewrite (keyed_blocks ext fill (length fs) fs 0 eq_refl). cbv zeta. rewrite Nat.sub_0_r.
  rewrite (sort_by_two_blocks field_cmp fst).
  - rewrite map_app.
    rewrite (sort_by_map ftag_cmp field_cmp (pair false)) by (intros; apply field_cmp_same_flag).
    rewrite (sort_by_map ftag_cmp field_cmp (pair true)) by (intros; apply field_cmp_same_flag).
    rewrite !map_map. cbn [snd]. rewrite !map_id, firstn_map, skipn_map. reflexivity.
  - intros [b1 f1] [b2 f2]. cbn [fst]. intros -> ->. reflexivity.
  - apply Forall_map, Forall_forall. reflexivity.
  - apply Forall_map, Forall_forall. reflexivity.
Qed.

Lemma ftag_cmp_gt_le f g : ftag_cmp f g = Gt -> ftag_cmp g f <> Gt.
Proof. unfold ftag_cmp. intros H. rewrite (otag_cmp_gt_lt _ _ H). discriminate. Qed.

Theorem sort_fields_canonically_sorted fs ext out :
  sort_fields_canonically fs ext = Ok out ->
  let filled := map fill fs in
  let nroot := root_count ext (length fs) in
  exists roots adds,
    out = roots ++ adds
    /\ Permutation roots (firstn nroot filled) /\ Permutation adds (skipn nroot filled)
    /\ Sorted ftag_le roots /\ Sorted ftag_le adds
    /\ Permutation out filled
    /\ Forall (fun f => exists t, rf_tag f = Some t) out.
Proof.
  intros H. destruct (sort_fields_canonically_shape _ _ _ H) as [Hout HF]. cbv zeta in *.
  eexists _, _. split; [exact Hout|].
  assert (HP : Permutation out (map fill fs)).
  { rewrite Hout. rewrite <- (firstn_skipn (root_count ext (length fs)) (map fill fs)) at 3.
    apply Permutation_app; apply sort_by_perm. }
  repeat split.
  - apply sort_by_perm.
  - apply sort_by_perm.
  - apply (sort_by_sorted ftag_cmp ftag_cmp_gt_le).
  - apply (sort_by_sorted ftag_cmp ftag_cmp_gt_le).
  - exact HP.
  - rewrite HP. apply Forall_map. eapply Forall_impl; [|exact HF].
    intros g Hg. cbv beta in Hg. unfold fill, with_tag. cbn [rf_tag]. destruct (sort_tag g); [eauto|congruence].
Qed.

Lemma sort_fields_canonically_ok fs ext :
  Forall (fun f => sort_tag f <> None) fs -> exists out, sort_fields_canonically fs ext = Ok out.
Proof.
  intros H. unfold sort_fields_canonically. rewrite <- (enumerate_from_snd O fs), Forall_map in H.
  pose proof (sort_prepare_spec ext (enumerate fs)) as Sp.
  destruct (sort_prepare ext (enumerate fs)); [simpl; eauto | destruct (Sp H)..].
Qed.

(* stability of the sort on the key the code uses *)
Definition key_eqb (a b : key) : bool := match key_cmp a b with Eq => true | _ => false end.
Theorem field_sort_stable (k : key) l :
  filter (fun a => key_eqb (field_key a) k) (sort_by field_cmp l)
  = filter (fun a => key_eqb (field_key a) k) l.
Proof.
  apply sort_by_stable. intros a b Ha Hb. unfold key_eqb in *.
  destruct (key_cmp (field_key a) k) eqn:Ea; try discriminate.
  destruct (key_cmp (field_key b) k) eqn:Eb; try discriminate.
  apply key_cmp_eq in Ea, Eb. unfold field_cmp. rewrite Ea, Eb, key_cmp_refl. discriminate.
Qed.

Lemma existsb_false_forall {A} (p : A -> bool) l : existsb p l = false -> Forall (fun a => p a = false) l.
Proof.
  induction l; simpl; intros H; constructor; apply orb_false_iff in H; tauto.
Qed.

(* assign_implicit_tags changes tags only *)
Lemma assign_implicit_tags_keeps {B} (g : rfield -> B) fs :
  (forall f t, g (with_tag f t) = g f) -> map g (assign_implicit_tags fs) = map g fs.
Proof.
  intros Hg. unfold assign_implicit_tags. destruct (existsb _ fs); [reflexivity|].
  unfold enumerate. rewrite map_map. rewrite <- (enumerate_from_snd 0 fs) at 2. rewrite map_map.
  apply map_ext. intros p. apply Hg.
Qed.
Lemma assign_implicit_tags_idx fs : map rf_idx (assign_implicit_tags fs) = map rf_idx fs.
Proof. apply assign_implicit_tags_keeps. reflexivity. Qed.

Theorem assign_implicit_tags_spec fs :
  (Exists (fun f => rf_tag f <> None) fs -> assign_implicit_tags fs = fs) /\
  (Forall (fun f => rf_tag f = None) fs ->
     map rf_tag (assign_implicit_tags fs)
       = map (fun i => Some (ContextSpecific, N.of_nat i)) (seq 0 (length fs))
     /\ map rf_idx (assign_implicit_tags fs) = map rf_idx fs
     /\ map rf_ty (assign_implicit_tags fs) = map rf_ty fs).
Proof.
  split.
  - intros HE. apply Exists_exists in HE. destruct HE as [f [Hin Hf]]. unfold assign_implicit_tags.
    assert (existsb (fun f => is_some (rf_tag f)) fs = true) as ->; [|reflexivity].
    apply existsb_exists. exists f. split; [exact Hin|]. destruct (rf_tag f); [reflexivity|congruence].
  - intros HF. split; [|split; [apply assign_implicit_tags_idx | apply assign_implicit_tags_keeps; reflexivity]].
    unfold assign_implicit_tags.
    rewrite existsb_false by (intros f Hin; rewrite (proj1 (Forall_forall _ _) HF f Hin); reflexivity).
    unfold enumerate. rewrite map_map. cbn [with_tag rf_tag]. rewrite <- (enumerate_from_fst 0 fs), map_map. reflexivity.
Qed.

Lemma assign_implicit_tags_length fs : length (assign_implicit_tags fs) = length fs.
Proof. rewrite <- (map_length rf_idx), assign_implicit_tags_idx. apply map_length. Qed.

(* the TAG constant differs from the tag the field is sorted by for exactly these untagged types *)
Fixpoint tag_const_deviates (r : rty) : bool :=
  match r with
  | ROption i => tag_const_deviates i
  | RDefault _ => true
  | RBuiltin KSetOf => true
  | _ => false
  end.

Lemma tag_const_tagged ty t : tag_const ty (Some t) = Ok t.
Proof. induction ty; simpl; auto. Qed.

Lemma tag_const_untagged ty t :
  tag_const_deviates ty = false -> rty_tag ty = Some t -> tag_const ty None = Ok t.
Proof.
  induction ty as [k|o|i IH|i IH]; simpl; intros Hd Ht.
  - inversion Ht; subst. destruct k; try reflexivity; discriminate.
  - subst o. reflexivity.
  - auto.
  - discriminate.
Qed.

Theorem tag_const_is_sort_tag f t :
  (rf_tag f <> None \/ tag_const_deviates (rf_ty f) = false) ->
  sort_tag f = Some t -> tag_const (rf_ty f) (rf_tag f) = Ok t.
Proof.
  unfold sort_tag. intros Hk Hs. destruct (rf_tag f) as [t'|] eqn:E; simpl in Hs.
  - inversion Hs; subst. apply tag_const_tagged.
  - destruct Hk as [Hk|Hk]; [congruence|]. apply tag_const_untagged; assumption.
Qed.

(* to_rust: a component's type becomes a plain or a complex Rust type, never an optional one.  Its tag is the universal
   tag of a built-in type, else what the resolver finds for the type -- also when a tag is handed down to an inline
   constructed type, provided that tag is the resolved one *)
Lemma type_to_rty_spec fuel e ty tg r :
  type_to_rty fuel e ty tg = Ok r ->
  is_optional r = false /\
  ((tg = None \/ resolve_type_tag fuel e ty = Ok tg) ->
   match ty with
   | TBuiltin k => rty_tag r = Some (builtin_tag k)
   | TConstr k => resolve_type_tag fuel e (TConstr k) = Ok (rty_tag r)
   | TRef rf => resolve_tag fuel e rf = Ok (rty_tag r)
   | TChoice ext_after alts => resolve_type_tag fuel e (TChoice ext_after alts) = Ok (rty_tag r)
   end).
Proof.
  intros H. destruct ty; cbn [type_to_rty] in H.
  1: injection H as <-; split; [reflexivity | intros _; reflexivity].
  (* an inline constructed type takes the tag handed down, if there is one *)
  1,3: destruct tg as [t|]; [injection H as <-; split; [reflexivity | intros [[=]|Htg]; exact Htg] |].
  (* in every other case the tag is resolved *)
  all: apply bind_ok in H; destruct H as (t & Ht & [= <-]); split; [reflexivity | intros _; exact Ht].
Qed.

Lemma wrap_optional (b : bool) role :
  is_optional (if b && negb (is_optional role) then ROption role else role) = b || is_optional role.
Proof. destruct b, (is_optional role) eqn:E; simpl; auto. Qed.

Lemma rty_tag_no_option r : rty_tag (no_option r) = rty_tag r.
Proof. induction r; simpl; auto. Qed.

Lemma resolve_no_default_spec fuel e ty tg' :
  resolve_no_default fuel e ty = Ok tg' -> tg' = None \/ resolve_type_tag fuel e ty = Ok tg'.
Proof.
  unfold resolve_no_default. intros H.
  apply bind_ok in H. destruct H as (d0 & _ & H). apply bind_ok in H. destruct H as (r0 & Hr0 & [= <-]).
  destruct r0 as [rt|]; [destruct (otag_eqb d0 (Some rt))|]; auto.
Qed.

(* the tag a component is sorted by: its own tag if it has one, else the tag of the referenced type for a
   reference, else the universal tag of the built-in type *)
Theorem comp_effective_tag fuel e ext i c f :
  comp_to_rfield fuel e ext i c = Ok f ->
  rf_idx f = i /\ rf_tag f = c_tag c /\
  is_optional (rf_ty f) = (match c_pres c with Mandatory => is_addition ext i | _ => true end) /\
  match c_tag c with
  | Some t => sort_tag f = Some t
  | None =>
      match c_ty c with
      | TBuiltin k => sort_tag f = Some (builtin_tag k)
      | TRef rf => resolve_tag fuel e rf = Ok (sort_tag f)
      | ty => resolve_type_tag fuel e ty = Ok (sort_tag f)
      end
  end.
Proof.
  unfold comp_to_rfield. intros H. set (tg := c_tag c) in *.
  apply bind_ok in H. destruct H as [role [ER H]]. inversion H; subst f; clear H.
  cbn [rf_idx rf_tag rf_ty]. unfold sort_tag. cbn [rf_tag rf_ty].
  split; [reflexivity|]. split; [reflexivity|].
  destruct (c_pres c) eqn:EP.
  - (* Mandatory: an extension addition is wrapped in Option, which keeps the tag *)
    destruct (type_to_rty_spec _ _ _ _ _ ER) as [Hopt Htag]. split.
    + rewrite wrap_optional, Hopt, orb_false_r. reflexivity.
    + destruct tg as [t|]; [reflexivity|]. cbn [or_else].
      replace (rty_tag (if _ && _ then ROption role else role)) with (rty_tag role) by (destruct (_ && _); reflexivity).
      exact (Htag (or_introl eq_refl)).
  - (* Optional: the tag handed down is none or the resolved one *)
    apply bind_ok in ER. destruct ER as [tg' [EN ER]]. apply bind_ok in ER. destruct ER as [r [ER [= <-]]].
    cbn [is_optional negb]. rewrite andb_false_r. split; [reflexivity|].
    destruct tg as [t|]; [reflexivity|]. cbn [or_else rty_tag].
    exact (proj2 (type_to_rty_spec _ _ _ _ _ ER) (resolve_no_default_spec _ _ _ _ EN)).
  - (* Default: a layer of Option is taken off, which keeps the tag *)
    split; [reflexivity|].
    destruct tg as [t|]; [reflexivity|]. cbn [or_else rty_tag]. rewrite rty_tag_no_option.
    exact (proj2 (type_to_rty_spec _ _ _ _ _ ER) (or_introl eq_refl)).
Qed.

Lemma comps_to_rfields_idx fuel e ext i cs fs :
  comps_to_rfields fuel e ext i cs = Ok fs -> map rf_idx fs = seq i (length cs).
Proof.
  revert i fs. induction cs as [|c cs IH]; simpl; intros i fs H.
  - inversion H. reflexivity.
  - apply bind_ok in H. destruct H as (f & E & H). apply bind_ok in H. destruct H as (fs' & E2 & [= <-]).
    cbn [map length seq]. f_equal; [exact (proj1 (comp_effective_tag _ _ _ _ _ _ E)) | exact (IH _ _ E2)].
Qed.

Lemma tag_cmp_le_trans a b c : tag_cmp a b <> Gt -> tag_cmp b c <> Gt -> tag_cmp a c <> Gt.
Proof.
  unfold tag_cmp.
  destruct (Nat.compare_spec (class_rank (fst a)) (class_rank (fst b))),
           (Nat.compare_spec (class_rank (fst b)) (class_rank (fst c))),
           (Nat.compare_spec (class_rank (fst a)) (class_rank (fst c))); try lia; try congruence.
  apply N.le_trans.
Qed.

(* CHOICE: the tag an untagged CHOICE is ordered by is the smallest tag among its root alternatives *)
Lemma hd_sort_min (ts : list tag) t :
  hd_error (sort_by tag_cmp ts) = Some t -> In t ts /\ Forall (fun u => tag_le t u = true) ts.
Proof.
  intros H.
  assert (Hgl : forall a b, tag_cmp a b = Gt -> tag_cmp b a <> Gt)
    by (intros a b Hgt; rewrite (tag_cmp_gt_lt _ _ Hgt); discriminate).
  destruct (sort_by_hd_min tag_cmp Hgl ts t tag_cmp_le_trans H) as [Hin Hall].
  split; [exact Hin|]. eapply Forall_impl; [|exact Hall].
  intros u Hu. unfold cle in Hu. unfold tag_le. destruct (tag_cmp t u); auto; congruence.
Qed.

Lemma take_while_index_le_firstn bound : forall l i,
  map snd (take_while_index_le bound (enumerate_from i l))
  = firstn (match bound with Some b => S b - i | None => length l end) l.
Proof.
  induction l as [|f l IH]; intros i.
  - simpl. rewrite firstn_nil. reflexivity.
  - cbn [enumerate_from take_while_index_le]. destruct bound as [b|].
    + destruct (Nat.leb_spec i b).
      * cbn [map snd]. rewrite IH. replace (S b - i)%nat with (S (S b - S i))%nat by lia. reflexivity.
      * replace (S b - i)%nat with O by lia. reflexivity.
    + cbn [map snd length]. rewrite IH. reflexivity.
Qed.

Lemma map_filter {A B} (g : A -> B) (p : B -> bool) l : map g (filter (fun a => p (g a)) l) = filter p (map g l).
Proof. induction l as [|a l IH]; simpl; [reflexivity|]. destruct (p (g a)); simpl; congruence. Qed.

(* STD_OPTIONAL_FIELDS counts the optional fields among the first root_count fields of the wire order:
   the presence bits are the optional root fields, in wire order *)
Definition presence_fields (wire : list rfield) (ext_after : option nat) : list rfield :=
  filter (fun f => is_optional (rf_ty f)) (firstn (root_count ext_after (length wire)) wire).

Theorem std_optional_fields_spec wire ext :
  std_optional_fields wire ext = length (presence_fields wire ext).
Proof.
  unfold std_optional_fields, presence_fields, enumerate.
  rewrite <- (map_length snd), (map_filter snd (fun f => is_optional (rf_ty f))), take_while_index_le_firstn. f_equal. f_equal.
  unfold root_count. destruct ext as [b|]; [|rewrite firstn_all; reflexivity].
  rewrite Nat.sub_0_r, <- firstn_firstn, firstn_all. reflexivity.
Qed.

Lemma write_constraints_consts o own fs ext l :
  write_constraints o own fs ext = Ok l ->
  l_std_optional l = length (presence_fields (l_wire l) ext) /\ l_extended_after l = ext /\
  l_own l = match own with Some t => t | None => tag_of_code DEFAULT_SEQUENCE end /\
  match o with
  | Keep => l_wire l = assign_implicit_tags fs
  | Sort => sort_fields_canonically (assign_implicit_tags fs) ext = Ok (l_wire l)
  end.
Proof.
  unfold write_constraints. intros H.
  apply bind_ok in H. destruct H as (cs & _ & H). apply bind_ok in H. destruct H as (wire & Hw & [= <-]).
  cbn [l_std_optional l_extended_after l_own l_wire]. rewrite std_optional_fields_spec.
  repeat split. destruct o; [injection Hw as <-; reflexivity | exact Hw].
Qed.

Theorem write_constraints_keep own fs ext l :
  write_constraints Keep own fs ext = Ok l ->
  l_wire l = assign_implicit_tags fs /\ map rf_idx (l_wire l) = map rf_idx fs.
Proof.
  intros H. destruct (write_constraints_consts _ _ _ _ _ H) as (_ & _ & _ & ->).
  split; [reflexivity | apply assign_implicit_tags_idx].
Qed.

Lemma reparse_fields fields en r : reparse fields en = Ok r -> fst r = fields.
Proof. unfold reparse. destruct (existsb _ fields); intros H; inversion H. reflexivity. Qed.

Theorem layout_of_sequence_textual d l :
  s_set d = false -> layout_of d = Ok l -> map rf_idx (l_wire l) = seq 0 (length (s_comps d)).
Proof.
  unfold layout_of. intros Hs H. rewrite Hs in H.
  apply bind_ok in H. destruct H as (fields & E1 & H). apply bind_ok in H. destruct H as (en & _ & H).
  apply bind_ok in H. destruct H as (back & E3 & H).
  apply write_constraints_keep in H. destruct H as [_ H]. rewrite H.
  rewrite (reparse_fields _ _ _ E3). apply (comps_to_rfields_idx _ _ _ _ _ _ E1).
Qed.
