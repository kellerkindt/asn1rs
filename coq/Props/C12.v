(* C12 -- value references and imports resolve exactly like the literals they name.
   Model in Front/Resolve.v.  Each theorem is a lemma of Front/ResolveProofs.v (a single reference) or of
   Front/ResolveSubstProofs.v (whole types / definitions / modules / module sets), or is derived here in a few lines
   from such lemmas or from the model itself; the examples are computed.

   PROVED, at the level of the parsed AST (uty / uasn / umodel), for every constructor of the type language:
   * C12_subst_type / _definition / _module / _all.  [abs_ty Ms M t t']: t' is t where any subset of the literals at
     INTEGER range bounds, SIZE bounds and DEFAULT values has been replaced by references, each of which the lookup of
     the scope (Ms, M) -- local first, then the first import listing the name, the module matched by OID equality or
     else by name: *whatever* `value_reference` does -- binds to exactly that literal (SIZE: to a non-negative INTEGER
     of that value).  Then t' resolves exactly like t (same model, same error, same divergence).  Module level: every
     module of the scope may be abstracted at once (the bindings themselves are never touched: IMPORTS, names and values
     of the value assignments are equal), the scope Ms' replaces Ms in all lookups, and
     resolve_model Ms' M' = resolve_model Ms M, resolve_all Ms' = resolve_all Ms.
     The only side condition is the F12 exception, stated exactly ([default_exception]): a DEFAULT reference is not
     read as a value reference when the component's type is a reference whose *definition* lookup finds an ENUMERATED
     with an item of that name (then the DEFAULT is that item), or does not return.
   * C12_literalize_type / _module / _all: the same as a function, without hypotheses.  [lit_ty Ms M] replaces every
     reference that can be replaced (bound to an INTEGER / a non-negative INTEGER / any value, outside the F12 exception)
     by its literal and keeps the others; literalizing every module of the scope never changes the result of
     resolve_ty / resolve_model / resolve_all.  C12_literalize_complete_type / _module: when the type / module resolves,
     its literalization contains no reference at an INTEGER or SIZE bound and none at a DEFAULT outside the F12
     exception, i.e. "every reference is replaced".
   * C12_unresolved_is_error_type / _module / _all and C12_non_integer_is_error_type / _module / _all: a type that
     contains, anywhere (through OPTIONAL, SEQUENCE/SET components, SEQUENCE OF/SET OF, CHOICE), a reference that no
     module binds (at a range bound, a SIZE bound, or as a DEFAULT outside the ENUMERATED special case), resp. a
     reference bound to a non-INTEGER at a range/SIZE bound or to a negative INTEGER at a SIZE bound, does not resolve to
     a model (RErr or RDiverge; *which* error is the first one in traversal order, not claimed); neither does a module
     with such a definition / value assignment, nor a module set containing such a module.
   * C12_order_irrelevant_module / _all / _all_error: under Permutation of the load order, if every import of every
     loaded module is answered by at most one loaded module (by OID equality or by name), every module resolves to the
     same model, the list of resolved models is permuted, and failure is preserved.
   The lookup-level theorems (C12_subst_*_partial, C12_unresolved_is_error, ...) say the same of a single reference.

   NOT proved / outside these statements: the statements are about the AST, not about the text.  The parser folds
   some *literal* constraints before the resolver sees them, so textual replacement and AST replacement differ there
   (refuted, witnesses below): INTEGER (0..MAX) is folded to "unconstrained" only when the 0 is a literal; SIZE(0..MAX, ...)
   is a parse error only when 0 and MAX are literals.  Further refuted: cyclic IMPORTS of an undefined name do not
   return; with two loaded modules answering to the same import the load order decides
   (C12_refuted_load_order_matters_with_duplicate_module_names).
   A negative value used as SIZE is FailedToParseLiteral, like the literal (C12_negative_size_is_error;
   C12_fixed_negative_size_reference_is_error is the witness on module text). *)
From Coq Require Import String Permutation.
From A1 Require Import Front.Resolve Front.ResolveProofs Front.ResolveSubstProofs Extract.OpsParse.
Local Open Scope N_scope.

Theorem C12_subst_bound_partial : forall scope model name v,
  value_reference scope (lookup_fuel scope) model name = Found (LInteger v) ->
  resolve_i64 scope model (Ref name) = resolve_i64 scope model (Lit v).
Proof. exact subst_i64. Qed.

Theorem C12_subst_size_bound_partial : forall scope model name v,
  (0 <= v)%Z ->
  value_reference scope (lookup_fuel scope) model name = Found (LInteger v) ->
  resolve_usize scope model (Ref name) = resolve_usize scope model (Lit (Z.to_N v)).
Proof. exact subst_usize. Qed.

Theorem C12_subst_default_partial : forall scope model name l t,
  value_reference scope (lookup_fuel scope) model name = Found l ->
  (forall r tg, t <> TRef r tg) ->
  resolve_default scope model t (Some (Ref name)) = resolve_default scope model t (Some (Lit l)).
Proof.
  intros scope model name l t H Hn. unfold resolve_default, resolve_literal. rewrite H.
  destruct t; try reflexivity. exfalso. eapply Hn. reflexivity.
Qed.

Theorem C12_unresolved_is_error : forall scope model name,
  value_reference scope (lookup_fuel scope) model name = NotFound ->
  resolve_i64 scope model (Ref name) = RErr (FailedToResolveReference name) /\
  resolve_usize scope model (Ref name) = RErr (FailedToResolveReference name) /\
  resolve_literal scope model (Ref name) = RErr (FailedToResolveReference name).
Proof. exact resolve_leaf_unresolved. Qed.

Theorem C12_non_integer_is_error : forall scope model name l,
  value_reference scope (lookup_fuel scope) model name = Found l ->
  (forall v, l <> LInteger v) ->
  resolve_i64 scope model (Ref name) = RErr (FailedToParseLiteral (name_prefix ++ name)) /\
  resolve_usize scope model (Ref name) = RErr (FailedToParseLiteral (name_prefix ++ name)).
Proof.
  intros scope model name l H Hn. unfold resolve_i64, resolve_usize. rewrite H.
  destruct l; try (split; reflexivity). exfalso. eapply Hn. reflexivity.
Qed.

Theorem C12_negative_size_is_error : forall scope model name v,
  (v < 0)%Z ->
  value_reference scope (lookup_fuel scope) model name = Found (LInteger v) ->
  resolve_usize scope model (Ref name) = RErr (FailedToParseLiteral (name_prefix ++ name)).
Proof.
  intros scope model name v Hv H. unfold resolve_usize. rewrite H.
  destruct (v <? 0)%Z eqn:E; [reflexivity | apply Z.ltb_ge in E; lia].
Qed.

(* t' = t with literals abstracted by references bound to them: same result *)
Theorem C12_subst_type : forall Ms M t t',
  abs_ty Ms M t t' -> resolve_ty Ms M t' = resolve_ty Ms M t.
Proof. exact subst_ty. Qed.

Theorem C12_subst_definition : forall Ms M a a',
  abs_asn Ms M a a' -> resolve_asn Ms M a' = resolve_asn Ms M a.
Proof. exact subst_asn. Qed.

(* every module of the scope abstracted (each relative to the literal scope Ms and itself); the abstracted scope is
   the one the lookups of the abstracted module run in *)
Theorem C12_subst_module : forall Ms Ms' M M',
  Forall2 (abs_model Ms) Ms Ms' -> abs_model Ms M M' -> resolve_model Ms' M' = resolve_model Ms M.
Proof. exact subst_module. Qed.

Theorem C12_subst_all : forall Ms Ms',
  Forall2 (abs_model Ms) Ms Ms' -> resolve_all Ms' = resolve_all Ms.
Proof. exact subst_all. Qed.

(* the substitution as a function: no hypotheses *)
Theorem C12_literalize_type : forall Ms M t, resolve_ty Ms M (lit_ty Ms M t) = resolve_ty Ms M t.
Proof. intros Ms M t. symmetry. apply subst_ty. apply lit_ty_abs. split; reflexivity. Qed.

Theorem C12_literalize_module : forall Ms M, resolve_model (lit_scope Ms) (lit_model Ms M) = resolve_model Ms M.
Proof. intros Ms M. symmetry. apply subst_module; [apply lit_scope_abs | apply lit_model_abs]. Qed.

Theorem C12_literalize_all : forall Ms, resolve_all (lit_scope Ms) = resolve_all Ms.
Proof. intros Ms. symmetry. apply subst_all. apply lit_scope_abs. Qed.

(* and it is an instance of the relation *)
Theorem C12_literalize_is_abstraction : forall Ms, Forall2 (abs_model (lit_scope Ms)) (lit_scope Ms) Ms.
Proof. exact lit_scope_abs. Qed.

(* ... and it is complete: when the type / module resolves, its literalization contains no reference at all at an
   INTEGER bound or a SIZE bound, and none at a DEFAULT outside the F12 exception ("every reference replaced") *)
Theorem C12_literalize_complete_type : forall Ms M t r,
  resolve_ty Ms M t = ROk r -> ~ ty_site any_ref any_ref (plain_default Ms M) (lit_ty Ms M t).
Proof.
  intros Ms M t r H Hs. apply lit_ty_kept in Hs.
  exact (ty_site_error Ms M _ _ _ (fun _ K => K) (fun _ K => K) (fun _ _ K => K) t Hs r H).
Qed.

Theorem C12_literalize_complete_module : forall Ms M r,
  resolve_model Ms M = ROk r -> ~ model_site any_ref any_ref (plain_default Ms M) (lit_model Ms M).
Proof.
  intros Ms M r H Hs. apply lit_model_kept in Hs.
  exact (model_site_error Ms M _ _ _ (fun _ K => K) (fun _ K => K) (fun _ _ K => K) Hs r H).
Qed.

(* errors: a reference that no module binds, anywhere in a type / module / module set *)
Theorem C12_unresolved_is_error_type : forall Ms M t,
  ty_site (ref_unresolved Ms M) (ref_unresolved Ms M) (ref_unresolved_default Ms M) t ->
  forall r, resolve_ty Ms M t <> ROk r.
Proof.
  intros Ms M.
  exact (ty_site_error Ms M _ _ _ (unresolved_i64_error Ms M) (unresolved_usize_error Ms M) (unresolved_default_error Ms M)).
Qed.

Theorem C12_unresolved_is_error_module : forall Ms M,
  model_site (ref_unresolved Ms M) (ref_unresolved Ms M) (ref_unresolved_default Ms M) M ->
  forall r, resolve_model Ms M <> ROk r.
Proof. exact unresolved_is_error_module. Qed.

Theorem C12_unresolved_is_error_all : forall Ms M,
  In M Ms -> model_site (ref_unresolved Ms M) (ref_unresolved Ms M) (ref_unresolved_default Ms M) M ->
  forall rs, resolve_all Ms <> ROk rs.
Proof. intros Ms M Hin Hs. exact (resolve_each_error Ms M Ms Hin (unresolved_is_error_module Ms M Hs)). Qed.

(* errors: a non-INTEGER at a range / SIZE bound, a negative INTEGER at a SIZE bound *)
Theorem C12_non_integer_is_error_type : forall Ms M t,
  ty_site (ref_non_integer Ms M) (ref_non_size Ms M) (fun _ _ => False) t ->
  forall r, resolve_ty Ms M t <> ROk r.
Proof.
  intros Ms M. apply (ty_site_error Ms M _ _ _ (non_integer_error Ms M) (non_size_error Ms M)). intros t0 name [].
Qed.

Theorem C12_non_integer_is_error_module : forall Ms M,
  model_site (ref_non_integer Ms M) (ref_non_size Ms M) (fun _ _ => False) M ->
  forall r, resolve_model Ms M <> ROk r.
Proof. exact non_integer_is_error_module. Qed.

Theorem C12_non_integer_is_error_all : forall Ms M,
  In M Ms -> model_site (ref_non_integer Ms M) (ref_non_size Ms M) (fun _ _ => False) M ->
  forall rs, resolve_all Ms <> ROk rs.
Proof. intros Ms M Hin Hs. exact (resolve_each_error Ms M Ms Hin (non_integer_is_error_module Ms M Hs)). Qed.

(* load order *)
Theorem C12_order_irrelevant_module : forall Ms Ms',
  Permutation Ms Ms' -> (forall m, In m Ms -> unique_targets Ms m) ->
  forall M, unique_targets Ms M -> resolve_model Ms' M = resolve_model Ms M.
Proof. exact order_irrelevant_module. Qed.

Theorem C12_order_irrelevant_all : forall Ms Ms',
  Permutation Ms Ms' -> (forall m, In m Ms -> unique_targets Ms m) ->
  forall rs, resolve_all Ms = ROk rs -> exists rs', resolve_all Ms' = ROk rs' /\ Permutation rs rs'.
Proof. exact order_irrelevant_all. Qed.

(* failure is preserved; which error is reported does depend on the order *)
Theorem C12_order_irrelevant_all_error : forall Ms Ms',
  Permutation Ms Ms' -> (forall m, In m Ms -> unique_targets Ms m) ->
  (forall rs, resolve_all Ms <> ROk rs) -> forall rs', resolve_all Ms' <> ROk rs'.
Proof.
  intros Ms Ms' Hperm Huniq Hbad rs' H.
  destruct (order_irrelevant_all Ms' Ms (Permutation_sym Hperm) (unique_targets_perm _ _ Hperm Huniq) rs' H)
    as [rs [Hrs _]].
  exact (Hbad rs Hrs).
Qed.

(* name clashes: the item of the component's ENUMERATED wins over value references of the same name (the hypotheses do
   not mention value_reference at all); an ENUMERATED without the item, or a component that is not a type reference,
   means the value reference *)
Theorem C12_enum_default_precedence : forall Ms M referenced tg name tg0 variants e d0 v,
  definition Ms (lookup_fuel Ms) M referenced = Found (tg0, TEnumerated variants e, d0) ->
  find (fun v => str_eqb name (fst v)) variants = Some v ->
  resolve_default Ms M (TRef referenced tg) (Some (Ref name)) = ROk (Some (LEnumVariant referenced (fst v))).
Proof. intros Ms M referenced tg name tg0 variants e d0 v Hd Hf. cbn [resolve_default]. rewrite Hd, Hf. reflexivity. Qed.

Theorem C12_enum_default_other_item_is_value : forall Ms M referenced tg name tg0 variants e d0,
  definition Ms (lookup_fuel Ms) M referenced = Found (tg0, TEnumerated variants e, d0) ->
  find (fun v => str_eqb name (fst v)) variants = None ->
  resolve_default Ms M (TRef referenced tg) (Some (Ref name))
  = (let^ l := resolve_literal Ms M (Ref name) in ROk (Some l)).
Proof. intros Ms M referenced tg name tg0 variants e d0 Hd Hf. cbn [resolve_default]. rewrite Hd, Hf. reflexivity. Qed.

Theorem C12_non_reference_default_is_value : forall Ms M t name,
  ref_name t = None ->
  resolve_default Ms M t (Some (Ref name)) = (let^ l := resolve_literal Ms M (Ref name) in ROk (Some l)).
Proof. intros Ms M t name H. destruct t; try reflexivity. discriminate H. Qed.

Definition defaults_of (s : string) : option (list (option literal)) :=
  match tokenize dev_mode (s2n s) with
  | Ok ts => match parse ts with
             | POk u => match resolve_single u with
                        | ROk r =>
                            Some (flat_map (fun d => match d with
                                                     | (_, (_, TSequence fs _, _)) => map (fun f => snd (snd f)) fs
                                                     | _ => []
                                                     end) (m_definitions r))
                        | _ => None
                        end
             | _ => None
             end
  | _ => None
  end.

(* `medium` is an item of Level and a value: Level DEFAULT medium is the item (with and without the value assignment),
   INTEGER DEFAULT medium is 50, a component of an ENUMERATED without that item is 50 *)
Example C12_enum_default_precedence_nonvacuous :
  defaults_of "M DEFINITIONS ::= BEGIN Level ::= ENUMERATED { low, medium, high } Other ::= ENUMERATED { red } medium INTEGER ::= 50 S ::= SEQUENCE { level Level DEFAULT medium, n INTEGER (0..100) DEFAULT medium, c Other DEFAULT medium } END"
  = Some [Some (LEnumVariant (s2n "Level") (s2n "medium")); Some (LInteger 50); Some (LInteger 50)] /\
  defaults_of "M DEFINITIONS ::= BEGIN Level ::= ENUMERATED { low, medium, high } S ::= SEQUENCE { level Level DEFAULT medium } END"
  = Some [Some (LEnumVariant (s2n "Level") (s2n "medium"))].
Proof. split; vm_compute; reflexivity. Qed.

(* witnesses, computed on the whole front-end model (tokenizer, parser, resolver) *)

Definition txt (s : string) : list Z := map Z.of_N (s2n s).

Definition first_def (s : string) : option rty :=
  match tokenize dev_mode (s2n s) with
  | Ok ts => match parse ts with
             | POk u => match resolve_single u with
                        | ROk r => match m_definitions r with (_, (_, t, _)) :: _ => Some t | [] => None end
                        | _ => None
                        end
             | _ => None
             end
  | _ => None
  end.

(* the literal 0 of (0..MAX) is folded away, the reference to 0 is not: different models *)
Example C12_refuted_reference_in_0_max_range_not_folded :
  first_def "M DEFINITIONS ::= BEGIN A ::= INTEGER (0..MAX) zero INTEGER ::= 0 END"
    = Some (TInteger (None, None, false) []) /\
  first_def "M DEFINITIONS ::= BEGIN A ::= INTEGER (zero..MAX) zero INTEGER ::= 0 END"
    = Some (TInteger (Some 0%Z, None, false) []).
Proof. split; vm_compute; reflexivity. Qed.

(* the reference to a negative value at a SIZE bound is a resolve error, like the literal -1 (usize::try_from); guards the
   repaired defect of class negative_value_reference_as_size_wraps, where SIZE(neg) with neg = -1 resolved to SIZE(2^64-1) *)
Example C12_fixed_negative_size_reference_is_error :
  first_def "M DEFINITIONS ::= BEGIN A ::= OCTET STRING (SIZE(neg)) neg INTEGER ::= -1 END" = None /\
  first_def "M DEFINITIONS ::= BEGIN A ::= OCTET STRING (SIZE(-1)) neg INTEGER ::= -1 END" = None /\
  op_3301 dev_mode (txt "M DEFINITIONS ::= BEGIN A ::= OCTET STRING (SIZE(neg)) neg INTEGER ::= -1 END")
  = (1 :: 2 :: 2 :: 9 :: map Z.of_N (s2n "name: neg"))%Z.
Proof. repeat split; vm_compute; reflexivity. Qed.

Example C12_refuted_reference_in_size_0_max_extensible_accepted :
  first_def "M DEFINITIONS ::= BEGIN A ::= OCTET STRING (SIZE(zero..MAX, ...)) zero INTEGER ::= 0 END"
    = Some (TOctetString (SRange 0 9223372036854775807 true)) /\
  first_def "M DEFINITIONS ::= BEGIN A ::= OCTET STRING (SIZE(0..MAX, ...)) zero INTEGER ::= 0 END" = None.
Proof. split; vm_compute; reflexivity. Qed.

(* two modules importing an undefined name from each other: the lookup does not return (process abort, `3 32`) *)
Example C12_refuted_cyclic_import_diverges :
  let m1 := txt "M DEFINITIONS ::= BEGIN IMPORTS x FROM N; A ::= INTEGER (0..x) END" in
  let m2 := txt "N DEFINITIONS ::= BEGIN IMPORTS x FROM M; B ::= BOOLEAN END" in
  op_3302 dev_mode ([2; Z.of_nat (length m1)] ++ m1 ++ [Z.of_nat (length m2)] ++ m2)%Z = [3; 32]%Z.
Proof. vm_compute. reflexivity. Qed.

(* non-vacuity of the hypotheses: a reference imported by OID from a sibling that is loaded first *)
Example C12_nonvacuous :
  let lib := txt "Lib { iso(1) 5 } DEFINITIONS ::= BEGIN hi INTEGER ::= 9 END" in
  let m := txt "M DEFINITIONS ::= BEGIN IMPORTS hi FROM Elsewhere { iso(1) 5 }; A ::= INTEGER (0..hi) END" in
  let ml := txt "M DEFINITIONS ::= BEGIN IMPORTS hi FROM Elsewhere { iso(1) 5 }; A ::= INTEGER (0..9) END" in
  op_3302 dev_mode ([2; Z.of_nat (length lib)] ++ lib ++ [Z.of_nat (length m)] ++ m)%Z
  = op_3302 dev_mode ([2; Z.of_nat (length lib)] ++ lib ++ [Z.of_nat (length ml)] ++ ml)%Z
  /\ hd 1%Z (op_3302 dev_mode ([2; Z.of_nat (length lib)] ++ lib ++ [Z.of_nat (length m)] ++ m)%Z) = 0%Z.
Proof. split; vm_compute; reflexivity. Qed.

(* non-vacuity of the module-level theorems, on parsed module texts *)

Definition parsed (s : string) : option umodel :=
  match tokenize dev_mode (s2n s) with
  | Ok ts => match parse ts with POk u => Some u | _ => None end
  | _ => None
  end.

(* imports by OID (under another module name) and by name, local binding `lo`, all three kinds of use site, a DEFAULT
   that is an ENUMERATED item (kept by lit_scope: the F12 exception), load order with the library last: the
   literalization of the parsed referencing module set IS the parsed literal module set *)
Definition T_lib : string := "Lib { iso(1) 5 } DEFINITIONS ::= BEGIN hi INTEGER ::= 9 len INTEGER ::= 4 END".
Definition T_other : string := "Other DEFINITIONS ::= BEGIN dflt INTEGER ::= 7 Color ::= ENUMERATED { red, green } END".
Definition T_ref : string := "M DEFINITIONS ::= BEGIN IMPORTS hi, len FROM Elsewhere { iso(1) 5 } dflt, Color FROM Other; A ::= SEQUENCE { a INTEGER (0..hi), b OCTET STRING (SIZE(1..len)), c INTEGER DEFAULT dflt, d Color DEFAULT green, e SEQUENCE (SIZE(len)) OF BOOLEAN } lo INTEGER ::= 2 B ::= INTEGER (lo..hi) END".
Definition T_lit : string := "M DEFINITIONS ::= BEGIN IMPORTS hi, len FROM Elsewhere { iso(1) 5 } dflt, Color FROM Other; A ::= SEQUENCE { a INTEGER (0..9), b OCTET STRING (SIZE(1..4)), c INTEGER DEFAULT 7, d Color DEFAULT green, e SEQUENCE (SIZE(4)) OF BOOLEAN } lo INTEGER ::= 2 B ::= INTEGER (2..9) END".

Example C12_subst_nonvacuous :
  exists lib other m_ref m_lit rs,
    parsed T_lib = Some lib /\ parsed T_other = Some other /\ parsed T_ref = Some m_ref /\ parsed T_lit = Some m_lit /\
    lit_scope [other; m_ref; lib] = [other; m_lit; lib] /\
    Forall2 (abs_model [other; m_lit; lib]) [other; m_lit; lib] [other; m_ref; lib] /\
    m_ref <> m_lit /\
    resolve_all [other; m_ref; lib] = ROk rs /\ resolve_all [other; m_lit; lib] = ROk rs.
Proof.
  (* the witnesses are bound once: the proof term mentions each module once, not once per conjunct *)
  let v := eval vm_compute in (parsed T_lib, parsed T_other, parsed T_ref, parsed T_lit) in
  match v with (Some ?a, Some ?b, Some ?c, Some ?d) => pose (lib := a); pose (other := b); pose (m_ref := c); pose (m_lit := d) end.
  let v := eval vm_compute in (resolve_all [other; m_ref; lib]) in match v with ROk ?r => pose (rs := r) end.
  exists lib, other, m_ref, m_lit, rs.
  split; [vm_compute; reflexivity|]. split; [vm_compute; reflexivity|].
  split; [vm_compute; reflexivity|]. split; [vm_compute; reflexivity|].
  match goal with |- ?A = ?B /\ _ => assert (E : A = B) by (vm_compute; reflexivity) end.
  split; [exact E|]. split; [rewrite <- E; apply lit_scope_abs|].
  split; [discriminate|].
  split; vm_compute; reflexivity.
Qed.

(* a dangling reference / a BOOLEAN used as SIZE, deep inside a definition *)
Definition T_bad : string := "M DEFINITIONS ::= BEGIN IMPORTS nope FROM Lib; A ::= SEQUENCE { a BOOLEAN, b CHOICE { x INTEGER (0..nope) } } END".
Definition T_bad2 : string := "M DEFINITIONS ::= BEGIN IMPORTS flag FROM Lib; A ::= SEQUENCE { a BOOLEAN, b SET OF OCTET STRING (SIZE(flag)) } END".
Definition T_lib2 : string := "Lib DEFINITIONS ::= BEGIN flag BOOLEAN ::= TRUE END".

Example C12_error_nonvacuous :
  exists lib m1 m2,
    parsed T_lib2 = Some lib /\ parsed T_bad = Some m1 /\ parsed T_bad2 = Some m2 /\
    model_site (ref_unresolved [lib; m1] m1) (ref_unresolved [lib; m1] m1) (ref_unresolved_default [lib; m1] m1) m1 /\
    model_site (ref_non_integer [lib; m2] m2) (ref_non_size [lib; m2] m2) (fun _ _ => False) m2.
Proof.
  let v := eval vm_compute in (parsed T_lib2, parsed T_bad, parsed T_bad2) in
  match v with (Some ?a, Some ?b, Some ?c) => pose (lib := a); pose (m1 := b); pose (m2 := c) end.
  exists lib, m1, m2.
  split; [vm_compute; reflexivity|]. split; [vm_compute; reflexivity|]. split; [vm_compute; reflexivity|].
  split.
  - eapply site_definition; [left; reflexivity|]. apply site_asn_ty.
    eapply site_Sequence_ty; [right; left; reflexivity|].
    eapply site_Choice; [left; reflexivity|]. apply site_Integer_hi. vm_compute. reflexivity.
  - eapply site_definition; [left; reflexivity|]. apply site_asn_ty.
    eapply site_Sequence_ty; [right; left; reflexivity|].
    apply site_SetOf_ty. apply site_OctetString. apply site_SFix.
    eexists. split; [vm_compute; reflexivity|]. intros v H; discriminate.
Qed.

(* REFUTED without the uniqueness condition: two loaded modules called Lib both define x; the one loaded first wins *)
Definition T_l1 : string := "Lib DEFINITIONS ::= BEGIN x INTEGER ::= 1 END".
Definition T_l2 : string := "Lib DEFINITIONS ::= BEGIN x INTEGER ::= 2 END".
Definition T_m : string := "M DEFINITIONS ::= BEGIN IMPORTS x FROM Lib; A ::= INTEGER (0..x) END".
Definition set3 (a b c : string) : list Z :=
  ([3; Z.of_nat (length (txt a))] ++ txt a ++ [Z.of_nat (length (txt b))] ++ txt b ++ [Z.of_nat (length (txt c))] ++ txt c)%Z.

Example C12_refuted_load_order_matters_with_duplicate_module_names :
  exists l1 l2 m r12 r21,
    parsed T_l1 = Some l1 /\ parsed T_l2 = Some l2 /\ parsed T_m = Some m /\
    resolve_model [l1; l2; m] m = ROk r12 /\ resolve_model [l2; l1; m] m = ROk r21 /\ r12 <> r21 /\
    m_definitions r12 = [(s2n "A", (None, TInteger (Some 0%Z, Some 1%Z, false) [], None))] /\
    m_definitions r21 = [(s2n "A", (None, TInteger (Some 0%Z, Some 2%Z, false) [], None))] /\
    op_3302 dev_mode (set3 T_l1 T_l2 T_m) <> op_3302 dev_mode (set3 T_l2 T_l1 T_m).
Proof.
  let v := eval vm_compute in (parsed T_l1, parsed T_l2, parsed T_m) in
  match v with (Some ?a, Some ?b, Some ?c) => pose (l1 := a); pose (l2 := b); pose (m := c) end.
  let v := eval vm_compute in (resolve_model [l1; l2; m] m, resolve_model [l2; l1; m] m) in
  match v with (ROk ?a, ROk ?b) => pose (r12 := a); pose (r21 := b) end.
  exists l1, l2, m, r12, r21.
  split; [vm_compute; reflexivity|]. split; [vm_compute; reflexivity|]. split; [vm_compute; reflexivity|].
  split; [vm_compute; reflexivity|]. split; [vm_compute; reflexivity|].
  split; [discriminate|].
  split; [vm_compute; reflexivity|]. split; [vm_compute; reflexivity|].
  vm_compute. intros H; inversion H.
Qed.

(* the uniqueness condition holds for the module set of C12_subst_nonvacuous *)
Example C12_order_nonvacuous :
  exists lib other m_ref,
    parsed T_lib = Some lib /\ parsed T_other = Some other /\ parsed T_ref = Some m_ref /\
    (forall m, In m [lib; other; m_ref] -> unique_targets [lib; other; m_ref] m) /\
    Permutation [lib; other; m_ref] [m_ref; other; lib] /\
    exists rs, resolve_all [lib; other; m_ref] = ROk rs.
Proof.
  let v := eval vm_compute in (parsed T_lib, parsed T_other, parsed T_ref) in
  match v with (Some ?a, Some ?b, Some ?c) => pose (lib := a); pose (other := b); pose (m_ref := c) end.
  exists lib, other, m_ref.
  split; [vm_compute; reflexivity|]. split; [vm_compute; reflexivity|]. split; [vm_compute; reflexivity|].
  split; [apply unique_targets_by_count; vm_compute; reflexivity|].
  split; [apply Permutation_rev|]. eexists. vm_compute. reflexivity.
Qed.

Print Assumptions C12_subst_bound_partial.
Print Assumptions C12_subst_size_bound_partial.
Print Assumptions C12_subst_default_partial.
Print Assumptions C12_unresolved_is_error.
Print Assumptions C12_non_integer_is_error.
Print Assumptions C12_refuted_reference_in_0_max_range_not_folded.
Print Assumptions C12_negative_size_is_error.
Print Assumptions C12_fixed_negative_size_reference_is_error.
Print Assumptions C12_refuted_reference_in_size_0_max_extensible_accepted.
Print Assumptions C12_refuted_cyclic_import_diverges.
Print Assumptions C12_subst_type.
Print Assumptions C12_subst_definition.
Print Assumptions C12_subst_module.
Print Assumptions C12_subst_all.
Print Assumptions C12_literalize_type.
Print Assumptions C12_literalize_module.
Print Assumptions C12_literalize_all.
Print Assumptions C12_literalize_is_abstraction.
Print Assumptions C12_literalize_complete_type.
Print Assumptions C12_literalize_complete_module.
Print Assumptions C12_unresolved_is_error_type.
Print Assumptions C12_unresolved_is_error_module.
Print Assumptions C12_unresolved_is_error_all.
Print Assumptions C12_non_integer_is_error_type.
Print Assumptions C12_non_integer_is_error_module.
Print Assumptions C12_non_integer_is_error_all.
Print Assumptions C12_order_irrelevant_module.
Print Assumptions C12_order_irrelevant_all.
Print Assumptions C12_order_irrelevant_all_error.
Print Assumptions C12_subst_nonvacuous.
Print Assumptions C12_error_nonvacuous.
Print Assumptions C12_refuted_load_order_matters_with_duplicate_module_names.
Print Assumptions C12_order_nonvacuous.
Print Assumptions C12_enum_default_precedence.
Print Assumptions C12_enum_default_other_item_is_value.
Print Assumptions C12_non_reference_default_is_value.
Print Assumptions C12_enum_default_precedence_nonvacuous.
