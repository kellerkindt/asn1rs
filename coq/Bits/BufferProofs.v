(* Proofs about Bits/Buffer.v (the full BitBuffer surface): every write entry point is an
   instance of write_bits_with_offset_len, the invariant of Bits/Proofs.v is preserved by
   every public operation except a scoped write that runs past the old end (the run of
   C11_refuted_scope_write_past_end), and a scoped write that stays inside the written bits
   is a splice. *)
From A1 Require Import Bits.Naive Bits.Proofs Bits.Buffer.
Local Open Scope N_scope.

Lemma bb_after_write_ol m b src soff slen :
  bb_write_bits_ol m b src soff slen =
  (let! send := uadd m soff slen in
   if blen src * BYTE_LEN <? send then Ok (b, Some E_INSUFFICIENT_SRC) else
   let! b := ensure_can_write m b slen in
   bb_after_write b (slice_write_bits m (bb_buf b) (bb_wpos b) src soff slen)).
Proof. reflexivity. Qed.

Lemma bb_write_bits_with_len_eq m b src len : len < two64 ->
  bb_write_bits_with_len m b src len = bb_write_bits_ol m b src 0 len.
Proof.
  intros H. rewrite bb_after_write_ol. unfold bb_write_bits_with_len, slice_write_bits_l.
  rewrite uadd_ok by (cbn; lia). cbn [bind]. change (0 + len) with len. reflexivity.
Qed.

Lemma bb_write_bits_with_offset_eq m b src soff : soff <= 8 * blen src -> 8 * blen src < two64 ->
  bb_write_bits_with_offset m b src soff = bb_write_bits_ol m b src soff (8 * blen src - soff).
Proof.
  intros H H64. rewrite bb_after_write_ol. unfold bb_write_bits_with_offset, slice_write_bits_o, BYTE_LEN.
  rewrite usub_ok by lia. cbn [bind]. rewrite uadd_ok by lia. cbn [bind].
  replace (blen src * 8 - soff) with (8 * blen src - soff) by lia.
  destruct (N.ltb_spec (blen src * 8) (soff + (8 * blen src - soff))); [lia|].
  destruct (ensure_can_write m b (8 * blen src - soff)) as [b1|e|p]; cbn [bind]; reflexivity.
Qed.

(* write_bits(src) ensures src.len() * 8 bits itself and is otherwise write_bits_with_offset(src, 0) *)
Lemma bb_write_bits_eq m b src : 8 * blen src < two64 ->
  bb_write_bits m b src = bb_write_bits_ol m b src 0 (8 * blen src).
Proof.
  intros H64. rewrite <- (N.sub_0_r (8 * blen src)), <- bb_write_bits_with_offset_eq by lia.
  unfold bb_write_bits_with_offset. rewrite usub_ok by lia. cbn [bind]. rewrite N.sub_0_r. reflexivity.
Qed.

(* The five BitWrite entry points. [wop] of Bits/Proofs.v is the three of them that Copy.v models: [WBit] is
   [W5Bit], [WBits] is [W5OffLen], and [WBitsO] is [W5Off] through Copy's own model [bb_write_bits_o] of
   write_bits_with_offset, which agrees with Buffer's [bb_write_bits_with_offset] wherever the offset lies in the
   source (C11_buffer_entry_points). *)
Inductive wop5 :=
| W5Bit (bit : bool)                          (* write_bit *)
| W5All (src : list N)                        (* write_bits *)
| W5Len (src : list N) (len : N)              (* write_bits_with_len *)
| W5Off (src : list N) (soff : N)             (* write_bits_with_offset *)
| W5OffLen (src : list N) (soff slen : N).    (* write_bits_with_offset_len *)

Definition w5_apply (m : mode) (b : bitbuffer) (w : wop5) : res (bitbuffer * option N) :=
  match w with
  | W5Bit bit => bb_write_bit m b bit
  | W5All src => bb_write_bits m b src
  | W5Len src len => bb_write_bits_with_len m b src len
  | W5Off src soff => bb_write_bits_with_offset m b src soff
  | W5OffLen src soff slen => bb_write_bits_ol m b src soff slen
  end.

Definition w5_src (w : wop5) : list N :=
  match w with
  | W5Bit bit => [if bit then 128 else 0]
  | W5All s | W5Len s _ | W5Off s _ | W5OffLen s _ _ => s
  end.
Definition w5_off (w : wop5) : N :=
  match w with W5Off _ o | W5OffLen _ o _ => o | _ => 0 end.
Definition w5_len (w : wop5) : N :=
  match w with
  | W5Bit _ => 1
  | W5All s => 8 * blen s
  | W5Len _ l => l
  | W5Off s o => 8 * blen s - o
  | W5OffLen _ _ l => l
  end.
(* side conditions: sources are [u8] lists and the usize arithmetic of the call does not wrap *)
Definition w5_ok (w : wop5) : Prop :=
  Forall byte (w5_src w) /\ 8 * blen (w5_src w) < two64 /\ w5_off w + w5_len w < two64
  /\ match w with W5Off s o => o <= 8 * blen s | _ => True end.
Definition w5_fits (w : wop5) : Prop := w5_off w + w5_len w <= 8 * blen (w5_src w).
Definition w5_bits (w : wop5) : bits :=
  match w with
  | W5Bit bit => [bit]
  | _ => slice (bits_of_bytes (w5_src w)) (N.to_nat (w5_off w)) (N.to_nat (w5_len w))
  end.

Lemma w5_fits_dec w : w5_fits w \/ ~ w5_fits w.
Proof. unfold w5_fits. lia. Qed.

Lemma w5_bits_length w : w5_fits w -> length (w5_bits w) = N.to_nat (w5_len w).
Proof.
  intros H. destruct w; [reflexivity|..]; unfold w5_bits;
    apply slice_length; rewrite bits_length; unfold w5_fits, blen in H; lia.
Qed.

Lemma w5_as_ol w : w5_ok w ->
  (exists bit, w = W5Bit bit)
  \/ forall m b, w5_apply m b w = bb_write_bits_ol m b (w5_src w) (w5_off w) (w5_len w).
Proof.
  intros (Fs & H64 & Ho & Hx).
  destruct w; [left; eauto|right; intros m b; cbn [w5_apply w5_src w5_off w5_len] in *..].
  - apply bb_write_bits_eq. exact H64.
  - apply bb_write_bits_with_len_eq. lia.
  - apply bb_write_bits_with_offset_eq; assumption.
  - reflexivity.
Qed.

Lemma w5_wrote m b w : w5_ok w -> w5_fits w -> bb_wpos b + w5_len w < two63 ->
  wrote b (w5_len w) (w5_bits w) (w5_apply m b w).
Proof.
  intros Hok Hfit Hb. destruct (w5_as_ol w Hok) as [[bit ->]|E].
  - exact (bb_write_bit_wrote m b bit Hb).
  - destruct Hok as (Fs & _ & Ho & _). rewrite E.
    (* [w5_bits w] is that slice by definition, except for [W5Bit], where the slice computes to it *)
    destruct w as [[|]|src|src len|src soff|src soff slen]; exact (bb_write_bits_ol_wrote m b _ _ _ Fs Ho Hb Hfit).
Qed.

Lemma w5_write m b w : w5_ok w ->
  (~ w5_fits w -> w5_apply m b w = Ok (b, Some E_INSUFFICIENT_SRC))
  /\ (bb_inv b -> w5_fits w -> bb_wpos b + w5_len w < two63 -> appended b (w5_len w) (w5_bits w) (w5_apply m b w)).
Proof.
  intros Hok. split.
  - unfold w5_fits. destruct (w5_as_ol w Hok) as [[bit ->]|E]; [cbn; lia|].
    destruct Hok as (Fs & _ & Ho & _). rewrite E. intros Hn. apply (bb_write_bits_ol_spec m b _ _ _ Fs Ho). lia.
  - intros Hi Hf Hb. apply (wrote_appended _ _ _ _ Hi (w5_bits_length w Hf)), w5_wrote; assumption.
Qed.

Lemma inv_capacity b : bb_inv b -> bb_wpos b <= 8 * blen (bb_buf b).
Proof. intros (Hl & _). rewrite Hl. lia. Qed.

Lemma w5_in_place m b pos w :
  bb_inv b -> w5_ok w -> w5_fits w -> pos + w5_len w <= bb_wpos b -> bb_wpos b < two63 ->
  exists buf', w5_apply m (bb_set_wpos b pos) w
      = Ok ({| bb_buf := buf'; bb_wpos := pos + w5_len w; bb_rpos := bb_rpos b |}, None)
    /\ upd (bb_buf b) buf' (N.to_nat pos) (w5_bits w).
Proof.
  intros Hi Hok Hf Hin Hb. pose proof (inv_capacity b Hi) as Hc.
  destruct (w5_wrote m (bb_set_wpos b pos) w) as (buf' & E & U); [exact Hok|exact Hf|cbn [bb_set_wpos bb_wpos]; lia|].
  cbn [bb_set_wpos bb_buf bb_wpos bb_rpos] in *. exists buf'. split; [exact E|].
  replace ((pos + w5_len w + 7) / 8 - blen (bb_buf b)) with 0 in U by lia.
  cbn [N.to_nat repeat] in U. rewrite app_nil_r in U. exact U.
Qed.

Lemma firstn_splice (l X : bits) p w : (p + length X <= w)%nat -> (w <= length l)%nat ->
  firstn w (splice p X l) = splice p X (firstn w l).
Proof.
  intros Hq Hw. unfold splice.
  assert (Lf : length (firstn p l) = p) by (rewrite firstn_length; lia).
  rewrite firstn_app, Lf. rewrite (firstn_all2 (firstn p l)) by lia.
  rewrite firstn_app. rewrite (firstn_all2 X) by lia.
  rewrite firstn_firstn. replace (Nat.min p w) with p by lia.
  f_equal. f_equal.
  rewrite firstn_skipn_comm. f_equal. f_equal. lia.
Qed.

Lemma scope_write_in_place m b pos w :
  bb_inv b -> w5_ok w -> w5_fits w -> pos + w5_len w <= bb_wpos b -> bb_wpos b < two63 ->
  exists b', bb_with_write_position_at m b pos (fun b1 => w5_apply m b1 w) = Ok (b', None)
    /\ bb_inv b' /\ bb_wpos b' = bb_wpos b /\ bb_rpos b' = bb_rpos b
    /\ length (bb_buf b') = length (bb_buf b)
    /\ firstn (N.to_nat (bb_wpos b)) (bits_of_bytes (bb_buf b'))
       = splice (N.to_nat pos) (w5_bits w) (firstn (N.to_nat (bb_wpos b)) (bits_of_bytes (bb_buf b))).
Proof.
  intros Hi Hok Hf Hin Hb. pose proof (inv_capacity b Hi) as Hc.
  destruct (w5_in_place m b pos w Hi Hok Hf Hin Hb) as (buf' & E & (UB & UL & UF)).
  pose proof (w5_bits_length w Hf) as LX.
  unfold bb_with_write_position_at.
  replace (blen (bb_buf b) * 8 <? pos) with false by lia. rewrite andb_false_r.
  rewrite E. cbn [bind bb_set_wpos bb_buf bb_wpos bb_rpos].
  eexists. split; [reflexivity|]. unfold bb_set_wpos. cbn [bb_buf bb_wpos bb_rpos].
  destruct Hi as (Hl & Hbytes & Hp).
  assert (Lb : length (bits_of_bytes (bb_buf b)) = (8 * length (bb_buf b))%nat) by apply bits_length.
  unfold blen in *.
  split; [|split; [reflexivity|split; [reflexivity|split; [exact UL|]]]].
  - unfold bb_inv, padding_zero, blen. cbn [bb_buf bb_wpos]. split; [rewrite UL; exact Hl|]. split; [exact (UF Hbytes)|].
    intros i Hi. rewrite UB. rewrite splice_nth_after by lia. apply Hp. exact Hi.
  - rewrite UB. apply firstn_splice; lia.
Qed.

Inductive mrop :=
| MAll (dst : list N)                        (* read_bits *)
| MLen (dst : list N) (dlen : N)             (* read_bits_with_len *)
| MOff (dst : list N) (doff : N)             (* read_bits_with_offset *)
| MOffLen (dst : list N) (doff dlen : N).    (* read_bits_with_offset_len *)
Inductive rop :=
| RBit                                       (* read_bit *)
| RMulti (r : mrop).

Definition m_read (m : mode) (b : bitbuffer) (r : mrop) : res (list N * bitbuffer) :=
  match r with
  | MAll dst => bb_read_bits m b dst
  | MLen dst dlen => bb_read_bits_with_len m b dst dlen
  | MOff dst doff => bb_read_bits_with_offset m b dst doff
  | MOffLen dst doff dlen => bb_read_bits_with_offset_len m b dst doff dlen
  end.

Definition m_dst (r : mrop) : list N :=
  match r with MAll d | MLen d _ | MOff d _ | MOffLen d _ _ => d end.
Definition m_off (r : mrop) : N :=
  match r with MOff _ o | MOffLen _ o _ => o | _ => 0 end.
Definition m_len (r : mrop) : N :=
  match r with
  | MAll d => 8 * blen d
  | MLen _ l => l
  | MOff d o => 8 * blen d - o
  | MOffLen _ _ l => l
  end.

Lemma m_read_as_ol m b r : (match r with MOff d o => o <= 8 * blen d | _ => True end) ->
  m_read m b r =
  (let! _ := bb_ensure_can_read_bits b (m_len r) in
   bb_after_read b (slice_read_bits m (bb_buf b) (bb_rpos b) (m_dst r) (m_off r) (m_len r))).
Proof.
  intros Hx. destruct r as [dst|dst dlen|dst doff|dst doff dlen]; cbn [m_read m_len m_dst m_off].
  - unfold bb_read_bits, slice_read_bits_all, BYTE_LEN. replace (blen dst * 8) with (8 * blen dst) by lia. reflexivity.
  - reflexivity.
  - unfold bb_read_bits_with_offset, slice_read_bits_o, BYTE_LEN. replace (blen dst * 8) with (8 * blen dst) by lia.
    rewrite usub_ok by exact Hx. reflexivity.
  - reflexivity.
Qed.

(* The guard is write_position.saturating_sub(read_position) < len: a read of zero bits passes it even with the
   read position behind bit_len, hence the premise of the first conclusion. *)
Lemma m_read_spec m b r :
  (bb_wpos b - bb_rpos b < m_len r -> m_read m b r = Err E_END_OF_STREAM)
  /\ (forall dst' b',
      Forall byte (bb_buf b) -> Forall byte (m_dst r) ->
      (match r with MOff d o => o <= 8 * blen d | _ => True end) ->
      bb_rpos b + m_len r < two64 -> m_off r + m_len r < two64 ->
      m_read m b r = Ok (dst', b') ->
      ((bb_rpos b <= bb_wpos b \/ 0 < m_len r) -> bb_rpos b + m_len r <= bb_wpos b)
      /\ bb_rpos b' = bb_rpos b + m_len r /\ bb_buf b' = bb_buf b /\ bb_wpos b' = bb_wpos b
      /\ bits_of_bytes dst' =
           splice (N.to_nat (m_off r))
             (slice (bits_of_bytes (bb_buf b)) (N.to_nat (bb_rpos b)) (N.to_nat (m_len r)))
             (bits_of_bytes (m_dst r))
      /\ length dst' = length (m_dst r)).
Proof.
  split.
  { intros H. destruct r; cbn [m_read m_len] in *;
      unfold bb_read_bits, bb_read_bits_with_len, bb_read_bits_with_offset, bb_read_bits_with_offset_len,
        bb_ensure_can_read_bits, BYTE_LEN;
      match goal with |- context [?a <? ?c] => destruct (N.ltb_spec a c) end; try reflexivity; lia. }
  intros dst' b' Fb _ Hx Op Od H. rewrite (m_read_as_ol m b r Hx) in H.
  unfold bb_ensure_can_read_bits in H.
  destruct (N.ltb_spec (bb_wpos b - bb_rpos b) (m_len r)) as [Hs|Hs]; cbn [bind] in H; [discriminate|].
  split; [intros [Hc|Hc]; lia|].
  destruct (bulk_short m (bb_buf b) (bb_rpos b) (m_dst r) (m_off r) (m_len r) Op Od) as [Sd Ss].
  assert (Bd : m_off r + m_len r <= 8 * blen (m_dst r)).
  { destruct (N.le_gt_cases (m_off r + m_len r) (8 * blen (m_dst r))) as [K|K]; [exact K|].
    unfold slice_read_bits in H. rewrite (Sd K) in H. discriminate. }
  assert (Bs : bb_rpos b + m_len r <= 8 * blen (bb_buf b)).
  { destruct (N.le_gt_cases (bb_rpos b + m_len r) (8 * blen (bb_buf b))) as [K|K]; [exact K|].
    unfold slice_read_bits in H. rewrite (Ss Bd K) in H. discriminate. }
  destruct (read_bits_mirror m (bb_buf b) (bb_rpos b) (m_dst r) (m_off r) (m_len r) Fb Op Od Bs Bd)
    as (d & E & U1 & U2 & _).
  rewrite E in H. cbn [bb_after_read bind] in H. inversion H; subst.
  cbn [bb_set_rpos bb_rpos bb_buf bb_wpos]. auto.
Qed.

(* the buffer a caller is left with (an Err leaves it as it was) *)
Definition keep {A} (b : bitbuffer) (r : res (A * bitbuffer)) : res bitbuffer :=
  match r with Ok (_, b') => Ok b' | Err _ => Ok b | Panic p => Panic p end.

Definition r_apply (m : mode) (b : bitbuffer) (r : rop) : res bitbuffer :=
  match r with
  | RBit => keep b (bb_read_bit b)
  | RMulti r => keep b (m_read m b r)
  end.

Lemma after_read_same b r d b1 : bb_after_read b r = Ok (d, b1) ->
  bb_buf b1 = bb_buf b /\ bb_wpos b1 = bb_wpos b.
Proof.
  unfold bb_after_read. destruct r as [[d' p]|e|p]; cbn [bind]; intros H; inversion H; subst.
  split; reflexivity.
Qed.

Lemma guarded_read_same b n r d b1 :
  (let! _ := bb_ensure_can_read_bits b n in bb_after_read b r) = Ok (d, b1) ->
  bb_buf b1 = bb_buf b /\ bb_wpos b1 = bb_wpos b.
Proof.
  destruct (bb_ensure_can_read_bits b n) as [[]|e|p]; cbn [bind]; [apply after_read_same|discriminate|discriminate].
Qed.

Lemma r_apply_same m b r b' : r_apply m b r = Ok b' ->
  bb_buf b' = bb_buf b /\ bb_wpos b' = bb_wpos b.
Proof.
  assert (K : forall (x : res (list N * bitbuffer)),
             (forall d b1, x = Ok (d, b1) -> bb_buf b1 = bb_buf b /\ bb_wpos b1 = bb_wpos b) ->
             keep b x = Ok b' -> bb_buf b' = bb_buf b /\ bb_wpos b' = bb_wpos b).
  { intros x Hx. destruct x as [[d b1]|e|p]; cbn [keep]; intros H; inversion H; subst; [eapply Hx; reflexivity|split; reflexivity]. }
  destruct r as [|r]; cbn [r_apply].
  - unfold bb_read_bit. destruct (bb_rpos b <? bb_wpos b); cbn [keep].
    + destruct (slice_read_bit (bb_buf b) (bb_rpos b)) as [[bit p]|e|p]; cbn [bind keep]; intros H; inversion H; subst; split; reflexivity.
    + intros H; inversion H; subst; split; reflexivity.
  - apply K. intros d b1. destruct r; cbn [m_read]; apply guarded_read_same.
Qed.

Inductive bop :=
| OWrite (w : wop5)
| OScopeW (pos : N) (w : wop5)         (* with_write_position_at(pos, write) *)
| ORead (r : rop)
| OScopeR (pos : N) (r : rop)          (* with_read_position_at(pos, read) *)
| OMaxRead (mx : N) (r : rop)          (* with_max_read(mx, read) *)
| OClear
| OResetRead.

Definition unit_closure (m : mode) (r : rop) (b1 : bitbuffer) : res (bitbuffer * unit) :=
  let! b2 := r_apply m b1 r in Ok (b2, tt).

Definition apply_bop (m : mode) (b : bitbuffer) (op : bop) : res bitbuffer :=
  match op with
  | OWrite w => let! (b', _) := w5_apply m b w in Ok b'
  | OScopeW pos w => let! (b', _) := bb_with_write_position_at m b pos (fun b1 => w5_apply m b1 w) in Ok b'
  | ORead r => r_apply m b r
  | OScopeR pos r => let! (b', _) := bb_with_read_position_at m b pos (unit_closure m r) in Ok b'
  | OMaxRead mx r => let! (b', _) := bb_with_max_read m b mx (unit_closure m r) in Ok b'
  | OClear => Ok (bb_clear b)
  | OResetRead => Ok (bb_reset_read_position b)
  end.

(* side conditions, relative to the buffer the operation is applied to: byte sources and no
   usize wrap (as in w5_ok), fewer than 2^63 bits, and a scoped write must end at or before
   the current bit_len (see C11_refuted_scope_write_past_end for what happens otherwise) *)
Definition bop_ok (b : bitbuffer) (op : bop) : Prop :=
  match op with
  | OWrite w => w5_ok w /\ bb_wpos b + w5_len w < two63
  | OScopeW pos w => w5_ok w /\ pos + w5_len w <= bb_wpos b /\ bb_wpos b < two63
  | _ => True
  end.

Lemma set_wpos_id b p : bb_set_wpos (bb_set_wpos b p) (bb_wpos b) = b.
Proof. destruct b; reflexivity. Qed.

Lemma w5_total m b w : bb_inv b -> w5_ok w -> bb_wpos b + w5_len w < two63 ->
  exists b' e, w5_apply m b w = Ok (b', e) /\ bb_inv b'.
Proof.
  intros Hi Hw Hb. destruct (w5_fits_dec w) as [F|F].
  - destruct (proj2 (w5_write m b w Hw) Hi F Hb) as (b1 & E & I1 & _). eauto.
  - rewrite (proj1 (w5_write m b w Hw) F). eauto.
Qed.

Lemma scope_w5_total m b pos w : bb_inv b -> w5_ok w -> pos + w5_len w <= bb_wpos b -> bb_wpos b < two63 ->
  exists b' e, bb_with_write_position_at m b pos (fun b1 => w5_apply m b1 w) = Ok (b', e) /\ bb_inv b'.
Proof.
  intros Hi Hw Hin Hb. destruct (w5_fits_dec w) as [F|F].
  - destruct (scope_write_in_place m b pos w Hi Hw F Hin Hb) as (b1 & E & I1 & _). eauto.
  - pose proof (inv_capacity b Hi) as Hc. unfold bb_with_write_position_at.
    replace (blen (bb_buf b) * 8 <? pos) with false by lia. rewrite andb_false_r.
    rewrite (proj1 (w5_write m _ w Hw) F). cbn [bind]. rewrite set_wpos_id. eauto.
Qed.

Lemma bb_inv_same b b' : bb_buf b' = bb_buf b -> bb_wpos b' = bb_wpos b -> bb_inv b -> bb_inv b'.
Proof. unfold bb_inv, padding_zero. intros -> ->. auto. Qed.

Lemma apply_bop_step m b op : bb_inv b -> bop_ok b op ->
  (forall b', apply_bop m b op = Ok b' -> bb_inv b')
  /\ match op with
     | ORead _ | OScopeR _ _ | OMaxRead _ _ => True
     | _ => exists b', apply_bop m b op = Ok b'
     end.
Proof.
  intros Hi Hok. destruct op as [w|pos w|r|pos r|mx r| |]; cbn [apply_bop bop_ok] in *.
  - destruct Hok as [Hw Hb]. destruct (w5_total m b w Hi Hw Hb) as (b1 & e & E & I1).
    rewrite E. cbn [bind]. split; [intros b' H; congruence|eauto].
  - destruct Hok as (Hw & Hin & Hb). destruct (scope_w5_total m b pos w Hi Hw Hin Hb) as (b1 & e & E & I1).
    rewrite E. cbn [bind]. split; [intros b' H; congruence|eauto].
  - split; [intros b' H|exact I]. destruct (r_apply_same m b r b' H) as [E1 E2]. exact (bb_inv_same b b' E1 E2 Hi).
  - split; [intros b' H|exact I]. unfold bb_with_read_position_at in H.
    destruct (debug_asserts m && negb (pos <? bb_wpos b)); [discriminate|].
    unfold unit_closure in H.
    destruct (r_apply m (bb_set_rpos b pos) r) as [b2|e|p] eqn:E; cbn [bind] in H; try discriminate.
    destruct (r_apply_same m _ r b2 E) as [E1 E2]. inversion H; subst.
    apply (bb_inv_same b); [exact E1|exact E2|exact Hi].
  - split; [intros b' H|exact I]. unfold bb_with_max_read in H.
    destruct (uadd m (bb_rpos b) mx) as [w|e|p]; cbn [bind] in H; try discriminate.
    unfold unit_closure in H.
    destruct (r_apply m (bb_set_wpos b w) r) as [b2|e|p] eqn:E; cbn [bind] in H; try discriminate.
    destruct (r_apply_same m _ r b2 E) as [E1 E2]. inversion H; subst.
    apply (bb_inv_same b); [exact E1|reflexivity|exact Hi].
  - split; [intros b' H|eauto]. inversion H; subst. exact bb_inv_empty.
  - split; [intros b' H|eauto]. inversion H; subst. apply (bb_inv_same b); [reflexivity|reflexivity|exact Hi].
Qed.

Lemma from_bytes_inv buf : Forall byte buf -> exists b, bb_from_bytes buf = Ok b /\ bb_inv b
  /\ bb_buf b = buf /\ bb_wpos b = 8 * blen buf.
Proof.
  intros F. unfold bb_from_bytes, bb_from_bits, BYTE_LEN. rewrite N.ltb_irrefl.
  eexists. split; [reflexivity|]. cbn [bb_buf bb_wpos]. split; [|split; [reflexivity|lia]].
  unfold bb_inv, padding_zero. cbn [bb_buf bb_wpos]. split; [lia|]. split; [exact F|].
  intros i Hi. apply nth_overflow. rewrite bits_length. unfold blen in Hi. lia.
Qed.

Inductive reachable (m : mode) : bitbuffer -> Prop :=
| reach_empty : reachable m bb_empty                       (* default(), with_capacity(_) *)
| reach_bytes buf b : Forall byte buf -> bb_from_bytes buf = Ok b -> reachable m b   (* from_bytes, From<Vec<u8>> *)
| reach_step b op b' : reachable m b -> bop_ok b op -> apply_bop m b op = Ok b' -> reachable m b'.
