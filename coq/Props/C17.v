(* C17 -- protobuf write/read round trip up to ProtobufEq, both writer back ends.
   This file states the theorems; each is proved by a lemma of Proto/Proofs.v (primitives), Proto/RwLemmas.v
   (writer: back ends, records) or Proto/RoundtripProofs.v (reader, round trip), or derived from one in a line or
   two.  Where the faithful model refutes the property the witness is stated here (closed by computation) together
   with the class predicate.
   Finding classes ([Known_C17] = [Known_ty] on the type, closed under nesting, or a BitVec with excess bytes in
   the value): CHOICE with a NULL alternative (F17-1), CHOICE with a SEQUENCE OF alternative (F17-2),
   SEQUENCE OF SEQUENCE OF (F17-3, F17-4), BitVec with excess bytes (F17-5), SEQUENCE OF NULL (F17-7, constructor
   [K_list_null] of [Known_ty]; witness [C17_refuted_list_of_null]).
   Not a class: an extensible INTEGER (a 64-bit Rust type) gets the 64-bit format of its signedness whatever its root
   bounds; [C17_extensible_int_fixed] is the regression witness of the defect that cast it to the 32-bit format.
   Not a C17 violation: the property is about one value per writer.  A ProtobufWriter that is reused after a
   top-level CHOICE keeps is_root = false and wraps the next value as field 2; this is documented by the Example
   [C17_writer_reuse_after_choice] only. *)
From A1 Require Import Proto.Rw Proto.Proofs Proto.RwLemmas Proto.RoundtripProofs.
Local Open Scope N_scope.

(** ** proved for every input *)
Theorem C17_varint_roundtrip : forall v tail, v < two64 ->
  read_varint (write_varint v ++ tail) = Ok (v, tail).
Proof. exact varint_roundtrip. Qed.

Theorem C17_zigzag_roundtrip :
  (forall z, is_i32 z -> unzz32 (zz32 z) = z) /\ (forall z, is_i64 z -> unzz64 (zz64 z) = z).
Proof. split; [exact zigzag32_roundtrip | exact zigzag64_roundtrip]. Qed.

Theorem C17_tag_roundtrip : forall field f tail, field < 2 ^ 29 ->
  read_tag (write_tag field f ++ tail) = Ok (field, f, tail).
Proof. exact tag_roundtrip. Qed.

(* every integer kind (the writer's choice among uint32/uint64/sint32/sint64 and all `as` casts), including the
   64-bit Rust types of extensible INTEGERs ([KExt signed MIN MAX]): every value of the Rust type *)
Theorem C17_number_roundtrip : forall k z, in_kind k z = true ->
  number_read k (number_bytes k z) = Ok z.
Proof. exact number_roundtrip. Qed.

(** ** the message-level round trip: proved for one-component integer messages (all kinds, all values,
       both profiles) and for the values of a flat SEQUENCE with an OPTIONAL within the bounds stated
       (both types lie in the fragment of [C17_roundtrip] below; stated here without its length guard, the first
       with equality of the value read where that one gives ProtobufEq) *)
Theorem C17_roundtrip_partial : forall m k z, in_kind k z = true ->
  let t := TSeq [(false, TInt k)] in
  let v := VSeq [VInt z] in
  exists bs, pwrite_vec m t v = Ok bs /\ pread m t bs = Ok v /\ peq t v v = true.
Proof. exact roundtrip_int_message. Qed.

Theorem C17_roundtrip_flat_partial : forall m b x oy,
  (m = dev_mode \/ m = release_mode) ->
  x < 256 -> (forall y, oy = Some y -> (-32 <= y < 32)%Z) ->
  let v := VSeq [VBool b; VInt (Z.of_N x); VOpt (option_map VInt oy)] in
  exists bs v', pwrite_vec m flat_ty v = Ok bs /\ pread m flat_ty bs = Ok v' /\ peq flat_ty v v' = true.
Proof. intros m b x oy _. apply roundtrip_flat. Qed.

Theorem C17_backends_agree_partial : forall m b x oy,
  (m = dev_mode \/ m = release_mode) ->
  x < 256 -> (forall y, oy = Some y -> (-32 <= y < 32)%Z) ->
  let v := VSeq [VBool b; VInt (Z.of_N x); VOpt (option_map VInt oy)] in
  exists bs, pwrite_vec m flat_ty v = Ok bs /\
    pwrite_slice m (N.of_nat (length bs)) flat_ty v = Ok bs /\
    pwrite_slice m (N.of_nat (length bs) + 3) flat_ty v = Ok bs /\
    pwrite_slice m (N.of_nat (length bs) - 1) flat_ty v = Err E_IO.
Proof. intros m b x oy _ _ _. apply backends_agree_flat. Qed.

(** ** the message-level round trip, unbounded: every generated type (SEQUENCE / SET / tuple struct with any number of
       required / OPTIONAL / DEFAULT components of any kind, nested to any depth; SEQUENCE OF of scalars, ENUMERATED,
       messages and CHOICEs; CHOICE; ENUMERATED) outside the finding classes, every value, both profiles.
       [wf_pty]: top-level SEQUENCE / CHOICE / ENUMERATED with the sizes a generated type has (non-empty ENUMERATED and
       CHOICE, at most 2^32 variants, field numbers below 2^29); [wf_pval]: the value inhabits the type (a BitVec may
       hold excess bytes); [Known_C17]: the type contains a CHOICE with a NULL or SEQUENCE OF alternative, a
       SEQUENCE OF SEQUENCE OF or a SEQUENCE OF NULL, or the value contains a BitVec with excess bytes.
       The guard [nlen bs < two64] says the encoding fits a 64-bit address space (always true of a Vec<u8>). *)
Theorem C17_roundtrip : forall m t v, wf_pty t -> wf_pval t v -> ~ Known_C17 t v ->
  exists bs, pwrite m t v = Ok bs /\
    (nlen bs < two64 -> exists v', pread m t bs = Ok v' /\ peq t v v' = true).
Proof.
  intros m t v Ht Hl Hk. destruct (fragment_of_props t v Ht Hl Hk) as (Htop & Hg & Hwf).
  destruct (roundtrip_shaped m t v Htop (shaped_of_good t Hg) Hwf) as (bs & W & R). exists bs. split; [exact W|].
  intros Hlen. destruct (R Hlen) as (v' & R1 & R2 & _). exists v'. split; assumption.
Qed.

(* the fixed-slice back end produces exactly the bytes of the growable one when they fit and Err(Io) otherwise:
   every type, every value (no well-formedness needed), every capacity, both profiles *)
Theorem C17_backends_agree : forall m t v bs cap, pwrite_vec m t v = Ok bs ->
  pwrite_slice m cap t v = if N.of_nat (length bs) <=? cap then Ok bs else Err E_IO.
Proof. exact backends_agree. Qed.

(** ** classes in which the faithful model refutes the property, and regression witnesses of repaired defects ([*_fixed]) *)
(* a CHOICE with a NULL alternative (nothing is written, read_choice needs a tag) or a SEQUENCE OF alternative
   (only the first element's header is consumed) *)
Definition Known_choice_alternative (t : pty) : Prop :=
  exists alts, t = TChoice alts /\ (In TNull alts \/ exists e, In (TSeqOf e) alts).
(* SEQUENCE OF SEQUENCE OF: the inner read_sequence_of runs in State::Root and never ends *)
Definition Known_nested_list (t : pty) : Prop := exists e, t = TSeqOf (TSeqOf e).
(* a BitVec holding more bytes than its bit length needs (BitVec::from_bytes keeps them) *)
Definition Known_bitvec_excess (v : pval) : Prop :=
  exists bytes n, v = VBits bytes n /\ N.of_nat (length bytes) <> (n + 7) / 8.

(* write_null / read_null advance the tag counter and write nothing: a present OPTIONAL NULL does not shift the
   following components; it reads back as absent, which ProtobufEq accepts (Null == Null::default()). Regression
   witness of the defect in which a NULL took no field number. *)
Definition t_optnull := TSeq [(true, TNull); (true, TInt KU8); (false, TInt KU8)].
Example C17_optional_null_fixed :
  let v := VSeq [VOpt (Some VNull); VOpt None; VInt 5] in
  let v' := VSeq [VOpt None; VOpt None; VInt 5] in
  wf_val t_optnull v = true /\
  pwrite_vec dev_mode t_optnull v = Ok [24; 5] /\ pread dev_mode t_optnull [24; 5] = Ok v' /\
  peq t_optnull v v' = true /\
  pread dev_mode (TSeq [(false, TInt KU8); (false, TNull); (false, TInt KU8)]) [8; 1; 24; 2]
  = Ok (VSeq [VInt 1; VNull; VInt 2]).
Proof. vm_compute. repeat split; reflexivity. Qed.

Definition t_chnull := TChoice [TNull; TInt KU8].
Theorem C17_refuted_choice_null :
  Known_choice_alternative t_chnull /\
  pwrite_vec dev_mode t_chnull (VChoice 0 VNull) = Ok [] /\ pread dev_mode t_chnull [] = Err E_IO /\
  (* also when nested in a SEQUENCE *)
  pwrite_vec dev_mode (TSeq [(false, t_chnull)]) (VSeq [VChoice 0 VNull]) = Ok [10; 0] /\
  pread dev_mode (TSeq [(false, t_chnull)]) [10; 0] = Err E_IO.
Proof.
  split; [exists [TNull; TInt KU8]; split; [reflexivity|left; left; reflexivity]|].
  vm_compute. repeat split; reflexivity.
Qed.

Definition t_chlist := TChoice [TSeqOf (TInt KU8); TInt KU8].
Theorem C17_refuted_choice_list :
  Known_choice_alternative t_chlist /\
  pwrite_vec dev_mode t_chlist (VChoice 0 (VList [VInt 1; VInt 2])) = Ok [8; 1; 8; 2] /\
  pread dev_mode t_chlist [8; 1; 8; 2] = Ok (VChoice 0 (VList [VInt 1])) /\
  pwrite_vec dev_mode t_chlist (VChoice 0 (VList [])) = Ok [] /\
  pread dev_mode t_chlist [] = Err E_IO.
Proof.
  split; [exists [TSeqOf (TInt KU8); TInt KU8]; split; [reflexivity|right; exists (TInt KU8); left; reflexivity]|].
  vm_compute. repeat split; reflexivity.
Qed.

Definition t_nested := TSeq [(false, TSeqOf (TSeqOf (TInt KU8))); (false, TInt KU8)].
Theorem C17_refuted_nested_list :
  Known_nested_list (TSeqOf (TSeqOf (TInt KU8))) /\
  pwrite_vec dev_mode t_nested (VSeq [VList [VList [VInt 7]]; VInt 9]) = Ok [8; 7; 16; 9] /\
  pread dev_mode t_nested [8; 7; 16; 9] = Panic P_UNBOUNDED /\
  pread release_mode t_nested [8; 7; 16; 9] = Panic P_UNBOUNDED /\
  (* and the nesting is lost on the wire: [[1],[2]] and [[1,2]] have the same bytes *)
  pwrite_vec dev_mode t_nested (VSeq [VList [VList [VInt 1]; VList [VInt 2]]; VInt 0])
  = pwrite_vec dev_mode t_nested (VSeq [VList [VList [VInt 1; VInt 2]]; VInt 0]).
Proof.
  split; [exists (TInt KU8); reflexivity|].
  vm_compute. repeat split; reflexivity.
Qed.

Theorem C17_refuted_bitvec_excess :
  let t := TSeq [(false, TBits)] in
  let v := VSeq [VBits [224; 255] 3] in
  Known_bitvec_excess (VBits [224; 255] 3) /\
  exists bs, pwrite_vec dev_mode t v = Ok bs /\ pread dev_mode t bs = Ok (VSeq [VBits [224] 3]) /\
             peq t v (VSeq [VBits [224] 3]) = false.
Proof.
  split; [exists [224; 255], 3; split; [reflexivity|vm_compute; discriminate]|].
  exists [10; 9; 224; 0; 0; 0; 0; 0; 0; 0; 3]. vm_compute. repeat split; reflexivity.
Qed.

(* the type part of [Known_C17] ([Known_ty], closed under nesting) contains the classes above, and a type in it is
   never in the proved fragment *)
Theorem C17_known_classes :
  (forall t, Known_choice_alternative t -> Known_ty t) /\ (forall t, Known_nested_list t -> Known_ty t) /\
  (forall t, Known_ty t -> good t = false) /\
  (forall t v, Known_bitvec_excess v -> wf_val t v = true -> False).
Proof.
  split; [|split; [|split]].
  - intros t (alts & -> & [H | [e H]]); [apply K_choice_null, H|eapply K_choice_list, H].
  - intros t (e & ->). apply K_nested_list.
  - exact known_not_good.
  - intros t v (bytes & n & -> & Hne) Hwf. destruct t; try discriminate Hwf.
    apply wf_bits_inv in Hwf. destruct Hwf as [Hl _]. contradiction.
Qed.

(* F17-7 (zoo type 21, corpus/C17/f17-7-list-of-null.txt): the elements of a SEQUENCE OF NULL leave no trace on the
   wire (write_null writes nothing, the element loop resets the counter), so the list reads back empty *)
Definition t_listnull := TSeq [(false, TSeqOf TNull); (false, TInt KU8)].
Theorem C17_refuted_list_of_null :
  let v := VSeq [VList [VNull; VNull]; VInt 7] in
  Known_ty t_listnull /\ wf_val t_listnull v = true /\
  pwrite_vec dev_mode t_listnull v = Ok [16; 7] /\
  pread dev_mode t_listnull [16; 7] = Ok (VSeq [VList []; VInt 7]) /\
  peq t_listnull v (VSeq [VList []; VInt 7]) = false.
Proof.
  split; [apply (K_in_seq _ false (TSeqOf TNull)); [left; reflexivity|apply K_list_null]|].
  vm_compute. repeat split; reflexivity.
Qed.

(* an INTEGER with an extension marker is a u64 / i64 in Rust; write_number / read_number take a 32-bit format only
   for `!C::EXTENSIBLE`, so every KExt kind gets the 64-bit format of its signedness and every value of the 64-bit type
   round-trips. Regression witness of the defect that cast it `as i32` / `as u32` (2^31 came back as -2^31). *)
Definition t_xs5 := TSeq [(false, TInt (KExt true (Some (-5)%Z) (Some 5%Z)))].
Definition t_xu255 := TSeq [(false, TInt (KExt false (Some 0%Z) (Some 255%Z)))].
Theorem C17_extensible_int_fixed :
  (forall sg mn mx z, in_kind (KExt sg mn mx) z = true ->
     (kind_sel (KExt sg mn mx) = PUInt64 \/ kind_sel (KExt sg mn mx) = PSInt64) /\
     number_read (KExt sg mn mx) (number_bytes (KExt sg mn mx) z) = Ok z) /\
  wf_pty t_xs5 /\ wf_pval t_xs5 (VSeq [VInt 2147483648]) /\ ~ Known_C17 t_xs5 (VSeq [VInt 2147483648]) /\
  pwrite_vec dev_mode t_xs5 (VSeq [VInt 2147483648]) = Ok [8; 128; 128; 128; 128; 16] /\
  pread dev_mode t_xs5 [8; 128; 128; 128; 128; 16] = Ok (VSeq [VInt 2147483648]) /\
  pwrite_vec dev_mode t_xs5 (VSeq [VInt (-9223372036854775808)]) = Ok [8; 255; 255; 255; 255; 255; 255; 255; 255; 255; 1] /\
  pread dev_mode t_xs5 [8; 255; 255; 255; 255; 255; 255; 255; 255; 255; 1] = Ok (VSeq [VInt (-9223372036854775808)]) /\
  pwrite_vec dev_mode t_xu255 (VSeq [VInt 4294967296]) = Ok [8; 128; 128; 128; 128; 16] /\
  pread dev_mode t_xu255 [8; 128; 128; 128; 128; 16] = Ok (VSeq [VInt 4294967296]) /\
  pread dev_mode t_xu255 [8; 255; 255; 255; 255; 255; 255; 255; 255; 255; 1] = Ok (VSeq [VInt 18446744073709551615]).
Proof.
  split.
  - intros sg mn mx z H. split; [apply ext_sel64|apply number_roundtrip, H].
  - split; [split; reflexivity|]. split; [reflexivity|]. split.
    + apply not_known_of_good; reflexivity.
    + vm_compute. repeat split; reflexivity.
Qed.

(* documentation only, not a C17 violation (C17 speaks about one value per writer): the writer is left with
   is_root = false after a top-level CHOICE (write_choice takes the flag and never restores it, unlike
   write_set_or_sequence), so a second value written with the same writer is wrapped as field 2 *)
Example C17_writer_reuse_after_choice :
  let t := TChoice [TInt KU8; TBytes] in
  (match wr dev_mode t (VChoice 0 (VInt 5)) (wst0 None) with
   | Ok s1 => match wr dev_mode t (VChoice 0 (VInt 5)) s1 with Ok s2 => Some (w_root s1, w_buf s2) | _ => None end
   | _ => None end) = Some (false, [8; 5; 18; 2; 8; 5]) /\
  (match wr dev_mode (TSeq [(false, TInt KU8)]) (VSeq [VInt 5]) (wst0 None) with
   | Ok s1 => match wr dev_mode (TSeq [(false, TInt KU8)]) (VSeq [VInt 5]) s1 with Ok s2 => Some (w_root s1, w_buf s2) | _ => None end
   | _ => None end) = Some (true, [8; 5; 8; 5]).
Proof. vm_compute. split; reflexivity. Qed.

(** ** C04 (protobuf reader on arbitrary bytes) *)
Definition t_inner := TSeq [(false, TInt KU16); (true, TStr)].
(* still reachable through the public primitive ProtoRead::read_bit_vec (op 4015):
   BitVec::from_vec_with_trailing_bit_len computes bytes.len() - 8 on fewer than 8 bytes *)
Theorem C04_proto_refuted_bit_vec_short :
  read_bit_vec dev_mode [1; 2; 3] = Panic P_ARITH /\
  read_bit_vec release_mode [1; 2; 3] = Panic P_SLICE_RANGE /\
  read_bit_vec dev_mode [] = Panic P_ARITH.
Proof. vm_compute. repeat split; reflexivity. Qed.

(* Reader::read_bit_string checks the length before calling it, so for the Reader a short field is an error
   (regression witness; F17-6 stays a finding of the primitive alone) *)
Example C04_proto_bit_string_fixed :
  pread dev_mode (TSeq [(false, TBits)]) [] = Ok (VSeq [VBits [] 0]) /\
  pread release_mode (TSeq [(false, TBits)]) [] = Ok (VSeq [VBits [] 0]) /\
  pread dev_mode (TSeq [(false, TBits)]) [10; 3; 1; 2; 3] = Err E_IO /\
  pread release_mode (TSeq [(false, TBits)]) [10; 7; 1; 2; 3; 4; 5; 6; 7] = Err E_IO /\
  pread dev_mode (TSeq [(false, TBits)]) [10; 9; 160; 0; 0; 0; 0; 0; 0; 0; 3] = Ok (VSeq [VBits [160] 3]).
Proof. vm_compute. repeat split; reflexivity. Qed.

(* index_enclosed adds with checked_add and bounds every field by the enclosing range: a length that overflows, or
   that leaves the range (next Example), is an error. Regression witnesses of those two defects. *)
Example C04_proto_length_overflow_fixed :
  pread dev_mode t_inner [10; 255; 255; 255; 255; 255; 255; 255; 255; 255; 1] = Err E_IO /\
  pread release_mode t_inner [10; 255; 255; 255; 255; 255; 255; 255; 255; 255; 1] = Err E_IO /\
  pread release_mode t_inner [8; 129; 128; 2; 18; 245; 255; 255; 255; 255; 255; 255; 255; 255; 1; 97] = Err E_IO.
Proof. vm_compute. repeat split; reflexivity. Qed.

Example C04_proto_trusted_length_fixed :
  pread dev_mode t_inner [18; 5] = Err E_IO /\ pread release_mode t_inner [18; 5] = Err E_IO /\
  pread dev_mode t_inner [8; 7; 18; 2; 104; 105] = Ok (VSeq [VInt 7; VOpt (Some (VStr [104; 105]))]).
Proof. vm_compute. repeat split; reflexivity. Qed.

(* non-vacuity: hypotheses inhabited by non-trivial values, and the model produces the expected bytes *)
Example C17_nonvacuous :
  300 < two64 /\ write_varint 300 = [172; 2] /\ is_i32 (-2147483648) /\
  write_sint32 1073741824 = [128; 128; 128; 128; 248; 255; 255; 255; 255; 1] /\
  in_kind KI16 (-300) = true /\
  pwrite_vec dev_mode (TSeq [(false, TInt KI16)]) (VSeq [VInt (-300)]) = Ok [8; 215; 4] /\
  pwrite_vec dev_mode flat_ty (VSeq [VBool true; VInt 200; VOpt (Some (VInt (-3)))]) = Ok [8; 1; 16; 200; 1; 24; 5] /\
  wf_val t_optnull (VSeq [VOpt (Some VNull); VOpt None; VInt 5]) = true.
Proof. vm_compute. repeat split; congruence. Qed.

(* non-vacuity of C17_roundtrip: a type with nesting, lists, a CHOICE, OPTIONALs, a BitVec and a NULL satisfies the
   hypotheses; the value read back differs from the one written (the empty OPTIONAL list comes back absent) *)
Definition t_rich := TSeq [(false, TBool); (true, TStr);
   (false, TSeqOf (TSeq [(false, TInt KU16); (true, TStr)]));
   (false, TChoice [TInt KI16; TSeq [(false, TInt KU16)]; TEnum 3]);
   (true, TSeqOf (TInt KU8)); (false, TBits); (false, TNull); (false, TInt KI64)].
Definition v_rich := VSeq [VBool true; VOpt None; VList [VSeq [VInt 300; VOpt (Some (VStr [104]))]; VSeq [VInt 1; VOpt None]];
   VChoice 1 (VSeq [VInt 7]); VOpt (Some (VList [])); VBits [160] 3; VNull; VInt (-2)].
Example C17_roundtrip_nonvacuous :
  wf_pty t_rich /\ wf_pval t_rich v_rich /\ ~ Known_C17 t_rich v_rich /\
  pwrite dev_mode t_rich v_rich =
    Ok [8; 1; 26; 6; 8; 172; 2; 18; 1; 104; 26; 2; 8; 1; 34; 4; 18; 2; 8; 7; 50; 9; 160; 0; 0; 0; 0; 0; 0; 0; 3; 64; 3] /\
  pread dev_mode t_rich
    [8; 1; 26; 6; 8; 172; 2; 18; 1; 104; 26; 2; 8; 1; 34; 4; 18; 2; 8; 7; 50; 9; 160; 0; 0; 0; 0; 0; 0; 0; 3; 64; 3] =
    Ok (VSeq [VBool true; VOpt None; VList [VSeq [VInt 300; VOpt (Some (VStr [104]))]; VSeq [VInt 1; VOpt None]];
              VChoice 1 (VSeq [VInt 7]); VOpt None; VBits [160] 3; VNull; VInt (-2)]) /\
  pwrite_slice dev_mode 33 t_rich v_rich = pwrite_vec dev_mode t_rich v_rich /\
  pwrite_slice dev_mode 32 t_rich v_rich = Err E_IO.
Proof.
  split; [split; reflexivity|]. split; [reflexivity|]. split.
  - apply not_known_of_good; reflexivity.
  - vm_compute. repeat split; reflexivity.
Qed.

Print Assumptions C17_varint_roundtrip.
Print Assumptions C17_zigzag_roundtrip.
Print Assumptions C17_tag_roundtrip.
Print Assumptions C17_number_roundtrip.
Print Assumptions C17_roundtrip_partial.
Print Assumptions C17_roundtrip_flat_partial.
Print Assumptions C17_backends_agree_partial.
Print Assumptions C17_roundtrip.
Print Assumptions C17_backends_agree.
Print Assumptions C17_known_classes.
Print Assumptions C17_refuted_list_of_null.
Print Assumptions C17_extensible_int_fixed.
Print Assumptions C17_refuted_choice_null.
Print Assumptions C17_refuted_choice_list.
Print Assumptions C17_refuted_nested_list.
Print Assumptions C17_refuted_bitvec_excess.
Print Assumptions C04_proto_refuted_bit_vec_short.
