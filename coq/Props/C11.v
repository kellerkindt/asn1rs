(* C11 — bit-level buffer operations equal a naive bit-vector model.  The theorems are stated
   here; each is proved by a lemma of Bits/Proofs.v or Bits/BufferProofs.v or derived from
   their lemmas in a few lines.
   Scope notes. (1) The property speaks of buffers reached by operations from an empty one;
   a buffer built by from_bits / from_bits_with_position from a vector that is longer than
   ceil(bit_len/8) or has set bits behind bit_len is a caller-supplied state: such buffers are
   part of the differential tie (model vs crate, every operation) but no theorem or oracle
   class speaks about "exactly ceil(bit_len/8) bytes, zero padding" for them.
   (2) with_read_position_at(pos, ..) debug-asserts pos < write_position although its doc
   comment says positions "beyond" the write position panic (pos = write_position panics in a
   debug build): an API documentation nit, modelled, outside C11's statement.
   (3) Two public operations do leave the invariant on the unchanged crate and are listed as
   known findings: a write under with_write_position_at that runs past the old end (F11-1,
   C11_refuted_scope_write_past_end) and ensure_can_write_additional_bits called on its own
   (F11-2; it is not an operation of [bop]). *)
From A1 Require Import Bits.Naive Bits.Proofs Bits.Buffer Bits.BufferProofs.
Local Open Scope N_scope.

Theorem C11_bitwise_exact : forall m src sp dst dp len,
  Forall (fun b => b < 256) src -> Forall (fun b => b < 256) dst ->
  sp + len < two64 -> dp + len < two64 ->
  sp + len <= 8 * blen src -> dp + len <= 8 * blen dst ->
  exists dst', bit_string_copy m src sp dst dp len = Ok dst' /\
    bits_of_bytes dst' =
      splice (N.to_nat dp) (slice (bits_of_bytes src) (N.to_nat sp) (N.to_nat len)) (bits_of_bytes dst)
    /\ length dst' = length dst /\ Forall (fun b => b < 256) dst'.
Proof.
  intros m src sp dst dp len _ Fd Os Od Bs Bd.
  destruct (bit_string_copy_exact m src sp dst dp len Os Od Bs Bd) as (d & E & U1 & U2 & U3).
  exact (ex_intro _ d (conj E (conj U1 (conj U2 (U3 Fd))))).
Qed.

Theorem C11_bitwise_short : forall m src sp dst dp len,
  sp + len < two64 -> dp + len < two64 ->
  (8 * blen dst < dp + len -> bit_string_copy m src sp dst dp len = Err E_INSUFFICIENT_DST)
  /\ (dp + len <= 8 * blen dst -> 8 * blen src < sp + len ->
      bit_string_copy m src sp dst dp len = Err E_INSUFFICIENT_SRC).
Proof. exact bitwise_short. Qed.

Theorem C11_bitwise_no_panic : forall m src sp dst dp len,
  sp + len < two64 -> dp + len < two64 ->
  is_panic (bit_string_copy m src sp dst dp len) = false.
Proof. exact bitwise_no_panic. Qed.

Theorem C11_bit_ops : forall buf pos, Forall (fun b => b < 256) buf ->
  (forall bit,
     (pos < 8 * blen buf ->
        exists buf', slice_write_bit buf pos bit = Ok (buf', pos + 1)
          /\ bits_of_bytes buf' = splice (N.to_nat pos) [bit] (bits_of_bytes buf)
          /\ length buf' = length buf /\ Forall (fun b => b < 256) buf')
     /\ (8 * blen buf <= pos -> slice_write_bit buf pos bit = Err E_END_OF_STREAM))
  /\ (pos < 8 * blen buf ->
        exists b, slice_read_bit buf pos = Ok (b, pos + 1)
          /\ [b] = slice (bits_of_bytes buf) (N.to_nat pos) 1)
  /\ (8 * blen buf <= pos -> slice_read_bit buf pos = Err E_END_OF_STREAM).
Proof.
  intros buf pos F. split; [|split].
  - intros bit. destruct (write_bit_spec buf pos bit) as [W1 W2]. split; [|exact W2].
    intros H. destruct (W1 H) as (d & E & U1 & U2 & U3). exact (ex_intro _ d (conj E (conj U1 (conj U2 (U3 F))))).
  - intros H. destruct (read_bit_spec buf pos) as [R _]. destruct (R H) as (v & R1 & R2).
    exists v. split; [exact R1|]. symmetry. exact R2.
  - destruct (read_bit_spec buf pos) as [_ R]. exact R.
Qed.

Theorem C11_bulk_exact : forall m src sp dst dp len,
  Forall (fun b => b < 256) src -> Forall (fun b => b < 256) dst ->
  sp + len < two64 -> dp + len < two64 ->
  sp + len <= 8 * blen src -> dp + len <= 8 * blen dst ->
  exists dst', bit_string_copy_bulked m src sp dst dp len = Ok dst' /\
    bits_of_bytes dst' =
      splice (N.to_nat dp) (slice (bits_of_bytes src) (N.to_nat sp) (N.to_nat len)) (bits_of_bytes dst)
    /\ length dst' = length dst /\ Forall (fun b => b < 256) dst'.
Proof.
  intros m src sp dst dp len Fs Fd Os Od Bs Bd.
  destruct (bulk_exact_upd m src sp dst dp len Fs Os Od Bs Bd) as (d & E & U1 & U2 & U3).
  exact (ex_intro _ d (conj E (conj U1 (conj U2 (U3 Fd))))).
Qed.

Theorem C11_bulk_short : forall m src sp dst dp len,
  sp + len < two64 -> dp + len < two64 ->
  (8 * blen dst < dp + len -> bit_string_copy_bulked m src sp dst dp len = Err E_INSUFFICIENT_DST)
  /\ (dp + len <= 8 * blen dst -> 8 * blen src < sp + len ->
      bit_string_copy_bulked m src sp dst dp len = Err E_INSUFFICIENT_SRC).
Proof. exact bulk_short. Qed.

Theorem C11_bulk_no_panic : forall m src sp dst dp len,
  Forall (fun b => b < 256) src -> Forall (fun b => b < 256) dst ->
  sp + len < two64 -> dp + len < two64 ->
  is_panic (bit_string_copy_bulked m src sp dst dp len) = false.
Proof.
  intros m src sp dst dp len Fs _ Os Od. destruct (bulk_short m src sp dst dp len Os Od) as [Sd Ss].
  destruct (N.lt_ge_cases (8 * blen dst) (dp + len)) as [H1|H1]; [rewrite (Sd H1); reflexivity|].
  destruct (N.lt_ge_cases (8 * blen src) (sp + len)) as [H2|H2]; [rewrite (Ss H1 H2); reflexivity|].
  destruct (bulk_exact_upd m src sp dst dp len Fs Os Od H2 H1) as (dst' & E & _).
  rewrite E. reflexivity.
Qed.

Theorem C11_write_exact : forall m dst pos src soff slen,
  Forall (fun b => b < 256) src -> Forall (fun b => b < 256) dst ->
  soff + slen < two64 -> pos + slen < two64 ->
  soff + slen <= 8 * blen src -> pos + slen <= 8 * blen dst ->
  exists dst', slice_write_bits m dst pos src soff slen = Ok (dst', pos + slen) /\
    bits_of_bytes dst' =
      splice (N.to_nat pos) (slice (bits_of_bytes src) (N.to_nat soff) (N.to_nat slen)) (bits_of_bytes dst)
    /\ length dst' = length dst /\ Forall (fun b => b < 256) dst'.
Proof.
  intros m dst pos src soff slen Fs Fd Os Od Bs Bd.
  destruct (write_bits_exact m dst pos src soff slen Fs Os Od Bs Bd) as (d & E & U1 & U2 & U3).
  exact (ex_intro _ d (conj E (conj U1 (conj U2 (U3 Fd))))).
Qed.

Theorem C11_read_mirror : forall m src pos dst doff dlen,
  Forall (fun b => b < 256) src -> Forall (fun b => b < 256) dst ->
  pos + dlen < two64 -> doff + dlen < two64 ->
  pos + dlen <= 8 * blen src -> doff + dlen <= 8 * blen dst ->
  exists dst', slice_read_bits m src pos dst doff dlen = Ok (dst', pos + dlen) /\
    bits_of_bytes dst' =
      splice (N.to_nat doff) (slice (bits_of_bytes src) (N.to_nat pos) (N.to_nat dlen)) (bits_of_bytes dst)
    /\ length dst' = length dst /\ Forall (fun b => b < 256) dst'.
Proof.
  intros m src pos dst doff dlen Fs Fd Os Od Bs Bd.
  destruct (read_bits_mirror m src pos dst doff dlen Fs Os Od Bs Bd) as (d & E & U1 & U2 & U3).
  exact (ex_intro _ d (conj E (conj U1 (conj U2 (U3 Fd))))).
Qed.

(* write_bit and read_bit of the tuple carriers (C11_bit_ops) are the length-1 instances of bit_string_copy *)
Theorem C11_bit_ops_copies : forall m buf pos, Forall (fun b => b < 256) buf ->
  pos < 8 * blen buf -> pos + 1 < two64 ->
  (forall bit, exists buf', slice_write_bit buf pos bit = Ok (buf', pos + 1)
      /\ bit_string_copy m [if bit then 128 else 0] 0 buf pos 1 = Ok buf')
  /\ (exists b, slice_read_bit buf pos = Ok (b, pos + 1)
      /\ bit_string_copy m buf pos [0] 0 1 = Ok [if b then 128 else 0]).
Proof. exact bit_ops_are_copies. Qed.

(* BitBuffer: [bb_inv] (buffer length is ceil(wpos/8), all elements are bytes, every bit at
   or after the write position is zero) holds for the empty buffer and is preserved by every
   write that returns [Ok], whether or not it carries an error kind ... *)
Theorem C11_buffer_inv_step :
  bb_inv bb_empty
  /\ (forall m b bit b' e, bb_inv b -> bb_wpos b + 1 < two63 ->
        bb_write_bit m b bit = Ok (b', e) -> bb_inv b')
  /\ (forall m b src soff slen b' e, bb_inv b -> Forall (fun x => x < 256) src ->
        soff + slen < two64 -> bb_wpos b + slen < two63 ->
        bb_write_bits_ol m b src soff slen = Ok (b', e) -> bb_inv b')
  /\ (forall m b src soff b' e, bb_inv b -> Forall (fun x => x < 256) src ->
        soff <= 8 * blen src -> 8 * blen src < two64 -> bb_wpos b + (8 * blen src - soff) < two63 ->
        bb_write_bits_o m b src soff = Ok (b', e) -> bb_inv b').
Proof.
  assert (K : forall m b op b' e, bb_inv b -> wop_ok op -> bb_wpos b + wop_len op < two63 ->
            apply_wop m b op = Ok (b', e) -> bb_inv b').
  { intros m b op b' e Hi Hok Hb H.
    destruct (apply_wop_inv m b op Hi Hok Hb) as (b1 & e1 & E & I1 & _). congruence. }
  split; [exact bb_inv_empty|]. split; [|split].
  - intros m b bit b' e Hi Hb. exact (K m b (WBit bit) b' e Hi I Hb).
  - intros m b src soff slen b' e Hi Fs Os Hb. exact (K m b (WBits src soff slen) b' e Hi (conj Fs Os) Hb).
  - intros m b src soff b' e Hi Fs Ho O64 Hb.
    exact (K m b (WBitsO src soff) b' e Hi (conj Fs (conj Ho O64)) Hb).
Qed.

(* ... hence for every buffer reachable from the empty one by a list of write operations
   (errors ignored by the caller), as long as fewer than 2^63 bits are requested in total;
   such runs never panic. *)
Theorem C11_buffer_inv : forall m ops,
  Forall wop_ok ops -> wops_len ops < two63 ->
  exists b', fold_left (wop_step m) ops (Ok bb_empty) = Ok b'
    /\ bb_inv b' /\ bb_wpos b' <= wops_len ops.
Proof.
  intros m ops Hok Hb. destruct (run_wops_inv m ops bb_empty bb_inv_empty Hok) as (b' & E & I' & W').
  - cbn [bb_empty bb_wpos]. lia.
  - exists b'. cbn [bb_empty bb_wpos] in W'. split; [exact E|]. split; [exact I'|lia].
Qed.

(* BitBuffer writes append to the written bits (`++` on bit lists) *)
Theorem C11_buffer_refines :
  (forall m b src soff slen b', bb_inv b -> Forall (fun x => x < 256) src ->
     soff + slen < two64 -> bb_wpos b + slen < two63 ->
     bb_write_bits_ol m b src soff slen = Ok (b', None) ->
     bb_wpos b' = bb_wpos b + slen /\ bb_rpos b' = bb_rpos b
     /\ firstn (N.to_nat (bb_wpos b')) (bits_of_bytes (bb_buf b'))
        = firstn (N.to_nat (bb_wpos b)) (bits_of_bytes (bb_buf b))
          ++ slice (bits_of_bytes src) (N.to_nat soff) (N.to_nat slen))
  /\ (forall m b bit b', bb_inv b -> bb_wpos b + 1 < two63 ->
     bb_write_bit m b bit = Ok (b', None) ->
     bb_wpos b' = bb_wpos b + 1 /\ bb_rpos b' = bb_rpos b
     /\ firstn (N.to_nat (bb_wpos b')) (bits_of_bytes (bb_buf b'))
        = firstn (N.to_nat (bb_wpos b)) (bits_of_bytes (bb_buf b)) ++ [bit]).
Proof.
  split.
  - intros m b src soff slen b' Hi Fs Os Hb H.
    destruct (bb_write_bits_ol_spec m b src soff slen Fs Os) as [Serr Sok].
    destruct (N.lt_ge_cases (8 * blen src) (soff + slen)) as [Hs|Hs].
    + rewrite (Serr Hs) in H. discriminate.
    + destruct (Sok Hi Hb Hs) as (b1 & E & _ & W & R & P). assert (b1 = b') by congruence. subst b1. auto.
  - intros m b bit b' Hi Hb H.
    destruct (bb_write_bit_spec m b bit Hi Hb) as (b1 & E & _ & W & R & P).
    assert (b1 = b') by congruence. subst b1. auto.
Qed.

(* The whole public surface of BitBuffer (Bits/Buffer.v). The other three multi-bit write
   entry points are overrides that forward to the tuple carrier's method of the same name;
   each is the write_bits_with_offset_len instance one expects.  Copy.v and Buffer.v both
   model write_bits_with_offset ([bb_write_bits_o], [bb_write_bits_with_offset]): the last
   part says that the two agree on its domain ... *)
Theorem C11_buffer_entry_points : forall m b src,
  (8 * blen src < two64 -> bb_write_bits m b src = bb_write_bits_ol m b src 0 (8 * blen src))
  /\ (forall len, len < two64 -> bb_write_bits_with_len m b src len = bb_write_bits_ol m b src 0 len)
  /\ (forall soff, soff <= 8 * blen src -> 8 * blen src < two64 ->
        bb_write_bits_with_offset m b src soff = bb_write_bits_ol m b src soff (8 * blen src - soff)
        /\ bb_write_bits_with_offset m b src soff = bb_write_bits_o m b src soff).
Proof.
  intros m b src. split; [apply bb_write_bits_eq|]. split; [intros len; apply bb_write_bits_with_len_eq|].
  intros soff H H64. rewrite bb_write_bits_o_eq by exact H. split; apply bb_write_bits_with_offset_eq; assumption.
Qed.

(* ... so each of the five writes appends exactly the requested bits (or fails on a short
   source and leaves any buffer untouched) *)
Theorem C11_buffer_write_family : forall m b w, w5_ok w ->
  (~ w5_fits w -> w5_apply m b w = Ok (b, Some E_INSUFFICIENT_SRC))
  /\ (bb_inv b -> w5_fits w -> bb_wpos b + w5_len w < two63 ->
      exists b', w5_apply m b w = Ok (b', None)
        /\ bb_inv b' /\ bb_wpos b' = bb_wpos b + w5_len w /\ bb_rpos b' = bb_rpos b
        /\ firstn (N.to_nat (bb_wpos b')) (bits_of_bytes (bb_buf b'))
           = firstn (N.to_nat (bb_wpos b)) (bits_of_bytes (bb_buf b)) ++ w5_bits w).
Proof. exact w5_write. Qed.

(* with_write_position_at(pos, any of the five writes) that ends at or before bit_len: no
   growth, cursors restored, and the written prefix changes by exactly the splice *)
Theorem C11_scope_write_in_place : forall m b pos w,
  bb_inv b -> w5_ok w -> w5_fits w -> pos + w5_len w <= bb_wpos b -> bb_wpos b < two63 ->
  exists b', bb_with_write_position_at m b pos (fun b1 => w5_apply m b1 w) = Ok (b', None)
    /\ bb_inv b' /\ bb_wpos b' = bb_wpos b /\ bb_rpos b' = bb_rpos b
    /\ length (bb_buf b') = length (bb_buf b)
    /\ firstn (N.to_nat (bb_wpos b)) (bits_of_bytes (bb_buf b'))
       = splice (N.to_nat pos) (w5_bits w) (firstn (N.to_nat (bb_wpos b)) (bits_of_bytes (bb_buf b))).
Proof. exact scope_write_in_place. Qed.

(* a scoped write that runs past the old end is outside that theorem for a reason: the byte
   vector stays grown and the bits behind the restored bit_len stay set, in both profiles *)
Theorem C11_refuted_scope_write_past_end :
  let b := {| bb_buf := [255]; bb_wpos := 8; bb_rpos := 0 |} in
  let b' := {| bb_buf := [255; 255; 240]; bb_wpos := 8; bb_rpos := 0 |} in
  bb_inv b
  /\ (forall m, bb_with_write_position_at m b 4 (fun b1 => bb_write_bits m b1 [255; 255]) = Ok (b', None))
  /\ ~ bb_inv b'.
Proof.
  cbv zeta. split; [|split].
  - unfold bb_inv, padding_zero. cbn [bb_buf bb_wpos]. split; [reflexivity|]. split.
    + repeat constructor.
    + intros i Hi. apply nth_overflow. rewrite bits_length. cbn [length]. lia.
  - intros [[|] [|]]; vm_compute; reflexivity.
  - intros (Hl & _). vm_compute in Hl. discriminate.
Qed.

(* every buffer reachable from default() / with_capacity(_) / from_bytes(_) by the five writes,
   in-place scoped writes, the five reads (plain, under with_read_position_at, under
   with_max_read), clear and reset_read_position satisfies the invariant ... *)
Theorem C11_reachable_inv : forall m b, reachable m b -> bb_inv b.
Proof.
  intros m b R. induction R as [|buf b F E|b op b' R IH Hok E].
  - exact bb_inv_empty.
  - destruct (from_bytes_inv buf F) as (b0 & E0 & I0 & _). congruence.
  - exact (proj1 (apply_bop_step m b op IH Hok) b' E).
Qed.

(* ... one step at a time, and the state-changing steps always return *)
Theorem C11_public_ops_step : forall m b op, bb_inv b -> bop_ok b op ->
  (forall b', apply_bop m b op = Ok b' -> bb_inv b')
  /\ match op with
     | ORead _ | OScopeR _ _ | OMaxRead _ _ => True
     | _ => exists b', apply_bop m b op = Ok b'
     end.
Proof. exact apply_bop_step. Qed.

(* reads never touch the stored bits or the write position *)
Theorem C11_reads_keep_bits : forall m b r b', r_apply m b r = Ok b' ->
  bb_buf b' = bb_buf b /\ bb_wpos b' = bb_wpos b.
Proof. exact r_apply_same. Qed.

(* multi-bit reads of a BitBuffer stop at bit_len: with fewer than
   the requested n bits between the read position and bit_len each of the four is EndOfStream
   (an Err: nothing changes), under the scoped combinators as anywhere else since the guard
   only looks at the two cursors; a successful one lies inside the written bits, returns
   exactly the stored bits [read_position, read_position + n) at the destination offset, and
   advances the read position by n *)
Theorem C11_buffer_reads_within_bit_len : forall m b r,
  (bb_wpos b - bb_rpos b < m_len r -> m_read m b r = Err E_END_OF_STREAM)
  /\ (forall dst' b',
      Forall (fun x => x < 256) (bb_buf b) -> Forall (fun x => x < 256) (m_dst r) ->
      (match r with MOff d o => o <= 8 * blen d | _ => True end) ->
      bb_rpos b + m_len r < two64 -> m_off r + m_len r < two64 ->
      m_read m b r = Ok (dst', b') ->
      ((bb_rpos b <= bb_wpos b \/ 0 < m_len r) -> bb_rpos b + m_len r <= bb_wpos b)
      /\ bb_rpos b' = bb_rpos b + m_len r /\ bb_buf b' = bb_buf b /\ bb_wpos b' = bb_wpos b
      /\ bits_of_bytes dst' =
           splice (N.to_nat (m_off r))
             (slice (bits_of_bytes (bb_buf b)) (N.to_nat (bb_rpos b)) (N.to_nat (m_len r)))
             (bits_of_bytes (m_dst r))
      /\ length dst' = length (m_dst r)).
Proof. exact m_read_spec. Qed.

(* non-vacuity: after one written bit read_bits into one byte is EndOfStream (regression witness of the defect in
   which the multi-bit reads ran on to the end of the byte vector), and a read that succeeds *)
Example C11_reads_nonvacuous :
  m_read dev_mode {| bb_buf := [128]; bb_wpos := 1; bb_rpos := 0 |} (MAll [0]) = Err E_END_OF_STREAM
  /\ m_read dev_mode {| bb_buf := [165; 90]; bb_wpos := 13; bb_rpos := 2 |} (MOffLen [255; 255] 3 9)
     = Ok ([242; 175], {| bb_buf := [165; 90]; bb_wpos := 13; bb_rpos := 11 |}).
Proof. split; vm_compute; reflexivity. Qed.

(* non-vacuity of the reachability statements: a run through a write, an in-place scoped
   write at an aligned position before the end, and a read *)
Example C11_nonvacuous_surface :
  reachable dev_mode {| bb_buf := [0; 165; 34]; bb_wpos := 24; bb_rpos := 8 |}
  /\ bop_ok {| bb_buf := [0; 17; 34]; bb_wpos := 24; bb_rpos := 0 |} (OScopeW 8 (W5All [165]))
  /\ apply_bop dev_mode {| bb_buf := [0; 17; 34]; bb_wpos := 24; bb_rpos := 0 |} (OScopeW 8 (W5All [165]))
     = Ok {| bb_buf := [0; 165; 34]; bb_wpos := 24; bb_rpos := 0 |}.
Proof.
  assert (K1 : bop_ok bb_empty (OWrite (W5All [0; 17; 34]))).
  { cbn [bop_ok w5_ok w5_src w5_off w5_len]. repeat split; try (repeat constructor; reflexivity); vm_compute; reflexivity. }
  assert (K2 : bop_ok {| bb_buf := [0; 17; 34]; bb_wpos := 24; bb_rpos := 0 |} (OScopeW 8 (W5All [165]))).
  { cbn [bop_ok w5_ok w5_src w5_off w5_len]. repeat split; try (repeat constructor; reflexivity); vm_compute; congruence. }
  split; [|split; [exact K2|vm_compute; reflexivity]].
  apply (reach_step dev_mode {| bb_buf := [0; 165; 34]; bb_wpos := 24; bb_rpos := 0 |} (ORead (RMulti (MAll [0]))));
    [|exact I|vm_compute; reflexivity].
  apply (reach_step dev_mode {| bb_buf := [0; 17; 34]; bb_wpos := 24; bb_rpos := 0 |} (OScopeW 8 (W5All [165])));
    [|exact K2|vm_compute; reflexivity].
  apply (reach_step dev_mode bb_empty (OWrite (W5All [0; 17; 34]))); [apply reach_empty|exact K1|vm_compute; reflexivity].
Qed.

(* non-vacuity: the bits after the copied range survive the unaligned bulk copy (regression witness of the defect
   that cleared them), satisfiable instances of the hypotheses of the copy theorems, and a run of write
   operations (the last one fails with InsufficientSource and is ignored) *)
Example C11_nonvacuous :
  bit_string_copy_bulked dev_mode [0;0;0;0;0] 0 [255;255;255;255;255] 1 17 = Ok [128;0;63;255;255]
  /\ (Forall (fun b => b < 256) [0;0;0;0;0] /\ Forall (fun b => b < 256) [255;255;255;255;255]
      /\ 0 + 17 < two64 /\ 1 + 17 < two64
      /\ 0 + 17 <= 8 * blen [0;0;0;0;0] /\ 1 + 17 <= 8 * blen [255;255;255;255;255])
  /\ (let ops := [WBit true; WBits [1;2;3] 3 20; WBitsO [1;2;3] 5; WBits [1] 0 9] in
      Forall wop_ok ops /\ wops_len ops < two63
      /\ fold_left (wop_step dev_mode) ops (Ok bb_empty)
         = Ok {| bb_buf := [132; 8; 9; 2; 3]; bb_wpos := 40; bb_rpos := 0 |}).
Proof.
  split; [vm_compute; reflexivity|]. split.
  - repeat split; try (repeat constructor; reflexivity); vm_compute; congruence.
  - cbv zeta. split; [|split; vm_compute; reflexivity].
    repeat constructor; vm_compute; congruence.
Qed.

Print Assumptions C11_bitwise_exact.
Print Assumptions C11_bitwise_short.
Print Assumptions C11_bitwise_no_panic.
Print Assumptions C11_bit_ops.
Print Assumptions C11_bit_ops_copies.
Print Assumptions C11_bulk_exact.
Print Assumptions C11_bulk_short.
Print Assumptions C11_bulk_no_panic.
Print Assumptions C11_write_exact.
Print Assumptions C11_read_mirror.
Print Assumptions C11_buffer_inv_step.
Print Assumptions C11_buffer_inv.
Print Assumptions C11_buffer_refines.
Print Assumptions C11_buffer_entry_points.
Print Assumptions C11_buffer_write_family.
Print Assumptions C11_scope_write_in_place.
Print Assumptions C11_refuted_scope_write_past_end.
Print Assumptions C11_reachable_inv.
Print Assumptions C11_public_ops_step.
Print Assumptions C11_reads_keep_bits.
Print Assumptions C11_buffer_reads_within_bit_len.
