(* Front/ResolveTotalProofs.v -- the stages after the parser return, or fail to only in two classes of input (C14).
   The two lookups of the resolver (Front/Resolve.v) are one fuelled walk along IMPORTS (glookup, Front/ResolveProofs.v);
   their fuel S (length scope) is exact: out of fuel iff the walk is cyclic (pigeonhole on the positions of the scope),
   and the resolver answers RDiverge only at a use site that starts such a walk.  The tag recursion of Model::to_rust
   (resolve_tag / resolve_type_tag, Extract/OpsParse.v) diverges only on a cycle of the graph "untagged definition n
   mentions n' in tag position" (decidable: cyclic_b).  Last, the four stages composed: [front_end]. *)
From A1 Require Import Base.ListFacts Front.Resolve Front.ResolveProofs Front.ResolveSubstProofs.
From A1 Require Import Extract.OpsParse.
From A1 Require Import Front.ParseProofs Front.ParseTotalProofs.
From A1 Require Front.LexProofs.
Local Open Scope N_scope.

Section Chain.
  Variable Ms : list umodel.
  Variable name : str.
  Variable A : Type.
  Variable loc : umodel -> option A.          (* what the module itself binds the name to *)

  Notation look := (glookup Ms name A loc).

  (* one step of the lookup: a does not bind the name, and b is the module of the scope that the first import of a
     listing the name is matched with (by OID if b has one and it is equal, else by name) *)
  Definition gstep (a b : umodel) : Prop := loc a = None /\ model_with_imported_item Ms a name = Some b.

  Inductive gpath : umodel -> umodel -> Prop :=
  | gp_one : forall a b, gstep a b -> gpath a b
  | gp_cons : forall a b c, gstep a b -> gpath b c -> gpath a c.

  (* the walk from m runs into a cycle *)
  Definition gcycle (m : umodel) : Prop := exists b, (b = m \/ gpath m b) /\ gpath b b.

  Lemma gpath_inv : forall a c, gpath a c -> exists b, gstep a b /\ (b = c \/ gpath b c).
  Proof. intros a c [a0 b H | a0 b c0 H Hp]; exists b; auto. Qed.

  Lemma glookup_step : forall fuel a b, gstep a b ->
    look fuel a = match fuel with O => Diverges | S f => look f b end.
  Proof. intros fuel a b [H1 H2]. destruct fuel; cbn [glookup]; rewrite H1, H2; reflexivity. Qed.

  (* out of fuel: the walk has S fuel steps *)
  Lemma diverges_chain : forall fuel m,
    look fuel m = Diverges <-> exists l, length l = S fuel /\ chain _ gstep (m :: l).
  Proof.
    induction fuel as [|fuel IH]; intros m; split.
    - intros H. cbn [glookup] in H. destruct (loc m) eqn:E1; try discriminate.
      destruct (model_with_imported_item Ms m name) as [m'|] eqn:E2; try discriminate.
      exists [m']. split; [reflexivity | repeat constructor; assumption].
    - intros [[|b l] [Hl Hc]]; [discriminate|]. inversion Hc as [|? ? ? Hs Hc']; subst. rewrite (glookup_step _ _ _ Hs). reflexivity.
    - intros H. cbn [glookup] in H. destruct (loc m) eqn:E1; try discriminate.
      destruct (model_with_imported_item Ms m name) as [m'|] eqn:E2; try discriminate.
      apply IH in H. destruct H as [l [Hl Hc]]. exists (m' :: l).
      split; [cbn [length]; rewrite Hl; reflexivity | constructor; [split; assumption | exact Hc]].
    - intros [[|b l] [Hl Hc]]; [discriminate|]. inversion Hc as [|? ? ? Hs Hc']; subst. rewrite (glookup_step _ _ _ Hs).
      apply IH. exists l. split; [cbn [length] in Hl; lia | exact Hc'].
  Qed.

  Theorem gcycle_diverges : forall m, gcycle m -> forall fuel, look fuel m = Diverges.
  Proof. intros m H fuel. apply diverges_chain. exact (to_cycle_chain _ gstep gpath gpath_inv (S fuel) m H). Qed.

  (* the modules a walk steps to are those at some positions of the scope (d fills the positions outside it) *)
  Lemma chain_positions : forall d l m, chain _ gstep (m :: l) ->
    exists ps, incl ps (seq 0 (length Ms)) /\ l = map (fun i => nth i Ms d) ps.
  Proof.
    intros d. induction l as [|b l IH]; intros m H; [exists []; split; [intros i [] | reflexivity]|].
    inversion H as [|a b0 l0 [_ Hs] Hc]; subst. destruct (IH _ Hc) as [ps [Hi ->]].
    destruct (In_nth _ _ d (imported_in _ _ _ _ Hs)) as [i [Hlt <-]]. exists (i :: ps). split; [|reflexivity].
    intros j [<- | Hj]; [apply in_seq; lia | exact (Hi j Hj)].
  Qed.

  (* out of fuel with at least `length scope` units means a cycle: the fuel S (length scope) of the model never
     runs out on a walk that would end *)
  Theorem diverges_gcycle : forall fuel m, (length Ms <= fuel)%nat -> look fuel m = Diverges -> gcycle m.
  Proof.
    intros fuel m Hf H. apply diverges_chain in H. destruct H as [l [Hl Hc]].
    destruct (chain_positions m _ _ Hc) as [ps [Hi ->]]. rewrite map_length in Hl.
    (* more steps than positions: one position occurs twice *)
    destruct (long_repeat Nat.eq_dec ps _ Hi) as [i [p1 [p2 [p3 ->]]]]; [rewrite seq_length; lia|].
    rewrite map_app, map_cons, map_app, map_cons in Hc. exists (nth i Ms m). split.
    - right. exact (chain_path _ gstep gpath gp_one gp_cons _ _ _ _ Hc).
    - exact (chain_repeat _ gstep gpath gp_one gp_cons (m :: _) _ _ _ Hc).
  Qed.

  Theorem lookup_fuel_exact : forall m, look (lookup_fuel Ms) m = Diverges <-> gcycle m.
  Proof.
    intros m. split.
    - apply diverges_gcycle. unfold lookup_fuel. lia.
    - intros H. apply gcycle_diverges. exact H.
  Qed.
End Chain.

(* what a module itself binds a value reference / a type name to: the two lookups of ResolveScope are the walk with
   these (value_reference_glookup, definition_glookup) *)
Definition vloc (name : str) (m : umodel) : option literal :=
  option_map snd (find (fun vr => str_eqb (fst (fst vr)) name) (m_value_references m)).

Definition dloc (name : str) (m : umodel) : option uasn :=
  option_map snd (find (fun d => str_eqb (fst d) name) (m_definitions m)).

(* module M looks up the value reference `name` (resp. the type `name`) along a cyclic chain of IMPORTS:
   none of the modules on the way defines it, each imports it from the next *)
Definition import_cycle_v (Ms : list umodel) (M : umodel) (name : str) : Prop := gcycle Ms name literal (vloc name) M.
Definition import_cycle_d (Ms : list umodel) (M : umodel) (name : str) : Prop := gcycle Ms name uasn (dloc name) M.

Theorem value_reference_diverges_iff : forall Ms M name,
  value_reference Ms (lookup_fuel Ms) M name = Diverges <-> import_cycle_v Ms M name.
Proof. intros Ms M name. rewrite value_reference_glookup. apply lookup_fuel_exact. Qed.

Theorem definition_diverges_iff : forall Ms M name,
  definition Ms (lookup_fuel Ms) M name = Diverges <-> import_cycle_d Ms M name.
Proof. intros Ms M name. rewrite definition_glookup. apply lookup_fuel_exact. Qed.

Theorem import_cycle_diverges_for_every_fuel : forall Ms M name,
  (import_cycle_v Ms M name -> forall fuel, value_reference Ms fuel M name = Diverges) /\
  (import_cycle_d Ms M name -> forall fuel, definition Ms fuel M name = Diverges).
Proof.
  intros Ms M name. split; intros H fuel.
  - rewrite value_reference_glookup. apply gcycle_diverges. exact H.
  - rewrite definition_glookup. apply gcycle_diverges. exact H.
Qed.

(* the resolver diverges only at a use site that starts a cyclic import chain *)
Section Lift.
  Variable Ms : list umodel.
  Variable M : umodel.

  Definition cyc_v (name : str) : Prop := import_cycle_v Ms M name.

  (* a DEFAULT reference `name` of a component of type t0: the type is a reference whose definition lookup is
     cyclic, or the ENUMERATED special case does not fire and the value lookup is cyclic *)
  Definition cyc_default (t0 : uty) (name : str) : Prop :=
    (exists referenced, ref_name t0 = Some referenced /\ import_cycle_d Ms M referenced) \/
    (enum_default_fires Ms M t0 name = false /\ import_cycle_v Ms M name).

  Lemma cyc_leaf : forall name,
    (resolve_i64 Ms M (Ref name) = RDiverge <-> cyc_v name) /\
    (resolve_usize Ms M (Ref name) = RDiverge <-> cyc_v name) /\
    (resolve_literal Ms M (Ref name) = RDiverge <-> cyc_v name).
  Proof. intros name. unfold cyc_v. rewrite <- value_reference_diverges_iff. apply resolve_leaf_div. Qed.

  Lemma usize_div : forall l, resolve_usize Ms M l = RDiverge -> exists name, l = Ref name /\ cyc_v name.
  Proof. intros [z | name] H; [discriminate|]. apply cyc_leaf in H. exists name. split; [reflexivity | exact H]. Qed.

  Lemma size_div : forall s, resolve_size Ms M s = RDiverge -> size_site cyc_v s.
  Proof.
    intros [|n e|lo hi e] H; unfold resolve_size in H; [discriminate | |].
    - apply rbind_ret_div in H. destruct (usize_div _ H) as [name [-> Hc]]. constructor. exact Hc.
    - apply rbind_div in H. destruct H as [H | [a [_ H]]].
      + destruct (usize_div _ H) as [name [-> Hc]]. apply site_SRange_lo. exact Hc.
      + apply rbind_ret_div in H. destruct (usize_div _ H) as [name [-> Hc]]. apply site_SRange_hi. exact Hc.
  Qed.

  Lemma opt_i64_div : forall o, resolve_opt_i64 Ms M o = RDiverge -> exists name, o = Some (Ref name) /\ cyc_v name.
  Proof.
    intros [[z | name]|] H; try discriminate. unfold resolve_opt_i64 in H. apply rbind_ret_div in H.
    apply cyc_leaf in H. exists name. split; [reflexivity | exact H].
  Qed.

  Lemma default_cyc : forall t0 name, default_of Ms M t0 name = RDiverge <-> cyc_default t0 name.
  Proof.
    intros t0 name. unfold default_of, cyc_default. rewrite enum_default_fires_kind. split.
    - destruct (default_kind_of Ms M t0 name) eqn:K; intros H.
      + right. split; [reflexivity|]. apply rbind_ret_div in H. apply cyc_leaf in H. exact H.
      + discriminate.
      + left. destruct (default_kind_loop _ _ _ _ K) as [r [Er Ed]]. exists r.
        split; [exact Er | apply definition_diverges_iff; exact Ed].
    - intros [[r [Er Hd]] | [Ef Hv]].
      + apply definition_diverges_iff in Hd. unfold default_kind_of. rewrite Er, Hd. reflexivity.
      + destruct (default_kind_of Ms M t0 name); [|discriminate Ef|reflexivity].
        destruct (cyc_leaf name) as [_ [_ [_ E]]]. rewrite (E Hv). reflexivity.
  Qed.

  Notation tsite := (ty_site cyc_v cyc_v cyc_default).

  Lemma asn_div_ty : forall a, (resolve_ty Ms M (snd (fst a)) = RDiverge -> tsite (snd (fst a))) ->
    resolve_asn Ms M a = RDiverge -> asn_site cyc_v cyc_v cyc_default a.
  Proof.
    intros [[tag t] d] IH H. cbn [fst snd] in IH. unfold resolve_asn in H.
    apply rbind_div in H. destruct H as [H | [t' [Ht H]]].
    - apply site_asn_ty. apply IH. exact H.
    - apply rbind_ret_div in H. destruct d as [[l | name]|]; [discriminate | | discriminate].
      rewrite resolve_default_of, (resolve_ty_default_of _ _ _ _ name Ht) in H. apply site_asn_default. apply default_cyc. exact H.
  Qed.

  Lemma named_div : forall fs : list (str * uasn),
    (forall f, In f fs -> resolve_ty Ms M (snd (fst (snd f))) = RDiverge -> tsite (snd (fst (snd f)))) ->
    rmapM (resolve_named Ms M) fs = RDiverge -> exists n a, In (n, a) fs /\ asn_site cyc_v cyc_v cyc_default a.
  Proof.
    intros fs IH H. apply rmapM_div in H. destruct H as [[n a] [Hin H]]. exists n, a. split; [exact Hin|].
    unfold resolve_named in H. apply rbind_ret_div in H. apply asn_div_ty; [exact (IH _ Hin) | exact H].
  Qed.

  Lemma ty_div : forall t, resolve_ty Ms M t = RDiverge -> tsite t.
  Proof.
    induction t as [ |[[lo hi] e] c|s c|s|s c| |i IH|i l IH|fs e IH|i s IH|fs e IH|i s IH|v e|vs e IH|n tg]
      using ty_nested_ind; intros H.
    all: try rewrite resolve_ty_sequence in H; try rewrite resolve_ty_set in H; try rewrite resolve_ty_choice in H.
    all: cbn [resolve_ty] in H; try discriminate H.
    - apply rbind_div in H. destruct H as [H | [a [_ H]]].
      + destruct (opt_i64_div _ H) as [name [-> Hc]]. apply site_Integer_lo. exact Hc.
      + apply rbind_ret_div in H. destruct (opt_i64_div _ H) as [name [-> Hc]]. apply site_Integer_hi. exact Hc.
    - apply rbind_ret_div in H. apply site_String. apply size_div. exact H.
    - apply rbind_ret_div in H. apply site_OctetString. apply size_div. exact H.
    - apply rbind_ret_div in H. apply site_BitString. apply size_div. exact H.
    - apply rbind_ret_div in H. apply site_Optional. apply IH. exact H.
    - apply rbind_ret_div in H. apply site_Default. apply IH. exact H.
    - apply rbind_ret_div in H. destruct (named_div fs IH H) as [n [a [Hin Ha]]].
      exact (proj1 (site_fields_asn _ _ _ _ _ _ e Hin Ha)).
    - apply rbind_div in H. destruct H as [H | [a [_ H]]].
      + apply site_SequenceOf_ty. apply IH. exact H.
      + apply rbind_ret_div in H. apply site_SequenceOf_size. apply size_div. exact H.
    - apply rbind_ret_div in H. destruct (named_div fs IH H) as [n [a [Hin Ha]]].
      exact (proj2 (site_fields_asn _ _ _ _ _ _ e Hin Ha)).
    - apply rbind_div in H. destruct H as [H | [a [_ H]]].
      + apply site_SetOf_ty. apply IH. exact H.
      + apply rbind_ret_div in H. apply site_SetOf_size. apply size_div. exact H.
    - apply rbind_ret_div in H. apply rmapM_div in H. destruct H as [[[n tag] t0] [Hin H]].
      unfold resolve_variant in H. apply rbind_ret_div in H. exact (site_Choice _ _ _ _ _ _ _ _ Hin (IH _ Hin H)).
  Qed.

  (* the module has a use site that starts a cyclic import chain *)
  Definition cyclic_use_site : Prop := model_site cyc_v cyc_v cyc_default M.

  Theorem model_div : resolve_model Ms M = RDiverge -> cyclic_use_site.
  Proof.
    intros H. unfold resolve_model in H.
    apply rbind_div in H. destruct H as [H | [vals [_ H]]].
    - rewrite resolve_values_rmapM in H. apply rmapM_div in H. destruct H as [[[n a] v] [Hin H]].
      unfold resolve_value in H. apply rbind_ret_div in H.
      exact (site_value _ _ _ _ _ _ _ Hin (asn_div_ty _ (ty_div _) H)).
    - apply rbind_ret_div in H. rewrite resolve_definitions_rmapM in H.
      destruct (named_div _ (fun f _ => ty_div _) H) as [n [a [Hin Ha]]]. exact (site_definition _ _ _ _ _ _ Hin Ha).
  Qed.

  Theorem cyclic_use_site_no_model : cyclic_use_site -> forall r, resolve_model Ms M <> ROk r.
  Proof.
    apply model_site_error.
    - intros name Hc v. destruct (cyc_leaf name) as [[_ E] _]. rewrite (E Hc). discriminate.
    - intros name Hc v. destruct (cyc_leaf name) as [_ [[_ E] _]]. rewrite (E Hc). discriminate.
    - intros t0 name Hc v. apply default_cyc in Hc. rewrite Hc. discriminate.
  Qed.
End Lift.

(* F12-3 / F14-2: some loaded module has a use site (INTEGER bound, SIZE bound, DEFAULT) whose lookup walks a
   cycle of IMPORTS none of whose modules defines the name *)
Definition Known_C14_cyclic_import (Ms : list umodel) : Prop :=
  exists M, In M Ms /\ cyclic_use_site Ms M.

(* rres has three constructors: a model, an error value, divergence -- there is no panic outcome in the resolver
   (its only arithmetic is usize::try_from, modelled as an error); divergence only in the class *)
Theorem resolve_all_total : forall Ms,
  match resolve_all Ms with
  | ROk _ | RErr _ => True
  | RDiverge => Known_C14_cyclic_import Ms
  end.
Proof.
  intros Ms. destruct (resolve_all Ms) eqn:E; try exact I. unfold resolve_all in E.
  rewrite resolve_each_rmapM in E. apply rmapM_div in E. destruct E as [M [Hin H]].
  exists M. split; [exact Hin | apply model_div; exact H].
Qed.

Theorem cyclic_import_never_resolves : forall Ms, Known_C14_cyclic_import Ms -> forall rs, resolve_all Ms <> ROk rs.
Proof.
  intros Ms [M [Hin Hs]]. exact (resolve_each_error Ms M Ms Hin (cyclic_use_site_no_model Ms M Hs)).
Qed.

Theorem resolve_single_total : forall u,
  match resolve_single u with
  | ROk _ | RErr _ => True
  | RDiverge => Known_C14_cyclic_import [u]
  end.
Proof.
  intros u. destruct (resolve_single u) eqn:E; try exact I. unfold resolve_single in E.
  exists u. split; [left; reflexivity | apply model_div; exact E].
Qed.

(* tag resolution (Model::to_rust -> TagResolver::resolve_tag / resolve_type_tag, Extract/OpsParse.v) *)

Section TagGraph.
  Variables SS RR CC : Type.

  (* the alternatives of a CHOICE that resolve_type_tag scans: untagged ones among the root alternatives *)
  Definition choice_refs (refs : ty SS RR CC -> list str) :
    list (str * option atag * ty SS RR CC) -> nat -> list str :=
    fix go (l : list (str * option atag * ty SS RR CC)) (n : nat) {struct l} : list str :=
      match l with
      | [] => []
      | (_, tag, t0) :: r =>
          match n with
          | O => []
          | S n' => (match tag with Some _ => [] | None => refs t0 end ++ go r n')%list
          end
      end.

  (* the type names whose tag the tag of t is computed from: through OPTIONAL / DEFAULT, through the untagged
     alternatives of a CHOICE among those resolve_type_tag scans (the root alternatives: the first ext + 1, or all
     without an extension marker), an untagged type reference itself *)
  Fixpoint tag_refs (t : ty SS RR CC) : list str :=
    match t with
    | TOptional i | TDefault i _ => tag_refs i
    | TChoice vs e =>
        choice_refs tag_refs vs (match e with Some k => S (N.to_nat k) | None => length vs end)
    | TRef name None => [name]
    | _ => []
    end.

  Variable defs : list (str * asn SS RR CC).

  (* the names an UNTAGGED definition n hands the question on to (the first definition called n counts) *)
  Definition tag_succ (n : str) : list str :=
    match find (fun d => str_eqb (fst d) n) defs with
    | Some (_, (None, t, _)) => tag_refs t
    | _ => []
    end.

  Inductive tpath : str -> str -> Prop :=
  | tp_one : forall a b, In b (tag_succ a) -> tpath a b
  | tp_cons : forall a b c, In b (tag_succ a) -> tpath b c -> tpath a c.

  (* F14-1 / F09-18: untagged definitions (type references, CHOICEs through their untagged root alternatives,
     OPTIONAL / DEFAULT wrappers) whose tags are defined in terms of each other *)
  Definition Known_C14_untagged_choice_cycle : Prop := exists n, tpath n n.

  (* decidable version: is there a walk of k edges from n? a walk of S (length defs) edges visits
     S (length defs) defined names, so it repeats one *)
  Fixpoint walk_b (k : nat) (n : str) : bool :=
    match k with
    | O => true
    | S k' => existsb (walk_b k') (tag_succ n)
    end.

  Definition cyclic_b : bool := existsb (walk_b (S (length defs))) (map fst defs).

  (* the walks of the graph "n' is in tag_succ n" *)
  Definition twalk : list str -> Prop := chain str (fun a b => In b (tag_succ a)).

  Lemma tpath_inv : forall a c, tpath a c -> exists b, In b (tag_succ a) /\ (b = c \/ tpath b c).
  Proof. intros a c [a0 b H | a0 b c0 H Hp]; exists b; auto. Qed.

  Lemma tag_succ_defined : forall a b, In b (tag_succ a) -> In a (map fst defs).
  Proof.
    intros a b H. unfold tag_succ in H.
    destruct (find (fun d => str_eqb (fst d) a) defs) as [d|] eqn:E; [|destruct H].
    apply find_some in E. destruct E as [Hin He]. apply str_eqb_eq in He. subst a. apply in_map. exact Hin.
  Qed.

  (* walk_b k n: there is a walk of k edges from n *)
  Lemma walk_b_twalk : forall k n, walk_b k n = true <-> exists l, length l = k /\ twalk (n :: l).
  Proof.
    induction k as [|k IH]; intros n; cbn [walk_b]; split.
    - intros _. exists []. split; [reflexivity | constructor].
    - reflexivity.
    - intros H. apply existsb_exists in H. destruct H as [n' [Hin Hw]]. apply IH in Hw. destruct Hw as [l [Hl Hw]].
      exists (n' :: l). split; [cbn [length]; rewrite Hl; reflexivity | constructor; assumption].
    - intros [[|n' l] [Hl Hw]]; [discriminate|]. inversion Hw as [|? ? ? Hs Hw']; subst.
      apply existsb_exists. exists n'. split; [exact Hs|]. apply IH. exists l. split; [cbn [length] in Hl; lia | exact Hw'].
  Qed.

  Lemma cycle_cyclic_b : Known_C14_untagged_choice_cycle -> cyclic_b = true.
  Proof.
    intros [n H]. apply existsb_exists. exists n. split.
    - destruct (tpath_inv _ _ H) as [b [Hb _]]. exact (tag_succ_defined _ _ Hb).
    - apply walk_b_twalk. apply (to_cycle_chain _ _ tpath tpath_inv). exists n. auto.
  Qed.

  Lemma dup_twalk_cycle : forall w, twalk w -> ~ NoDup w -> Known_C14_untagged_choice_cycle.
  Proof.
    intros w H Hnd. destruct (dup_split str_dec w Hnd) as [a [l1 [l2 [l3 ->]]]].
    exists a. exact (chain_repeat _ _ tpath tp_one tp_cons _ _ _ _ H).
  Qed.

  (* every node of a walk but the last has a successor, so is defined *)
  Lemma twalk_defined : forall w, twalk w -> incl (removelast w) (map fst defs).
  Proof.
    intros w H. induction H as [n | n n' w Hs Hw IH]; [intros x []|].
    cbn [removelast]. intros x [<- | Hx]; [exact (tag_succ_defined _ _ Hs) | exact (IH x Hx)].
  Qed.

  (* a walk without repetition visits distinct defined names, except possibly the last *)
  Lemma nodup_twalk_short : forall w, twalk w -> NoDup w -> (length w <= S (length defs))%nat.
  Proof.
    intros w H Hnd. pose proof (twalk_defined _ H) as Hin.
    assert (Hne : w <> []) by (destruct H; discriminate).
    rewrite (app_removelast_last [] Hne) in Hnd |- *.
    apply NoDup_remove_1 in Hnd. rewrite app_nil_r in Hnd.
    pose proof (NoDup_incl_length Hnd Hin) as Hle. rewrite map_length in Hle. rewrite app_length. cbn [length]. lia.
  Qed.

  Lemma cyclic_b_cycle : cyclic_b = true -> Known_C14_untagged_choice_cycle.
  Proof.
    unfold cyclic_b. intros H. apply existsb_exists in H. destruct H as [n [_ Hw]].
    apply walk_b_twalk in Hw. destruct Hw as [l [Hl Hw]].
    apply (dup_twalk_cycle _ Hw). intros Hnd. pose proof (nodup_twalk_short _ Hw Hnd) as Hs. cbn [length] in Hs. lia.
  Qed.

  Theorem cyclic_b_iff : cyclic_b = true <-> Known_C14_untagged_choice_cycle.
  Proof. split; [apply cyclic_b_cycle | apply cycle_cyclic_b]. Qed.
End TagGraph.

Arguments tag_refs {SS RR CC} t.
Arguments choice_refs {SS RR CC} refs l n.
Arguments twalk {SS RR CC} defs w.

Section TagSums.
  Definition lsum {X : Type} (f : X -> nat) (l : list X) : nat := fold_right (fun x acc => (f x + acc)%nat) O l.

  Lemma lsum_cons : forall (X : Type) (f : X -> nat) x l, lsum f (x :: l) = (f x + lsum f l)%nat.
  Proof. reflexivity. Qed.

  Lemma lsum_app : forall (X : Type) (f : X -> nat) l1 l2, lsum f (l1 ++ l2) = (lsum f l1 + lsum f l2)%nat.
  Proof.
    intros X f l1 l2. induction l1 as [|x l1 IH]; [reflexivity|]. cbn [app]. rewrite !lsum_cons, IH. lia.
  Qed.

  Lemma lsum_in : forall (X : Type) (f : X -> nat) l x, In x l -> (f x <= lsum f l)%nat.
  Proof.
    intros X f. induction l as [|y l IH]; intros x H; [destruct H|]. rewrite lsum_cons.
    destruct H as [-> | H]; [lia | specialize (IH _ H); lia].
  Qed.

  Lemma ty_nodes_sequence : forall (fs : list rfield) e,
    ty_nodes (TSequence fs e) = S (lsum (fun f : rfield => ty_nodes (snd (fst (snd f)))) fs).
  Proof.
    intros fs e. cbn [ty_nodes]. f_equal. induction fs as [|[n [[tg t] d]] r IH]; [reflexivity|].
    rewrite lsum_cons, <- IH. reflexivity.
  Qed.

  Lemma ty_nodes_choice : forall (vs : list (str * option atag * rty)) e,
    ty_nodes (TChoice vs e) = S (lsum (fun v : str * option atag * rty => ty_nodes (snd v)) vs).
  Proof.
    intros vs e. cbn [ty_nodes]. f_equal. induction vs as [|[[n tg] t] r IH]; [reflexivity|].
    rewrite lsum_cons, <- IH. reflexivity.
  Qed.

  Lemma field_nodes_lt : forall (fs : list rfield) e f, In f fs ->
    (ty_nodes (snd (fst (snd f))) < ty_nodes (TSequence fs e))%nat /\
    (ty_nodes (snd (fst (snd f))) < ty_nodes (TSet fs e))%nat.
  Proof.
    intros fs e f Hin. change (ty_nodes (TSet fs e)) with (ty_nodes (TSequence fs e)). rewrite ty_nodes_sequence.
    pose proof (lsum_in _ (fun f : rfield => ty_nodes (snd (fst (snd f)))) _ _ Hin). lia.
  Qed.

  Lemma variant_nodes_lt : forall (vs : list (str * option atag * rty)) e v, In v vs ->
    (ty_nodes (snd v) < ty_nodes (TChoice vs e))%nat.
  Proof.
    intros vs e v Hin. rewrite ty_nodes_choice.
    pose proof (lsum_in _ (fun v : str * option atag * rty => ty_nodes (snd v)) _ _ Hin). lia.
  Qed.

  Definition total_nodes (ds : list (str * rasn)) : nat := lsum (fun d => ty_nodes (snd (fst (snd d)))) ds.

  Lemma total_nodes_cons : forall d ds, total_nodes (d :: ds) = (ty_nodes (snd (fst (snd d))) + total_nodes ds)%nat.
  Proof. reflexivity. Qed.

  (* fuel spent at a name: one unit in resolve_tag and, at an untagged definition, at most the nodes of its type in
     resolve_type_tag *)
  Definition tcost (ds : list (str * rasn)) (n : str) : nat :=
    S (match find (fun d => str_eqb (fst d) n) ds with
       | Some (_, (None, t, _)) => ty_nodes t
       | _ => O
       end).

  Lemma tcost_cons : forall nm tg t d ds n,
    tcost ((nm, (tg, t, d)) :: ds) n =
    if str_eqb nm n then S (match tg with None => ty_nodes t | Some _ => O end) else tcost ds n.
  Proof. intros nm tg t d ds n. unfold tcost. cbn [find fst]. destruct (str_eqb nm n); [destruct tg|]; reflexivity. Qed.

  Lemma tcost_sum : forall ds ks, NoDup ks -> (lsum (tcost ds) ks <= length ks + total_nodes ds)%nat.
  Proof.
    intros ds ks Hnd. induction ds as [|[nm [[tg t] d]] ds IH].
    - clear Hnd. induction ks as [|k ks IHk]; [reflexivity|]. rewrite lsum_cons. change (tcost [] k) with 1%nat. cbn [length]. lia.
    - (* the head definition is charged where ks holds its name: at one place at most *)
      assert (H : (lsum (tcost ((nm, (tg, t, d)) :: ds)) ks <= lsum (tcost ds) ks + count_occ str_dec ks nm * ty_nodes t)%nat).
      { clear. induction ks as [|k ks IHk]; [reflexivity|]. rewrite !lsum_cons, tcost_cons. cbn [count_occ].
        destruct (str_dec k nm) as [-> | Hk].
        - rewrite str_eqb_refl. assert (1 <= tcost ds nm)%nat by (unfold tcost; lia). destruct tg; lia.
        - destruct (str_eqb nm k) eqn:E; [apply str_eqb_eq in E; congruence | lia]. }
      pose proof (proj1 (NoDup_count_occ str_dec ks) Hnd nm). rewrite total_nodes_cons. cbn [fst snd].
      apply (Nat.le_trans _ _ _ H). nia.
  Qed.

  Lemma model_nodes : forall ds : list (str * rasn),
    fold_right (fun d acc => (ty_nodes (snd (fst (snd d))) + acc)%nat) 1%nat ds = S (total_nodes ds).
  Proof.
    induction ds as [|d ds IH]; [reflexivity|]. cbn [fold_right]. rewrite IH. rewrite total_nodes_cons. apply Nat.add_succ_r.
  Qed.
End TagSums.

Section TagTotal.
  Variable defs : list (str * rasn).

  Lemma choice_refs_in : forall (vs : list (str * option atag * rty)) n nm t0,
    In (nm, None, t0) (firstn n vs) -> incl (tag_refs t0) (choice_refs tag_refs vs n).
  Proof.
    induction vs as [|[[nm1 tg1] t1] vs IH]; intros n nm t0 H; [destruct n; destruct H|].
    destruct n as [|n]; [destruct H|]. cbn [firstn] in H. cbn [choice_refs]. fold (@choice_refs N Z literal).
    destruct H as [H | H].
    - inversion H; subst. apply incl_appl. apply incl_refl.
    - apply incl_appr. eapply IH. exact H.
  Qed.

  (* the scan of the root alternatives in resolve_type_tag *)
  Definition choice_scan (f : nat) : list (str * option atag * rty) -> option atag -> lookup (option atag) :=
    fix go (l : list (str * option atag * rty)) (best : option atag) : lookup (option atag) :=
      match l with
      | [] => Found best
      | (_, Some tg, _) :: r => go r (Some tg)
      | (_, None, t0) :: r =>
          match resolve_type_tag defs f t0 with
          | Found (Some tg) => go r (Some tg)
          | Found None => Found None
          | NotFound => Found None
          | Diverges => Diverges
          end
      end.

  Lemma resolve_type_tag_choice : forall f vs e,
    resolve_type_tag defs (S f) (TChoice vs e)
    = choice_scan f (firstn (match e with Some k => S (N.to_nat k) | None => length vs end) vs) None.
  Proof. reflexivity. Qed.

  Lemma choice_scan_nodiv : forall f l best,
    (forall nm t0, In (nm, None, t0) l -> resolve_type_tag defs f t0 <> Diverges) ->
    choice_scan f l best <> Diverges.
  Proof.
    intros f. induction l as [|[[nm tg] t0] l IH]; intros best H; [discriminate|].
    cbn [choice_scan]. fold (choice_scan f). destruct tg as [tg|].
    - apply IH. intros nm' t' Hin. eapply H. right. exact Hin.
    - specialize (H nm t0 (or_introl eq_refl)) as H0.
      destruct (resolve_type_tag defs f t0) as [[tg|]| |]; try discriminate; [|congruence].
      apply IH. intros nm' t' Hin. eapply H. right. exact Hin.
  Qed.

  (* The fuel covers the nodes of t and, beyond them, the cost of every walk of the tag graph that starts at a name t
     mentions in tag position: the recursion follows one such walk and pays tcost at each name on it.  One induction
     on the fuel serves both functions: resolve_tag at n is resolve_type_tag at the untagged reference to n. *)
  Theorem type_tag_nodiv : forall f t, (ty_nodes t <= f)%nat ->
    (forall n' w, In n' (tag_refs t) -> twalk defs (n' :: w) -> (ty_nodes t + lsum (tcost defs) (n' :: w) <= f)%nat) ->
    resolve_type_tag defs f t <> Diverges.
  Proof.
    induction f as [f IH] using lt_wf_ind. intros t Hn Hw. destruct f as [|f0]; [destruct t; cbn [ty_nodes] in Hn; lia|].
    (* a part of t with fewer nodes whose tag references are among those of t *)
    assert (Hsub : forall t', (ty_nodes t' < ty_nodes t)%nat -> incl (tag_refs t') (tag_refs t) ->
                   resolve_type_tag defs f0 t' <> Diverges).
    { intros t' Hlt Hi. apply IH; [lia | lia |]. intros n' w Hin Hwk. specialize (Hw n' w (Hi _ Hin) Hwk). lia. }
    destruct t as [ |r c|s c|s|s c| |t|t l|fs e|t s|fs e|t s|v e|vs e|n [tg|]]; try discriminate.
    - (* TString *) cbn [resolve_type_tag]. destruct c; discriminate.
    - (* TOptional *) apply Hsub; [apply Nat.lt_succ_diag_r | apply incl_refl].
    - (* TDefault *) apply Hsub; [apply Nat.lt_succ_diag_r | apply incl_refl].
    - (* TChoice *)
      rewrite resolve_type_tag_choice. apply choice_scan_nodiv. intros nm t0 Hin.
      apply Hsub; [exact (variant_nodes_lt vs e _ (in_firstn _ _ _ Hin)) | exact (choice_refs_in _ _ _ _ Hin)].
    - (* an untagged reference to n: a unit here, a unit in resolve_tag, then the type of the definition *)
      cbn [resolve_type_tag]. pose proof (Hw n [] (or_introl eq_refl) (chain_one _ _ n)) as Hc.
      cbn [ty_nodes lsum fold_right] in Hc. unfold tcost in Hc.
      destruct f0 as [|f1]; [lia|]. cbn [resolve_tag].
      destruct (find (fun d => str_eqb (fst d) n) defs) as [[nm [[[tg|] t] d]]|] eqn:E; try discriminate.
      apply IH; [lia | lia |].
      intros n' w Hin Hwk.
      assert (Hs : In n' (tag_succ _ _ _ defs n)).
      { unfold tag_succ. unfold rasn in E. rewrite E. exact Hin. }
      specialize (Hw n (n' :: w) (or_introl eq_refl) (chain_cons _ _ _ _ _ Hs Hwk)).
      rewrite lsum_cons in Hw. unfold tcost at 1 in Hw. rewrite E in Hw. cbn [ty_nodes] in Hw. lia.
  Qed.
End TagTotal.

(* without a cycle every walk is short: the fuel of the model, S (length defs) * S nodes, is enough *)
Section TagAcyclic.
  Variable defs : list (str * rasn).
  Hypothesis Hacyc : cyclic_b N Z literal defs = false.

  Lemma twalk_nodup : forall w, twalk defs w -> NoDup w.
  Proof.
    intros w H. destruct (ListDec.NoDup_dec str_dec w) as [Hnd | Hnd]; [exact Hnd|].
    exfalso. pose proof (dup_twalk_cycle _ _ _ _ _ H Hnd) as Hc. apply cyclic_b_iff in Hc. congruence.
  Qed.

  Lemma twalk_cost_bound : forall w, twalk defs w -> (lsum (tcost defs) w <= length defs + S (total_nodes defs))%nat.
  Proof.
    intros w H. pose proof (twalk_nodup _ H) as Hnd.
    pose proof (tcost_sum defs w Hnd). pose proof (nodup_twalk_short _ _ _ _ _ H Hnd). unfold rasn in *. lia.
  Qed.

  Lemma type_tag_nodiv_acyclic : forall f t, (ty_nodes t + length defs + S (total_nodes defs) <= f)%nat ->
    resolve_type_tag defs f t <> Diverges.
  Proof.
    intros f t Hf. apply type_tag_nodiv; [lia|]. intros n' w _ Hw. pose proof (twalk_cost_bound _ Hw). lia.
  Qed.

  Lemma tag_nodiv_acyclic : forall f n, (length defs + S (total_nodes defs) <= f)%nat -> resolve_tag defs f n <> Diverges.
  Proof. intros f n Hf. apply (type_tag_nodiv_acyclic (S f) (TRef n None)). cbn [ty_nodes]. lia. Qed.

  Lemma diverges_false : forall l, l <> Diverges -> diverges l = false.
  Proof. intros [a| |] H; [reflexivity | reflexivity | congruence]. Qed.

  (* any fuel that is enough for a type with as many nodes as all definitions together *)
  Variable F : nat.
  Hypothesis HF : (total_nodes defs + length defs + S (total_nodes defs) <= F)%nat.

  (* the lookup of the tag of t itself, skipped under an explicit tag *)
  Lemma here_nodiv : forall (t : rty) (tagged : bool), (ty_nodes t <= total_nodes defs)%nat ->
    (if tagged then false else diverges (resolve_type_tag defs F t)) = false.
  Proof. intros t [|] Hn; [reflexivity|]. apply diverges_false. apply type_tag_nodiv_acyclic. lia. Qed.

  (* the component / alternative loops of dtype_diverges *)
  Lemma dtype_diverges_sequence : forall fuel (fs : list rfield) e tagged,
    dtype_diverges defs fuel (TSequence fs e) tagged =
    existsb (fun f : rfield => dtype_diverges defs fuel (snd (fst (snd f)))
                                 (match fst (fst (snd f)) with Some _ => true | None => false end)) fs
    || (if tagged then false else diverges (resolve_type_tag defs fuel (TSequence fs e))).
  Proof.
    intros fuel fs e tagged. cbn [dtype_diverges]. f_equal.
    induction fs as [|[n [[tg t] d]] r IH]; [reflexivity|]. cbn [existsb fst snd]. rewrite <- IH. reflexivity.
  Qed.

  Lemma dtype_diverges_set : forall fuel (fs : list rfield) e tagged,
    dtype_diverges defs fuel (TSet fs e) tagged =
    existsb (fun f : rfield => dtype_diverges defs fuel (snd (fst (snd f)))
                                 (match fst (fst (snd f)) with Some _ => true | None => false end)) fs
    || (if tagged then false else diverges (resolve_type_tag defs fuel (TSet fs e))).
  Proof.
    intros fuel fs e tagged. cbn [dtype_diverges]. f_equal.
    induction fs as [|[n [[tg t] d]] r IH]; [reflexivity|]. cbn [existsb fst snd]. rewrite <- IH. reflexivity.
  Qed.

  Lemma dtype_diverges_choice : forall fuel (vs : list (str * option atag * rty)) e tagged,
    dtype_diverges defs fuel (TChoice vs e) tagged =
    existsb (fun v : str * option atag * rty => dtype_diverges defs fuel (snd v)
                                 (match snd (fst v) with Some _ => true | None => false end)) vs
    || (if tagged then false else diverges (resolve_type_tag defs fuel (TChoice vs e))).
  Proof.
    intros fuel vs e tagged. cbn [dtype_diverges]. f_equal.
    induction vs as [|[[n tg] t] r IH]; [reflexivity|]. cbn [existsb fst snd]. rewrite <- IH. reflexivity.
  Qed.

  (* definition_to_rust on a definition reaches only lookups that definition_type_to_rust_type on its type reaches *)
  Lemma def_le_dtype : forall fuel (a : rasn), def_diverges defs fuel a = true ->
    dtype_diverges defs fuel (snd (fst a)) (match fst (fst a) with Some _ => true | None => false end) = true.
  Proof.
    intros fuel [[tag t] d] H. cbn [fst snd]. unfold def_diverges in H.
    destruct t; try discriminate H; cbn [dtype_diverges]; rewrite H; try reflexivity; apply orb_true_r.
  Qed.

  Lemma dtype_nodiv : forall t tagged, (ty_nodes t <= total_nodes defs)%nat ->
    dtype_diverges defs F t tagged = false.
  Proof.
    induction t as [ |r c|s c|s|s c| |t IH|t l IH|fs e IH|t s IH|fs e IH|t s IH|v e|vs e IH|n tg] using ty_nested_ind;
      intros tagged Hn; try reflexivity.
    (* OPTIONAL, DEFAULT, SEQUENCE OF, SET OF: the tag of the inner type, then the inner type *)
    all: try (cbn [dtype_diverges]; apply Nat.lt_le_incl in Hn; rewrite (IH _ Hn), (here_nodiv _ _ Hn); reflexivity).
    - rewrite dtype_diverges_sequence, (here_nodiv _ _ Hn), orb_false_r. apply existsb_false.
      intros f Hin. apply (IH f Hin).
      exact (Nat.le_trans _ _ _ (Nat.lt_le_incl _ _ (proj1 (field_nodes_lt fs e f Hin))) Hn).
    - rewrite dtype_diverges_set, (here_nodiv _ _ Hn), orb_false_r. apply existsb_false.
      intros f Hin. apply (IH f Hin).
      exact (Nat.le_trans _ _ _ (Nat.lt_le_incl _ _ (proj2 (field_nodes_lt fs e f Hin))) Hn).
    - rewrite dtype_diverges_choice, (here_nodiv _ _ Hn), orb_false_r. apply existsb_false.
      intros v Hin. apply (IH v Hin).
      exact (Nat.le_trans _ _ _ (Nat.lt_le_incl _ _ (variant_nodes_lt vs e v Hin)) Hn).
    - cbn [dtype_diverges]. apply diverges_false. apply tag_nodiv_acyclic. lia.
  Qed.

  Lemma def_nodiv : forall a : rasn, (ty_nodes (snd (fst a)) <= total_nodes defs)%nat ->
    def_diverges defs F a = false.
  Proof.
    intros a Hn. apply not_true_is_false. intros H. apply def_le_dtype in H.
    rewrite (dtype_nodiv _ _ Hn) in H. discriminate.
  Qed.
End TagAcyclic.

(* no cycle: Model::to_rust's tag resolution returns (with the fuel of the executable model) *)
Theorem acyclic_to_rust_terminates : forall m : amodel rasn,
  cyclic_b N Z literal (m_definitions m) = false -> to_rust_diverges m = false.
Proof.
  intros m Hc. unfold to_rust_diverges. rewrite model_nodes. apply existsb_false. intros d Hin.
  apply def_nodiv; [exact Hc | | exact (lsum_in _ _ _ _ Hin)].
  (* the fuel of the model, S (length defs) * S (S total_nodes), is that much as soon as there is a definition *)
  destruct (m_definitions m); [destruct Hin | cbn [length]; nia].
Qed.

Theorem to_rust_total : forall m : amodel rasn,
  to_rust_diverges m = true -> Known_C14_untagged_choice_cycle N Z literal (m_definitions m).
Proof.
  intros m H. apply cyclic_b_iff. destruct (cyclic_b N Z literal (m_definitions m)) eqn:E; [reflexivity|].
  rewrite (acyclic_to_rust_terminates m E) in H. discriminate.
Qed.

(* the tag graph of the resolved model is the tag graph of the parsed model *)
Section TagTransfer.
  Variable Ms : list umodel.
  Variable M : umodel.

  Lemma variants_refs : forall vs,
    (forall v, In v vs -> forall t', resolve_ty Ms M (snd v) = ROk t' -> tag_refs t' = tag_refs (snd v)) ->
    forall vs', rmapM (resolve_variant Ms M) vs = ROk vs' ->
    length vs' = length vs /\ forall n, choice_refs tag_refs vs' n = choice_refs tag_refs vs n.
  Proof.
    intros vs IH vs' H. apply rmapM_ok_iff in H. induction H as [|[[nm tg] t0] y vs vs' Hy _ IHl].
    - split; [reflexivity | intros n; reflexivity].
    - unfold resolve_variant in Hy. cbn [fst snd] in Hy. apply rbind_ok in Hy. destruct Hy as [t0' [Ht Hy]].
      inversion Hy; subst. destruct IHl as [Hl Hc]; [intros v Hv; apply IH; right; exact Hv|].
      split; [cbn [length]; rewrite Hl; reflexivity|].
      intros [|n]; [reflexivity|]. cbn [choice_refs].
      fold (@choice_refs N Z literal) (@choice_refs (lit_or_ref N) (lit_or_ref Z) (lit_or_ref literal)).
      rewrite Hc, (IH _ (or_introl eq_refl) _ Ht). reflexivity.
  Qed.

  Lemma resolve_ty_tag_refs : forall t t', resolve_ty Ms M t = ROk t' -> tag_refs t' = tag_refs t.
  Proof.
    induction t as [ |r c|s c|s|s c| |t IH|t l IH|fs e IH|t s IH|fs e IH|t s IH|v e|vs e IH|n tg] using ty_nested_ind;
      intros t' H.
    all: try rewrite resolve_ty_sequence in H; try rewrite resolve_ty_set in H; try rewrite resolve_ty_choice in H.
    all: try destruct r as [[lo hi] ext]; cbn [resolve_ty] in H.
    all: repeat (let a := fresh "a" in let Ha := fresh "Ha" in
                 apply rbind_ok in H; destruct H as [a [Ha H]]).
    all: injection H as <-; cbn [tag_refs]; try reflexivity.
    - exact (IH _ Ha).
    - exact (IH _ Ha).
    - destruct (variants_refs _ IH _ Ha) as [Hl Hc]. rewrite Hc. destruct e; [reflexivity|]. f_equal. exact Hl.
  Qed.

  Lemma resolve_definitions_tag_succ : forall l l', resolve_definitions Ms M l = ROk l' ->
    forall n, tag_succ N Z literal l' n = tag_succ _ _ _ l n.
  Proof.
    intros l l' H n. rewrite resolve_definitions_rmapM in H. apply rmapM_ok_iff in H.
    induction H as [|[nm [[tg t] d]] y l l' Hy _ IH]; [reflexivity|].
    unfold resolve_named, resolve_asn in Hy. cbn [fst snd] in Hy.
    apply rbind_ok in Hy. destruct Hy as [a' [Ha Hy]]. inversion Hy; subst.
    apply rbind_ok in Ha. destruct Ha as [t' [Ht Ha]]. apply rbind_ok in Ha. destruct Ha as [d' [_ Ha]].
    inversion Ha; subst. unfold tag_succ in *. cbn [find fst].
    destruct (str_eqb nm n); [|exact IH].
    destruct tg; [reflexivity|]. apply resolve_ty_tag_refs. exact Ht.
  Qed.
End TagTransfer.

Lemma tpath_ext : forall (S1 R1 C1 S2 R2 C2 : Type) (d1 : list (str * asn S1 R1 C1)) (d2 : list (str * asn S2 R2 C2)),
  (forall n, tag_succ _ _ _ d1 n = tag_succ _ _ _ d2 n) ->
  forall a b, tpath _ _ _ d1 a b -> tpath _ _ _ d2 a b.
Proof.
  intros S1 R1 C1 S2 R2 C2 d1 d2 He a b H. induction H as [a b H | a b c H _ IH].
  - apply tp_one. rewrite <- He. exact H.
  - eapply tp_cons; [rewrite <- He; exact H | exact IH].
Qed.

(* the class can be read off the PARSED module *)
Theorem untagged_cycle_of_parsed : forall u r, resolve_single u = ROk r ->
  (Known_C14_untagged_choice_cycle N Z literal (m_definitions r) <->
   Known_C14_untagged_choice_cycle _ _ _ (m_definitions u)).
Proof.
  intros u r H. unfold resolve_single, resolve_model in H.
  apply rbind_ok in H. destruct H as [vals [_ H]]. apply rbind_ok in H. destruct H as [defs' [Hd H]].
  inversion H; subst. cbn [m_definitions].
  pose proof (resolve_definitions_tag_succ _ _ _ _ Hd) as He.
  split; intros [n Hn]; exists n.
  - eapply tpath_ext; [|exact Hn]. exact He.
  - eapply tpath_ext; [|exact Hn]. intros x. symmetry. apply He.
Qed.

(* the front end: tokenizer, parser, resolver, tag resolution of to_rust.  It stands here because this is the first file
   that has a totality statement for every one of the four stages.  fe_outcome keeps FeLexError, FeParsePanic and
   FeParseOutOfFuel, which never occur, so that front_end is the plain composition and front_end_total can answer False
   for them *)
Inductive fe_outcome : Type :=
| FeModel (r : amodel rasn)                       (* every stage returned *)
| FeParseError (k : N) (t : option token)
| FeResolveError (e : rerr)
| FeLexPanic (p : N)
| FeLexError (e : N)
| FeParsePanic (p : N)
| FeParseOutOfFuel
| FeResolveDiverges
| FeTagDiverges.

Definition front_end (m : mode) (s : list N) : fe_outcome :=
  match tokenize m s with
  | Panic p => FeLexPanic p
  | Err e => FeLexError e
  | Ok ts =>
      match parse ts with
      | PErr k t => FeParseError k t
      | PPanic p => FeParsePanic p
      | POutOfFuel => FeParseOutOfFuel
      | POk u =>
          match resolve_single u with
          | RErr e => FeResolveError e
          | RDiverge => FeResolveDiverges
          | ROk r => if to_rust_diverges r then FeTagDiverges else FeModel r
          end
      end
  end.

(* stated in Props/C14.v as C14_front_end_outcomes; C14_front_end_total there is its form outside the two classes *)
Theorem front_end_total : forall m s,
  match front_end m s with
  | FeModel _ | FeParseError _ _ | FeResolveError _ => True
  | FeLexPanic p => p = P_OTHER \/ (p = P_ARITH /\ overflow_checks m = true)
  | FeLexError _ | FeParsePanic _ | FeParseOutOfFuel => False
  | FeResolveDiverges =>
      exists ts u, tokenize m s = Ok ts /\ parse ts = POk u /\ Known_C14_cyclic_import [u]
  | FeTagDiverges =>
      exists ts u, tokenize m s = Ok ts /\ parse ts = POk u /\
                   Known_C14_untagged_choice_cycle _ _ _ (m_definitions u)
  end.
Proof.
  intros m s. unfold front_end. destruct (LexProofs.tokenize_outcomes m s) as [HP HE].
  destruct (tokenize m s) as [ts | e | p] eqn:Et.
  - pose proof (parse_total ts) as Hs. destruct (parse ts) as [u | k t | p |] eqn:Ep; cbn [safe] in Hs; try contradiction; [|exact I].
    pose proof (resolve_single_total u) as Hr. destruct (resolve_single u) as [r | e |] eqn:Er; [|exact I|].
    + destruct (to_rust_diverges r) eqn:Ed; [|exact I].
      exists ts, u. split; [reflexivity|]. split; [exact Ep|].
      apply (untagged_cycle_of_parsed u r Er). apply to_rust_total. exact Ed.
    + exists ts, u. split; [reflexivity|]. split; [exact Ep | exact Hr].
  - exact (HE e eq_refl).
  - exact (HP p eq_refl).
Qed.
