(* L2 rejection at every nesting depth (C06).
     [violates t v]   some position of the value that the writer actually encodes (a present
                      OPTIONAL, a DEFAULT component different from its default, a list element,
                      the selected CHOICE alternative; extension additions included) breaks a
                      NON-extensible constraint;
     [write_ty_np]    the type-level writer never panics on a value of the generated Rust type
                      (no enclosing scope): it panics only where the reference encoder does
                      ([write_enc3] of Uper/Proofs.v), and that is nowhere ([enc_np]);
     [reject_nested]  a violating value makes write_ty answer an error: not Ok (the reference
                      encoder fails, [violates_enc_fails], and the writer fails with it) and not a
                      panic.
   Also the out-of-root corollaries for extensible INTEGER / OCTET STRING constraints. *)
From A1 Require Import Uper.RejectProofs.
From A1 Require Import Uper.Proofs.
Local Open Scope N_scope.

Definition int_viol (lo hi : option Z) (ext : bool) (z : Z) : bool :=
  negb ext && ((match lo with Some l => (z <? l)%Z | None => false end) ||
               (match hi with Some h => (h <? z)%Z | None => false end)).
Definition size_viol (lo hi : option N) (ext : bool) (n : N) : bool :=
  negb ext && ((match lo with Some l => n <? l | None => false end) ||
               (match hi with Some h => h <? n | None => false end)).
Definition index_viol (std : N) (ext : bool) (i : N) : bool := negb ext && (std <=? i).
(* is this component written at all? (a DEFAULT component equal to its default is omitted): the boolean of
   [encoded] of Uper/Spec.v, and [presence k (Some x)] of Uper/Proofs.v by computation *)
Definition encodedb (k : fkind) (x : val) : bool :=
  match k with FDef d => negb (val_eqb d x) | _ => true end.

Fixpoint violates (t : ty) (v : val) {struct t} : bool :=
  match t, v with
  | TInt _ lo hi ext, VInt z => int_viol lo hi ext z
  | TStr c lo hi ext, VStr cs => find_invalid c cs || size_viol lo hi ext (N.of_nat (length cs))
  | TOctets lo hi ext, VOctets bs => size_viol lo hi ext (blen bs)
  | TBitStr lo hi ext, VBits _ n => size_viol lo hi ext n
  | TListOf e lo hi ext, VList vs =>
      size_viol lo hi ext (N.of_nat (length vs)) ||
      (fix any (vs : list val) : bool :=
         match vs with [] => false | x :: r => violates e x || any r end) vs
  | TSeq fs _ _ _, VSeq vals =>
      (fix any (fs : list (fkind * ty)) (vals : list (option val)) : bool :=
         match fs, vals with
         | (k, ft) :: fs', ov :: vals' =>
             match ov with Some x => encodedb k x && violates ft x | None => false end || any fs' vals'
         | _, _ => false
         end) fs vals
  | TChoice alts std ext, VChoice i x =>
      index_viol std ext i ||
      (fix pick (alts : list ty) (n : nat) : bool :=
         match alts, n with
         | a :: _, O => violates a x
         | _ :: r, S n' => pick r n'
         | [], _ => false
         end) alts (N.to_nat i)
  | TEnum _ std ext, VEnum i => index_viol std ext i
  | _, _ => false
  end.

(* descriptor sanity the compiler guarantees and [wf_ty] does not record: the Rust type u64 is
   chosen only for INTEGER types without a negative lower bound.  (A u64 value of 2^63 or more
   is cast to a negative i64 by the writer; with a negative lower bound the cast value could fall
   inside the range again.) *)
Definition int_kind_ok (k : ikind) (lo : option Z) : Prop :=
  match k, lo with U64, Some l => (0 <= l)%Z | _, _ => True end.
Fixpoint kinds_ok (t : ty) : Prop :=
  match t with
  | TInt k lo _ _ => int_kind_ok k lo
  | TListOf e _ _ _ => kinds_ok e
  | TSeq fs _ _ _ =>
      (fix all (fs : list (fkind * ty)) : Prop :=
         match fs with [] => True | (_, ft) :: fs' => kinds_ok ft /\ all fs' end) fs
  | TChoice alts _ _ =>
      (fix all (alts : list ty) : Prop :=
         match alts with [] => True | a :: r => kinds_ok a /\ all r end) alts
  | _ => True
  end.

Lemma ik_fits_cases k z : ik_fitsb k z = true ->
  is_i64 z \/ (k = U64 /\ (9223372036854775808 <= z < 18446744073709551616)%Z).
Proof.
  unfold ik_fitsb, is_i64. rewrite Ztwo63. intros H.
  destruct k; cbn in H; try (left; lia).
  destruct (Z_lt_le_dec z 9223372036854775808); [left; lia|right; split; [reflexivity|lia]].
Qed.

Lemma to_i64_big z : (9223372036854775808 <= z < 18446744073709551616)%Z ->
  to_i64 z = (z - 18446744073709551616)%Z.
Proof.
  intros H. unfold to_i64. rewrite u64_of_i64_nonneg by (rewrite Ztwo64; lia). unfold i64_of_u64. rewrite Ztwo64.
  destruct (N.ltb_spec (Z.to_N z) two63) as [L|L]; unfold two63 in L; lia.
Qed.

Lemma not_ok_bind' {A B} (r : res A) (f : A -> res B) :
  (forall a, r = Ok a -> is_ok (f a) = false) -> is_ok (bind r f) = false.
Proof. destruct r; cbn [bind is_ok]; auto. Qed.

Lemma not_ok_bind2 {A B C} (r1 : res A) (r2 : res B) (k : A -> B -> res C) :
  is_ok r1 = false \/ is_ok r2 = false -> is_ok (let! a := r1 in let! b := r2 in k a b) = false.
Proof. intros [H|H]; [apply not_ok_bind, H|apply not_ok_bind'; intros a _; apply not_ok_bind, H]. Qed.

Lemma size_viol_spec lo hi ext n up : size_viol lo hi ext n = true ->
  ext = false /\ (n < opt_or lo 0 \/ opt_or hi up < n).
Proof.
  unfold size_viol. destruct ext; cbn [negb andb]; [discriminate|]. intros H. split; [reflexivity|].
  destruct lo as [l|], hi as [h|]; cbn [opt_or] in *; lia.
Qed.

Lemma int_viol_reject m k lo hi ext z :
  int_kind_ok k lo -> ik_fitsb k z = true -> int_viol lo hi ext z = true ->
  ext = false /\ int_enc m lo hi ext z = Err E_VALUE_RANGE.
Proof.
  intros Hk Hz H. unfold int_viol in H. destruct ext; cbn [negb andb] in H; [discriminate H|].
  split; [reflexivity|]. unfold int_enc.
  assert (Hm : negb (is_some lo) && negb (is_some hi) = false).
  { destruct lo, hi; try reflexivity. discriminate H. }
  rewrite Hm.
  assert (Hr : (to_i64 z < opt_or lo 0 \/ opt_or hi I64_MAXz < to_i64 z)%Z).
  { destruct (ik_fits_cases k z Hz) as [Hi|[-> Hb]].
    - rewrite to_i64_id by exact Hi. destruct lo as [l|], hi as [h|]; cbn [opt_or] in *; lia.
    - rewrite to_i64_big by exact Hb. left. cbn [int_kind_ok] in Hk.
      destruct lo as [l|]; cbn [opt_or]; lia. }
  rewrite constrained_reject by exact Hr. reflexivity.
Qed.

Lemma find_invalid_utf8 cs : find_invalid Utf8 cs = false.
Proof. induction cs as [|c cs IH]; [reflexivity|]. cbn [find_invalid cs_valid negb orb]. exact IH. Qed.

Lemma violates_enc_fails m t : kinds_ok t ->
  forall v, wf_val t v -> violates t v = true -> is_ok (enc m t v) = false.
Proof.
  induction t as [| |k lo hi ext|c lo hi ext|lo hi ext|lo hi ext|e lo hi ext IH|fs so fc ea IH|alts std ext IH|vc std ext]
    using ty_ind'; intros Hko v Hv H; destruct v; try discriminate H; cbn [violates] in H.
  - cbn [wf_val] in Hv. cbn [kinds_ok] in Hko.
    destruct (int_viol_reject m _ _ _ _ _ Hko Hv H) as (-> & E).
    cbn [enc]. rewrite E. reflexivity.
  - destruct (is_Utf8_dec c) as [->|Hc].
    + rewrite find_invalid_utf8 in H. cbn [orb] in H.
      destruct (size_viol_spec _ _ _ _ U64_MAX H) as (-> & Hr). cbn [enc negb andb].
      assert ((N.of_nat (length chars) <? opt_or lo 0) || (opt_or hi U64_MAX <? N.of_nat (length chars)) = true) as -> by lia.
      reflexivity.
    + rewrite enc_str_eq by exact Hc. destruct (find_invalid c chars); [reflexivity|]. cbn [orb] in H.
      destruct (size_viol_spec _ _ _ _ U64_MAX H) as (-> & Hr). rewrite len_hdr_reject by exact Hr. reflexivity.
  - destruct (size_viol_spec _ _ _ _ I64_MAX H) as (-> & Hr). cbn [enc].
    rewrite octetstring_reject by exact Hr. reflexivity.
  - destruct (size_viol_spec _ _ _ _ I64_MAX H) as (-> & Hr). cbn [enc].
    rewrite bitstring_reject by exact Hr. reflexivity.
  - rewrite enc_list_eq. cbn [wf_val] in Hv. destruct Hv as [_ Hv].
    apply orb_true_iff in H. destruct H as [Es|H].
    + destruct (size_viol_spec _ _ _ _ I64_MAX Es) as (-> & Hr). rewrite len_hdr_reject by exact Hr. reflexivity.
    + apply not_ok_bind2. right.
      induction vs as [|x vs IHl]; [discriminate H|].
      (* [destruct] and [apply .. in] reduce an inner [fix] of [wf_val], [kinds_ok], [violates] on a cons themselves *)
      destruct Hv as [Hx Hv]. cbn [enc_elems].
      apply not_ok_bind2. apply orb_true_iff in H.
      destruct H as [Ex|H]; [left; apply IH; assumption|right; apply IHl; assumption].
  - rewrite enc_seq_eq. apply not_ok_bind.
    cbn [wf_val] in Hv. cbn [kinds_ok] in Hko.
    revert fields Hv H. induction IH as [|[k ft] fs Hft _ IHl]; intros vals Hv H; [destruct vals; discriminate H|].
    destruct vals as [|ov vals]; [discriminate H|].
    destruct Hko as [Hko1 Hko]. destruct Hv as [Hv1 Hv]. cbn [snd] in Hft.
    rewrite enc_fields_cons. apply not_ok_bind2. apply orb_true_iff in H.
    destruct H as [E1|H]; [left|right; apply IHl; assumption].
    destruct ov as [x|]; [|discriminate E1]. apply andb_true_iff in E1. destruct E1 as [Ee Ex].
    rewrite enc_field_eq. replace (presence k (Some x)) with (encodedb k x) by (destruct k; reflexivity).
    rewrite Ee. apply not_ok_bind, Hft; assumption.
  - rewrite enc_choice_eq. cbn [wf_val] in Hv. cbn [kinds_ok] in Hko.
    apply orb_true_iff in H. destruct H as [Ei|H].
    + unfold index_viol in Ei. destruct ext; [discriminate Ei|]. cbn [negb andb] in Ei.
      rewrite index_reject_nonext by lia. reflexivity.
    + apply not_ok_bind2. right. generalize dependent (N.to_nat index).
      induction IH as [|a alts Ha _ IHl]; intros n Hv H; [destruct n; discriminate H|].
      destruct Hko as [Hko1 Hko].
      destruct n as [|n]; cbn [enc_pick]; [apply Ha; assumption|apply IHl; assumption].
  - unfold index_viol in H. destruct ext; [discriminate H|]. cbn [negb andb] in H.
    cbn [enc]. rewrite index_reject_nonext by lia. reflexivity.
Qed.

Definition NP (m : mode) (t : ty) : Prop :=
  forall v w, wf_val t v -> wst_wf w -> w_scope w = None -> np (write_ty m t v w).

Lemma np_put w (r : res bits) : np r -> np (w_put w r).
Proof. destruct r; intros H; [reflexivity|reflexivity|discriminate H]. Qed.

Lemma np_ok {A} (a : A) : np (Ok a). Proof. reflexivity. Qed.
Lemma np_err {A} e : np (@Err A e). Proof. reflexivity. Qed.

Lemma np_notok_bind {A B} (r : res A) (f : A -> res B) : is_ok r = false -> np r -> np (bind r f).
Proof. destruct r; cbn [is_ok bind]; intros H1 H2; [discriminate H1|reflexivity|exact H2]. Qed.

#[local] Hint Resolve wrap_open_np : np.

Lemma len_hdr_np m ext lo hi up n : np (len_hdr m ext lo hi up n).
Proof. unfold len_hdr. auto 6 with np. Qed.
#[local] Hint Resolve len_hdr_np : np.

Lemma wf_val_shape t v : wf_val t v -> shape t v = true.
Proof. destruct t, v; cbn [wf_val shape]; try reflexivity; intros []. Qed.

Lemma enc_flat_np m t v : wf_val t v ->
  match t with TListOf _ _ _ _ | TSeq _ _ _ _ | TChoice _ _ _ => True | _ => np (enc m t v) end.
Proof.
  intros Hv. pose proof (wf_val_shape t v Hv) as Hs.
  destruct t as [| |k lo hi ext|c lo hi ext|lo hi ext|lo hi ext|e lo hi ext|fs so fc ea|alts std ext|vc std ext];
    try exact I; destruct v; try discriminate Hs.
  4: destruct (is_Utf8_dec c) as [->|Hc]; [|rewrite enc_str_eq by exact Hc].
  all: cbn [enc]; unfold int_enc; auto with np.
Qed.

(* From here to [wcontent_astate], and [np_put] .. [np_notok_bind] above: no-panic facts about the pieces of the
   writer, each a statement in its own right.  [write_ty_np] does not go through them: it follows from [write_enc3]
   and [enc_np]. *)
(* a successful run from a scope-free writer ends in a scope-free, consistent writer *)
Lemma wprop_ok_inv m t v w w' : Wprop m t -> wst_wf w -> w_scope w = None ->
  write_ty m t v w = Ok w' -> wst_wf w' /\ w_scope w' = None.
Proof.
  intros HW Hw Hs H. pose proof (HW v w Hw Hs) as S. unfold wsim in S.
  destruct (enc m t v) as [b| |]; try (rewrite H in S; discriminate S).
  rewrite S in H. injection H as <-. split; [apply w_append_wf; exact Hw|exact Hs].
Qed.

Lemma welems_np m e : Wprop m e -> NP m e ->
  forall vs w, all_wf_val e vs -> wst_wf w -> w_scope w = None -> np (welems m e vs w).
Proof.
  intros HW HN. induction vs as [|x vs IHl]; intros w Hv Hw Hs; cbn [welems]; [reflexivity|].
  cbn [all_wf_val] in Hv. destruct Hv as [Hx Hv].
  apply np_bind; [apply HN; assumption|]. intros w' E.
  destruct (wprop_ok_inv m e x w w' HW Hw Hs E) as [Hw' Hs']. apply IHl; assumption.
Qed.

Lemma wpick_np m x w : wst_wf w -> w_scope w = None ->
  forall alts, Forall (NP m) alts -> forall i, pick_wf x alts i -> np (wpick m x w alts i).
Proof.
  intros Hw Hs. induction alts as [|a alts IHl]; intros F i Hv; [destruct i; contradiction Hv|].
  apply Forall_cons_iff in F. destruct F as [Ha F].
  destruct i as [|i]; cbn [wpick pick_wf] in *; [apply Ha; assumption|apply IHl; assumption].
Qed.

(* after the bit-field entry a value is written in place or into an open type: either way by
   [write_ty] from a writer without scope *)
Lemma wbody_np m ft x wr w1 : NP m ft -> wf_val ft x -> wst_wf w1 -> np (wbody m ft x wr w1).
Proof.
  intros HN Hx Hw1. unfold wbody. destruct (wopen w1 && wr).
  - apply np_bind'; [apply HN; [exact Hx|exact w_empty_wf|reflexivity]|]. intros sub. apply np_put, wrap_open_np.
  - apply np_bind'; [apply HN; [exact Hx|exact Hw1|reflexivity]|intros; reflexivity].
Qed.

Lemma content_np m ft x w1 : NP m ft -> wf_val ft x -> wst_wf w1 ->
  np (with_buffer m w1 (fun w => scope_stashed w (fun w => write_ty m ft x w))).
Proof. intros HN Hx Hw1. rewrite stashed_content. apply wbody_np; assumption. Qed.

Lemma req_np m ft x w : NP m ft -> wf_val ft x -> wst_wf w ->
  np (write_bit_field_entry m w false true) -> np (write_ty m ft x w).
Proof.
  intros HN Hx Hw He. rewrite (write_ty_factor m ft x w (wf_val_shape _ _ Hx)).
  apply np_bind; [exact He|]. intros w1 E1. apply wbody_np; [exact HN|exact Hx|exact (entry_ok_wf m w _ _ w1 Hw E1)].
Qed.

(* the equation of the same name in Uper/Proofs.v, read from its result *)
Lemma wcontent_astate m wr w0 Pre k P b w' :
  wcontent m wr (astate w0 Pre k P) b = Ok w' -> exists y, w' = astate w0 Pre k (P ++ y).
Proof.
  rewrite Proofs.wcontent_astate. destruct (if wr then wrap_open m b else Ok b) as [y| |]; try discriminate.
  intros H. injection H as <-. exists y. reflexivity.
Qed.

Lemma add_payloads_np m : forall fs fes, np (add_payloads m fs fes).
Proof. induction fs as [|[k ft] fs IH]; intros [|[p b] fes]; cbn [add_payloads]; auto with np. Qed.
#[local] Hint Resolve add_payloads_np : np.

Lemma ext_part_np m afs afe : np (ext_part m afs afe).
Proof. unfold ext_part. destruct afe as [|[p1 b1] rest]; auto 6 with np. Qed.
#[local] Hint Resolve ext_part_np : np.

Lemma seq_assemble_np m fs fes ea : np (seq_assemble m fs fes ea).
Proof. unfold seq_assemble. destruct ea as [e|]; auto with np. Qed.

(* the reference encoder is defined (a result or an error) on every value of the type *)
Lemma enc_np m t : forall v, wf_val t v -> np (enc m t v).
Proof.
  induction t as [| |k lo hi ext|c lo hi ext|lo hi ext|lo hi ext|e lo hi ext IH|fs so fc ea IH|alts std ext IH|vc std ext]
    using ty_ind'; intros v Hv; destruct v; try contradiction Hv.
  1-6,10: exact (enc_flat_np m _ _ Hv).
  - cbn [wf_val] in Hv. destruct Hv as [_ Hv].
    assert (He : np (enc_elems m e vs)).
    { induction vs as [|x vs IHl]; [reflexivity|]. destruct Hv as [Hx Hv]. cbn [enc_elems]. auto 6 with np. }
    rewrite enc_list_eq. auto 6 with np.
  - cbn [wf_val] in Hv. rewrite enc_seq_eq. apply np_bind'; [|intros; apply seq_assemble_np].
    revert fields Hv. induction IH as [|[k ft] fs Hft _ IHl]; intros vals Hv; [reflexivity|].
    destruct vals as [|ov vals]; [contradiction Hv|]. destruct Hv as [Hv1 Hv].
    cbn [snd] in Hft. rewrite enc_fields_cons.
    assert (Hf : np (enc_field m (k, ft) ov)).
    { destruct k as [| |d], ov as [x|]; cbn [enc_field]; try discriminate Hv1; auto with np. }
    auto 6 with np.
  - cbn [wf_val] in Hv.
    assert (Hp : np (enc_pick m v alts (N.to_nat index))).
    { generalize dependent (N.to_nat index).
      induction IH as [|a alts Ha _ IHl]; intros n Hv; [destruct n; contradiction Hv|].
      destruct n as [|n]; cbn [enc_pick]; [apply Ha, Hv|apply IHl, Hv]. }
    rewrite enc_choice_eq. auto 7 with np.
Qed.

(* the writer agrees with [enc] three ways (Uper/Proofs.v): it panics only where [enc] does *)
Theorem write_ty_np m t : wf_ty t -> NP m t.
Proof.
  intros Hty v w Hv Hw Hs.
  pose proof (write_enc3 m t Hty v w Hw Hs) as S. pose proof (enc_np m t v Hv) as N. unfold wsim3, sim3 in S.
  destruct (enc m t v); [rewrite S; reflexivity|destruct S as [e' ->]; reflexivity|discriminate N].
Qed.

Lemma violates_enc_err m t v : kinds_ok t -> wf_val t v -> violates t v = true -> exists e, enc m t v = Err e.
Proof.
  intros Hk Hv H. pose proof (violates_enc_fails m t Hk v Hv H) as F. pose proof (enc_np m t v Hv) as N.
  destruct (enc m t v) as [b|e|p]; [discriminate F|exists e; reflexivity|discriminate N].
Qed.

Theorem reject_nested m t v w :
  wf_ty t -> kinds_ok t -> wf_val t v -> wst_wf w -> w_scope w = None ->
  violates t v = true -> exists e, write_ty m t v w = Err e.
Proof.
  intros Hty Hk Hv Hw Hs H. destruct (violates_enc_err m t v Hk Hv H) as [e E].
  pose proof (write_enc3 m t Hty v w Hw Hs) as S. unfold wsim3 in S. rewrite E in S. exact S.
Qed.

(* inside any enclosing scope: never Ok; an error as soon as the bit-field entry of the
   enclosing scope does not panic *)
Theorem reject_nested_in_scope m t v w :
  wf_ty t -> kinds_ok t -> wf_val t v -> wst_wf w -> violates t v = true ->
  is_ok (write_ty m t v w) = false /\
  (np (write_bit_field_entry m w false true) -> exists e, write_ty m t v w = Err e).
Proof.
  intros Hty Hk Hv Hw H. destruct (violates_enc_err m t v Hk Hv H) as [e E].
  destruct (write_bit_field_entry m w false true) as [w1|e1|p] eqn:E1.
  - pose proof (write_enc_in_scope m t v w w1 Hty Hw (wf_val_shape _ _ Hv) E1) as S.
    rewrite E in S. destruct S as [e' ->]. split; [reflexivity|intros _; exists e'; reflexivity].
  - rewrite (write_ty_factor m t v w (wf_val_shape _ _ Hv)), E1.
    split; [reflexivity|intros _; exists e1; reflexivity].
  - rewrite (write_ty_factor m t v w (wf_val_shape _ _ Hv)), E1.
    split; [reflexivity|intros C; discriminate C].
Qed.

(* never a wrong encoding: whatever the writer accepts decodes to the value itself *)
Theorem no_other_value m t v w w' :
  wf_ty t -> wf_val t v -> ~ Known_C01 m t v -> wst_wf w -> w_scope w = None ->
  write_ty m t v w = Ok w' ->
  exists bs, w_bits w' = w_bits w ++ bs /\
    forall s tail v' r', rsrc s bs tail -> read_ty m t (r_of_src s) = Ok (v', r') -> v' = v.
Proof.
  intros Hty Hv Hk Hw Hs H.
  destruct (roundtrip m t v w w' Hty Hv Hk Hw Hs H) as (bs & Hb & _ & _ & Hr).
  exists bs. split; [exact Hb|]. intros s tail v' r' Hsrc E. rewrite (Hr s tail Hsrc) in E. congruence.
Qed.

(* extensible constraints: an out-of-root value is written in the extension form (leading
   extension bit 1) and reads back *)
Lemma ext_int_out_of_root m k lo hi z w :
  wf_ty (TInt k lo hi true) -> ik_fitsb k z = true -> is_i64 z ->
  (z < opt_or lo 0 \/ opt_or hi I64_MAXz < z)%Z -> wst_wf w -> w_scope w = None ->
  exists bs, write_ty m (TInt k lo hi true) (VInt z) w = Ok (w_append w (true :: bs)) /\
    forall s tail, rsrc s (true :: bs) tail ->
      read_ty m (TInt k lo hi true) (r_of_src s)
      = Ok (VInt z, r_of_src (src_adv s (bl (true :: bs)) tail)).
Proof.
  intros Hty Hz Hi Hr Hw Hs.
  assert (E : enc m (TInt k lo hi true) (VInt z) = Ok (true :: x_unconstrained z)).
  { cbn [enc]. unfold int_enc. rewrite to_i64_id by exact Hi.
    assert (((z <? opt_or lo 0) || (opt_or hi I64_MAXz <? z))%Z = true) as -> by lia.
    rewrite unconstrained_write by exact Hi. reflexivity. }
  exists (x_unconstrained z). split.
  - rewrite write_flat_eq, E by (reflexivity || exact Hs). reflexivity.
  - intros s tail Hsrc. apply (read_enc m _ Hty (VInt z) _ E Hz (fun C => C) s tail Hsrc).
Qed.

Lemma ext_octets_out_of_root m lo hi bytes w :
  wf_ty (TOctets lo hi true) -> wf_val (TOctets lo hi true) (VOctets bytes) ->
  blen bytes < opt_or lo 0 \/ opt_or hi I64_MAX < blen bytes -> wst_wf w -> w_scope w = None ->
  exists bs, write_ty m (TOctets lo hi true) (VOctets bytes) w = Ok (w_append w (true :: bs)) /\
    forall s tail, rsrc s (true :: bs) tail ->
      read_ty m (TOctets lo hi true) (r_of_src s)
      = Ok (VOctets bytes, r_of_src (src_adv s (bl (true :: bs)) tail)).
Proof.
  intros Hty Hv Hr Hw Hs. pose proof Hv as Hv'. cbn [wf_val] in Hv'. destruct Hv' as [_ Hlen].
  assert (Hn : blen bytes < two63) by (unfold SIZE_LIMIT in Hlen; unfold two63; lia).
  destruct (octetstring_write_ext m lo hi bytes Hn Hr) as [E _]. cbv zeta in E.
  eexists. split.
  - rewrite write_flat_eq by (reflexivity || exact Hs). cbn [enc]. rewrite E. reflexivity.
  - intros s tail Hsrc. apply (read_enc m _ Hty (VOctets bytes) _ E Hv); [|exact Hsrc].
    cbn [Known_C01]. intros [_ C]. lia.
Qed.

(* SEQUENCE { a INTEGER(0..7), b SEQUENCE OF SEQUENCE { c IA5String(SIZE(1..3)) OPTIONAL } } *)
Definition ex6_inner : ty := TSeq [(FOpt, TStr Ia5 (Some 1) (Some 3) false)] 1 1 None.
Definition ex6_ty : ty :=
  TSeq [(FReq, TInt U8 (Some 0%Z) (Some 7%Z) false); (FReq, TListOf ex6_inner None None false)] 0 2 None.
(* the third list element carries a 4-character string: seq -> list -> seq -> string *)
Definition ex6_bad : val :=
  VSeq [Some (VInt 3); Some (VList [VSeq [Some (VStr [65])]; VSeq [None]; VSeq [Some (VStr [65; 66; 67; 68])]])].
Definition ex6_good : val :=
  VSeq [Some (VInt 3); Some (VList [VSeq [Some (VStr [65])]; VSeq [None]; VSeq [Some (VStr [65; 66; 67])]])].

Lemma scalar_small c : c < 55296 -> scalar c. Proof. intros H; left; exact H. Qed.

Lemma nonvacuous_nested :
  wf_ty ex6_ty /\ kinds_ok ex6_ty /\ wf_val ex6_ty ex6_bad /\ wf_val ex6_ty ex6_good /\
  violates ex6_ty ex6_bad = true /\ violates ex6_ty ex6_good = false /\
  write_ty dev_mode ex6_ty ex6_bad w_empty = Err E_SIZE_RANGE /\
  write_ty release_mode ex6_ty ex6_bad w_empty = Err E_SIZE_RANGE /\
  is_ok (write_ty dev_mode ex6_ty ex6_good w_empty) = true.
Proof.
  split; [vm_compute; repeat split; try discriminate; try reflexivity|].
  split; [cbn; tauto|].
  split; [|split].
  - cbn [wf_val ex6_ty ex6_bad ex6_inner]. repeat split; try reflexivity;
      repeat (apply Forall_cons; [apply scalar_small; reflexivity|]); apply Forall_nil.
  - cbn [wf_val ex6_ty ex6_good ex6_inner]. repeat split; try reflexivity;
      repeat (apply Forall_cons; [apply scalar_small; reflexivity|]); apply Forall_nil.
  - vm_compute. repeat split.
Qed.

(* [violates] is tight: a DEFAULT component equal to its default is not encoded, so its value is
   not inspected (here the default itself lies outside 0..7); any other violating value is refused *)
Definition ex6d_ty : ty := TSeq [(FDef (VInt 9), TInt U8 (Some 0%Z) (Some 7%Z) false)] 1 1 None.

Lemma violates_tight :
  wf_ty ex6d_ty /\ kinds_ok ex6d_ty /\
  wf_val ex6d_ty (VSeq [Some (VInt 9)]) /\ violates ex6d_ty (VSeq [Some (VInt 9)]) = false /\
  write_ty dev_mode ex6d_ty (VSeq [Some (VInt 9)]) w_empty = Ok (w_append w_empty [false]) /\
  wf_val ex6d_ty (VSeq [Some (VInt 8)]) /\ violates ex6d_ty (VSeq [Some (VInt 8)]) = true /\
  write_ty dev_mode ex6d_ty (VSeq [Some (VInt 8)]) w_empty = Err E_VALUE_RANGE.
Proof.
  split; [vm_compute; repeat split; try discriminate; try reflexivity|].
  split; [cbn; tauto|].
  repeat split; vm_compute; reflexivity.
Qed.

(* [kinds_ok] is needed: a (never generated) descriptor pairing u64 with a negative lower bound
   accepts the u64 value 2^64 - 1, which the writer casts to -1 *)
Lemma kinds_ok_needed :
  let t := TInt U64 (Some (-5)%Z) (Some 10%Z) false in
  let v := VInt 18446744073709551615 in
  wf_ty t /\ wf_val t v /\ ~ kinds_ok t /\ violates t v = true /\
  is_ok (write_ty dev_mode t v w_empty) = true.
Proof.
  cbv zeta. split; [vm_compute; repeat split; discriminate|]. split; [reflexivity|].
  split; [cbn; lia|]. split; reflexivity.
Qed.
