(* C19: erasing the diagnostics log from the reader of the feature build (Uper/ReaderD.v) gives the
   reader of the default build (Uper/Reader.v): same Ok value, same error kind, same panic class, and
   the same cursor / declared length / scope afterwards.  Every cfg-gated statement is a log-only update. *)
From A1 Require Export Uper.ReaderD.
From A1 Require Import Uper.TyInd.
Local Open Scope N_scope.

Definition er {A} (x : dres A) : res (A * rst) :=
  match x with DOk a r => Ok (a, erase r) | DErr e _ => Err e | DPanic p => Panic p end.
(* [x] (feature build) and [y] (default build) agree up to the log *)
Definition sim {A} (x : dres A) (y : res (A * rst)) : Prop := er x = y.

Lemma erase_push r c : erase (push r c) = erase r.
Proof. reflexivity. Qed.

Lemma sim_bind {A B} (x : dres A) (y : res (A * rst)) (k : A -> rstd -> dres B) (k' : A * rst -> res (B * rst)) :
  sim x y -> (forall a r, sim (k a r) (k' (a, erase r))) -> sim (dbind x k) (bind y k').
Proof. unfold sim; intros Hx Hk; subst y. destruct x as [a r|e l|p]; cbn [dbind er bind]; auto. Qed.

Lemma sim_after {A} c (x : dres A) y : sim x y -> sim (d_after c x) y.
Proof. unfold sim; intros Hx; subst y. destruct x; reflexivity. Qed.

Lemma sim_pure_bind {A B} r (x : res A) (k : A -> rstd -> dres B) (k' : A -> res (B * rst)) :
  (forall a, sim (k a r) (k' a)) -> sim (dbind (d_pure r x) k) (bind x k').
Proof. intros Hk. destruct x as [a|e|p]; cbn [d_pure dbind bind]; [apply Hk|reflexivity|reflexivity]. Qed.

Lemma sim_run {A} r (f : rst -> res (A * rst)) : sim (d_run r f) (f (erase r)).
Proof. unfold sim, d_run, erase. destruct (f (rd_st r)) as [[a r']| |]; reflexivity. Qed.

Lemma sim_get {A} r (f : src -> res (A * src)) : sim (d_get r f) (r_get (erase r) f).
Proof. exact (sim_run r (fun r0 => r_get r0 f)). Qed.

(* read_length_determinant / read_enumeration_index / read_choice_index: an L1 read, then a push *)
Lemma sim_after_get {A} c r (f : src -> res (A * src)) : sim (d_after c (d_get r f)) (r_get (erase r) f).
Proof. apply sim_after, sim_get. Qed.

(* [read_from_field_d] and the entry call answer in [res]; [d_of_st] makes a [dres] of that *)
Lemma sim_st_run {X} r0 rd (x : res (X * rst)) : sim (d_of_st r0 (st_run rd x)) x.
Proof. destruct x as [[a r]| |]; reflexivity. Qed.

Lemma sim_from_field m r sc o :
  sim (d_of_st r (read_from_field_d m r sc o)) (read_from_field m (erase r) sc o).
Proof.
  unfold read_from_field_d, read_from_field, erase.
  destruct sc as [a b|a b|bp opt calls nx|]; try apply sim_st_run.
  destruct (calls =? 0).
  - destruct (bit_at (rd_st r) bp) as [[ext|e]| |]; cbn [bind]; try reflexivity.
    destruct ext; [|apply sim_st_run].
    destruct (r_normally_small m (r_src (rd_st r))) as [[n s]| |]; try reflexivity.
    cbv zeta. destruct (nx <? N.min (n + 1) (two64 - 1)); apply sim_st_run.
  - destruct opt as [[a b]|]; [destruct o|]; try reflexivity.
    destruct (bit_at (rd_st r) a) as [x| |]; reflexivity.
Qed.

Lemma sim_rbfe_st m r o :
  sim (d_of_st r (read_bit_field_entry_st_d m r o)) (read_bit_field_entry_st m (erase r) o).
Proof.
  unfold read_bit_field_entry_st_d, read_bit_field_entry_st.
  change (r_scope (erase r)) with (r_scope (rd_st r)).
  destruct (r_scope (rd_st r)) as [sc|].
  - rewrite <- (sim_from_field m r sc o).
    destruct (read_from_field_d m r sc o) as [[x r']| |]; reflexivity.
  - destruct o; [|reflexivity]. unfold erase.
    destruct (r_bit (r_src (rd_st r))) as [[b s]| |]; reflexivity.
Qed.

Lemma sim_rbfe m r o : sim (read_bit_field_entry_d m r o) (read_bit_field_entry m (erase r) o).
Proof.
  unfold read_bit_field_entry_d, read_bit_field_entry.
  apply sim_bind; [apply sim_rbfe_st|].
  intros [ob|e] r'; reflexivity.
Qed.

Lemma sim_pushed {A} m r sc (f : rstd -> dres A) (f' : rst -> res (A * rst)) :
  (forall r, sim (f r) (f' (erase r))) -> sim (rscope_pushed_d m r sc f) (rscope_pushed m (erase r) sc f').
Proof.
  intros Hf. unfold rscope_pushed_d, rscope_pushed.
  apply sim_bind; [apply (Hf (rd_set_scope r (Some sc)))|].
  intros a r'; cbn beta iota. change (r_scope (erase r')) with (r_scope (rd_st r')).
  destruct (debug_asserts m && _); reflexivity.
Qed.

Lemma sim_stashed {A} r (f : rstd -> dres A) (f' : rst -> res (A * rst)) :
  (forall r, sim (f r) (f' (erase r))) -> sim (rscope_stashed_d r f) (rscope_stashed (erase r) f').
Proof.
  intros Hf. unfold rscope_stashed_d, rscope_stashed.
  apply sim_bind; [apply (Hf (rd_set_scope r None))|].
  intros a r'; reflexivity.
Qed.

Lemma sim_sub_slice {A} m r len (f : rstd -> dres A) (f' : rst -> res (A * rst)) :
  (forall r, sim (f r) (f' (erase r))) ->
  sim (read_whole_sub_slice_d m r len f) (read_whole_sub_slice m (erase r) len f').
Proof.
  intros Hf. unfold read_whole_sub_slice_d, read_whole_sub_slice.
  apply sim_pure_bind; intros lb.
  apply sim_pure_bind; intros wp.
  apply sim_bind; [apply sim_after, Hf|].
  intros a r'; reflexivity.
Qed.

Lemma sim_with_buffer {A} m r (f : rstd -> dres A) (f' : rst -> res (A * rst)) :
  (forall r, sim (f r) (f' (erase r))) -> sim (rwith_buffer_d m r f) (rwith_buffer m (erase r) f').
Proof.
  intros Hf. unfold rwith_buffer_d, rwith_buffer.
  change (r_scope (erase r)) with (r_scope (rd_st r)).
  destruct (match r_scope (rd_st r) with Some s => encode_as_open_type_field s | None => false end); [|apply Hf].
  apply sim_bind; [apply sim_after_get|].
  intros len r1. apply sim_sub_slice, Hf.
Qed.

Lemma sim_len_ext m r ext lo hi :
  sim (read_len_ext_d m r ext lo hi) (read_len_ext m (erase r) ext lo hi).
Proof.
  unfold read_len_ext_d, read_len_ext. destruct ext; [|apply sim_after_get].
  apply sim_bind; [apply sim_get|]. intros [|] r1; apply sim_after_get.
Qed.

Ltac leaf :=
  first [ apply sim_rbfe | apply sim_get | apply sim_len_ext | apply sim_after_get | apply sim_run | reflexivity ].

Theorem read_ty_erase : forall m t r, sim (read_ty_dl m t r) (read_ty m t (erase r)).
Proof.
  intros m t. induction t as [| |k lo hi ext|c lo hi ext|lo hi ext|lo hi ext|e lo hi ext IHe
                              |fs so fc ea IHfs|alts std ext IHalts|vc std ext] using ty_ind'; intros r.
  - (* BOOLEAN *)
    cbn [read_ty_dl read_ty]. apply sim_bind; [apply (sim_rbfe m (push r L_BOOLEAN))|]. intros _ r1.
    apply sim_after, sim_with_buffer. intros r2. apply sim_bind; [leaf|]. intros b r3. leaf.
  - (* NULL *)
    cbn [read_ty_dl read_ty]. apply sim_bind; [leaf|]. intros _ r1.
    apply sim_with_buffer. intros r2. leaf.
  - (* INTEGER *)
    cbn [read_ty_dl read_ty]. apply sim_bind; [apply (sim_rbfe m (push r L_NUMBER))|]. intros _ r1.
    apply sim_with_buffer. intros r2.
    apply sim_bind; [destruct ext; leaf|]. intros unc r3.
    apply sim_after, sim_bind; [destruct unc; leaf|]. intros z r4. leaf.
  - (* character strings: the known-multiplier kinds differ in the character width and decoding only *)
    destruct c; cbn [read_ty_dl read_ty].
    all: apply sim_bind; [apply (sim_rbfe m (push r _))|]; intros _ r1; apply sim_after, sim_with_buffer; intros r2.
    1:{ apply sim_bind; [leaf|]. intros bs r3.
        apply (sim_pure_bind r3 (from_utf8 (bytes_of_bits bs))). intros v. leaf. }
    all: apply sim_bind; [leaf|]; intros len r3.
    all: apply (sim_pure_bind r3 (alloc len)); intros _; cbn zeta.
    all: apply sim_bind; [apply (sim_run r3)|]; intros codes r4; cbn beta iota.
    all: change (rd_st r3) with (erase r3).
    all: destruct (_ <? len); [reflexivity|].
    all: apply (sim_pure_bind r4); intros v; leaf.
  - (* OCTET STRING *)
    cbn [read_ty_dl read_ty]. apply sim_bind; [apply (sim_rbfe m (push r L_OCTET))|]. intros _ r1.
    apply sim_after, sim_with_buffer. intros r2. apply sim_bind; [leaf|]. intros bs r3. leaf.
  - (* BIT STRING *)
    cbn [read_ty_dl read_ty]. apply sim_bind; [apply (sim_rbfe m (push r L_BITSTR))|]. intros _ r1.
    apply sim_after, sim_with_buffer. intros r2. apply sim_bind; [leaf|]. intros [[bs bl] buflen] r3. leaf.
  - (* SEQUENCE OF *)
    cbn [read_ty_dl read_ty]. apply sim_bind; [apply (sim_rbfe m (push r L_SEQUENCE_OF))|]. intros _ r1.
    apply sim_with_buffer. intros r2.
    apply sim_bind; [leaf|]. intros len r3. cbn beta iota.
    destruct (0 <? len); [|leaf].
    apply sim_stashed. intros r4.
    apply (sim_pure_bind r4 (alloc (len * 64))). intros _. cbn zeta.
    change (rd_st r4) with (erase r4).
    generalize (N.to_nat (if LOOP_LIMIT <? len then N.min len (s_len (r_src (erase r4)) - s_pos (r_src (erase r4)) + 2) else len)).
    generalize (LOOP_LIMIT <? len) as big. intros big n.
    generalize (@nil val) as acc. revert r4.
    induction n as [|n IHn]; intros r4 acc.
    + destruct big; reflexivity.
    + apply sim_bind; [apply IHe|]. intros x r5. cbn beta iota.
      change (rd_st r5) with (erase r5). change (rd_st r4) with (erase r4).
      destruct (big && _); [reflexivity|]. apply IHn.
  - (* SEQUENCE *)
    cbn [read_ty_dl read_ty].
    apply sim_bind; [apply (sim_rbfe_st m (push r L_SEQUENCE))|]. intros _ r1.
    apply sim_after, sim_with_buffer. intros r2.
    apply sim_bind; [destruct ea; leaf|]. intros ext r3. cbn beta iota.
    apply (sim_pure_bind r3). intros rem.
    destruct (rem <? so); [reflexivity|].
    apply (sim_pure_bind r3). intros stop. cbn zeta.
    (* the field walk *)
    set (walk_d := fix fields (fs0 : list (fkind * ty)) (r0 : rstd) (acc : list (option val)) {struct fs0} : dres val := _).
    set (walk := fix fields (fs0 : list (fkind * ty)) (r0 : rst) (acc : list (option val)) {struct fs0} : res (val * rst) := _).
    assert (Hwalk : forall fs0, Forall (fun f => forall r, sim (read_ty_dl m (snd f) r) (read_ty m (snd f) (erase r))) fs0 ->
              forall r0 acc, sim (walk_d fs0 r0 acc) (walk fs0 (erase r0) acc)).
    { induction fs0 as [|[fk ft] fs' IHfs']; intros IH r0 acc; [reflexivity|].
      inversion IH as [|? ? Hft Hrest]; subst. cbn [snd] in Hft. specialize (IHfs' Hrest).
      destruct fk as [| |d]; [apply sim_bind; [apply Hft|]; intros x r5; apply IHfs'| |].
      (* OPTIONAL and DEFAULT take the same steps *)
      all: cbn zeta; apply sim_bind; [apply (sim_rbfe m (push r0 _))|]; intros [[|]|] r5; cbn beta iota; [|apply IHfs'|reflexivity].
      all: apply sim_bind; [|intros x r6; apply IHfs'].
      all: apply sim_with_buffer; intros r6; apply sim_stashed; intros r7; apply Hft. }
    specialize (Hwalk fs IHfs).
    destruct ea as [ea|]; [destruct ext|].
    + apply sim_pure_bind. intros nx.
      apply sim_pushed. intros r4.
      apply sim_bind; [apply Hwalk|]. intros v r5. cbn beta iota.
      unfold sim, d_run; cbn beta. change (rd_st r5) with (erase r5).
      destruct (skip_unknown_extension_additions m (erase r5)) as [r6| |]; reflexivity.
    + apply sim_pushed. intros r4. apply Hwalk.
    + apply sim_pushed. intros r4. apply Hwalk.
  - (* CHOICE *)
    cbn [read_ty_dl read_ty].
    apply sim_bind; [apply (sim_rbfe m (push r L_CHOICE))|]. intros _ r1.
    apply sim_after, sim_stashed. intros r2.
    apply sim_bind; [leaf|]. intros index r3. cbn beta iota.
    set (content_d := fun r0 : rstd => if _ <=? index then DOk None r0 else _).
    set (content := fun r0 : rst => if _ <=? index then Ok (None, r0) else _).
    assert (Hcontent : forall r0, sim (content_d r0) (content (erase r0))).
    { intros r0. subst content_d content. cbv beta. destruct (_ <=? index); [reflexivity|].
      generalize (N.to_nat index) as i. clear r r1 r2 r3.
      induction alts as [|a alts' IHa]; intros i; [destruct i; reflexivity|].
      inversion IHalts as [|? ? Ha Hrest]; subst.
      destruct i as [|i'].
      - apply sim_bind; [apply Ha|]. intros x r. reflexivity.
      - apply IHa, Hrest. }
    cbv zeta. destruct (std <=? index).
    + rewrite bind_assoc. apply sim_bind; [leaf|]. intros len r4.
      apply sim_after, sim_bind; [apply sim_sub_slice, Hcontent|].
      intros [v|] r5; reflexivity.
    + apply sim_bind; [apply Hcontent|]. intros [v|] r4; reflexivity.
  - (* ENUMERATED *)
    cbn [read_ty_dl read_ty].
    apply sim_bind; [apply (sim_rbfe m (push r L_ENUMERATED))|]. intros _ r1.
    apply sim_after, sim_bind; [apply sim_with_buffer; intros r2; leaf|]. intros index r2. cbn beta iota zeta.
    destruct (vc <=? index), (index <? vc); reflexivity.
Qed.

Lemma erasure : forall m t r,
  match read_ty_d m t r with
  | Ok (v, r') => read_ty m t (erase r) = Ok (v, erase r')
  | Err e => read_ty m t (erase r) = Err e
  | Panic p => read_ty m t (erase r) = Panic p
  end.
Proof.
  intros m t r. pose proof (read_ty_erase m t r) as H. unfold sim in H. unfold read_ty_d.
  destruct (read_ty_dl m t r) as [v r'|e l|p]; cbn [er] in H; symmetry; exact H.
Qed.

(* whatever the log holds when a read starts, the default build's answer is the erased answer of the
   feature build (the log is never an input of the decoding) *)
Lemma erasure_any_log : forall m t r0 l,
  read_ty m t r0 = er (read_ty_dl m t {| rd_st := r0; r_log := l |}).
Proof. intros m t r0 l. symmetry. exact (read_ty_erase m t {| rd_st := r0; r_log := l |}). Qed.

(** several values read one after the other from one reader (the log is never cleared in between) *)
Fixpoint read_all_d (m : mode) (ts : list ty) (r : rstd) : res (list val * rstd) :=
  match ts with
  | [] => Ok ([], r)
  | t :: ts' =>
      let! (v, r) := read_ty_d m t r in
      let! (vs, r) := read_all_d m ts' r in
      Ok (v :: vs, r)
  end.
(* the same function as [read_all] of Uper/Proofs.v (C01), which this file does not import *)
Fixpoint read_all (m : mode) (ts : list ty) (r : rst) : res (list val * rst) :=
  match ts with
  | [] => Ok ([], r)
  | t :: ts' =>
      let! (v, r) := read_ty m t r in
      let! (vs, r) := read_all m ts' r in
      Ok (v :: vs, r)
  end.
