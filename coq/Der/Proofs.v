(* Round-trip proofs for the DER primitive model (C20). *)
From A1 Require Import Base.ListFacts Der.Prim.
Local Open Scope N_scope.

(* [nrange] and [sweep] as in Bits/Proofs.v and Proto/Proofs.v: the three layers do not import one another *)
Definition nrange (k : nat) : list N := map N.of_nat (seq 0 k).
Lemma sweep (P : N -> bool) k :
  forallb P (nrange k) = true -> forall n, n < N.of_nat k -> P n = true.
Proof. intros H n Hn. rewrite forallb_forall in H. apply H, nrange_in, Hn. Qed.

(* the octet [H | l] holds the flag bits H under the mask M and the number l outside it: read off the table of
   the numbers below k *)
Definition field_ok (H M l : N) : bool :=
  let b := N.lor H (l mod 256) in (N.land b M =? H) && (N.land b (not8 M) =? l).
Lemma byte_field H M k l : forallb (field_ok H M) (nrange k) = true -> l < N.of_nat k ->
  let b := N.lor H (l mod 256) in N.land b M = H /\ N.land b (not8 M) = l.
Proof.
  intros S Hl. apply (sweep _ k S) in Hl. apply andb_true_iff in Hl. rewrite !N.eqb_eq in Hl. exact Hl.
Qed.

Lemma read_exact_app k l tail : length l = k -> read_exact k (l ++ tail) = Ok (l, tail).
Proof.
  intros H. unfold read_exact. rewrite app_length.
  destruct (Nat.ltb_spec (length l + length tail) k); [lia|].
  rewrite firstn_app_exact, skipn_app_exact by (symmetry; exact H). reflexivity.
Qed.

Lemma read_identifier_write c n tail :
  n < 64 -> read_identifier (write_identifier c n ++ tail) = Ok (c, n, tail).
Proof.
  intros Hn. unfold read_identifier, write_identifier.
  rewrite read_exact_app by reflexivity. cbn [bind hd].
  destruct (byte_field (class_bits c) CLASS_BITS_MASK 64 n) as [-> ->]; [destruct c; vm_compute; reflexivity|exact Hn|].
  destruct c; reflexivity.
Qed.

Lemma read_identifier_value_lt inp c n rest :
  read_identifier inp = Ok (c, n, rest) -> n < 64.
Proof.
  unfold read_identifier, read_exact.
  destruct (length inp <? 1)%nat; cbn [bind]; [discriminate|].
  intros H. injection H as _ Hn _. subst n.
  change (not8 CLASS_BITS_MASK) with (N.ones 6).
  rewrite N.land_ones. apply N.mod_lt. discriminate.
Qed.

Lemma pow256 j : 256 ^ N.of_nat j = 2 ^ (8 * N.of_nat j).
Proof. change 256 with (2 ^ 8). rewrite <- N.pow_mul_r. reflexivity. Qed.

Definition int_len (v : N) : N := 8 - N.min (lz64 v / 8) 7.

Lemma write_integer_u64_spec v :
  v < two64 ->
  write_integer_u64 v = be_bytes (N.to_nat (int_len v)) v /\ v < 256 ^ int_len v
  /\ 1 <= int_len v <= 8.
Proof.
  intros Hv. unfold write_integer_u64, int_len.
  destruct (u64_octets v Hv) as (_ & Hr & Hsmall). cbv zeta in Hr, Hsmall.
  set (o := N.min (lz64 v / 8) 7) in *.
  change 256 with (2 ^ 8). rewrite <- N.pow_mul_r.
  split; [|split; [exact Hsmall|exact Hr]].
  replace 8%nat with (N.to_nat o + N.to_nat (8 - o))%nat by lia.
  apply be_bytes_skip.
Qed.

Lemma read_integer_bits_write v tail :
  v < two64 ->
  read_integer_bits (int_len v) (write_integer_u64 v ++ tail) = Ok (v, tail).
Proof.
  intros Hv. destruct (write_integer_u64_spec v Hv) as (E & Hs & Hr).
  unfold read_integer_bits.
  destruct (N.ltb_spec 8 (int_len v)); [lia|].
  rewrite E, read_exact_app by apply be_bytes_length. cbn [bind].
  rewrite be_bytes_small; [reflexivity|]. rewrite N2Nat.id. exact Hs.
Qed.

Lemma int_len_alt v : 127 < v -> 8 - lz64 v / 8 = int_len v.
Proof.
  intros Hb. unfold int_len.
  assert (lz64 v / 8 <= 7); [|lia].
  unfold lz64. assert (7 < N.size v) by (apply size_ge_of_ge; simpl; lia). lia.
Qed.

Lemma read_length_write l tail :
  l < two64 -> read_length (write_length l ++ tail) = Ok (l, tail).
Proof.
  intros Hl. unfold write_length, read_length.
  destruct (N.leb_spec l LENGTH_SHORT_MAX_VALUE) as [Hs|Hs]; unfold LENGTH_SHORT_MAX_VALUE in Hs.
  - rewrite read_exact_app by reflexivity. cbn [bind hd].
    destruct (byte_field LENGTH_BIT_SHORT_FORM LENGTH_BIT_MASK 128 l) as [-> ->]; [vm_compute; reflexivity|lia|].
    reflexivity.
  - rewrite <- app_comm_cons.
    change (?b :: ?x ++ tail) with ([b] ++ (x ++ tail)).
    rewrite read_exact_app by reflexivity. cbn [bind hd].
    rewrite int_len_alt by (auto; lia).
    destruct (write_integer_u64_spec l Hl) as (_ & _ & Hr).
    destruct (byte_field LENGTH_BIT_LONG_FORM LENGTH_BIT_MASK 9 (int_len l)) as [-> ->]; [vm_compute; reflexivity|lia|].
    apply read_integer_bits_write, Hl.
Qed.

Lemma read_boolean_write b tail : read_boolean (write_boolean b ++ tail) = Ok (b, tail).
Proof. destruct b; reflexivity. Qed.


Lemma to_i64_bits k v : u64_of_i64 (to_i64 k v) = u64_of_i64 v.
Proof. unfold to_i64. apply i64_u64_roundtrip, u64_of_i64_lt. Qed.

Lemma from_to_i64 k v : ik_fits k v -> from_i64 k (to_i64 k v) = v.
Proof.
  intros H. apply (narrow_fits (ik_bits k) (ik_signed k)); [destruct k; cbn [ik_bits]; lia|exact H|].
  apply cast64_cong.
Qed.

Lemma r_number_w_number k c tag v tail :
  tag < 64 -> ik_fits k v -> r_number k tag (w_number k c tag v ++ tail) = Ok (v, tail).
Proof.
  intros Ht Hv. unfold r_number, w_number. rewrite <- !app_assoc.
  rewrite read_identifier_write by exact Ht. cbn [bind].
  rewrite N.eqb_refl. cbn [negb].
  set (value := to_i64 k v). set (bits := u64_of_i64 value).
  assert (Hb : bits < two64) by apply u64_of_i64_lt.
  destruct (write_integer_u64_spec bits Hb) as (_ & _ & Hr).
  assert (Hlen : N.max (8 - lz64 bits / 8) 1 = int_len bits).
  { unfold int_len. lia. }
  rewrite Hlen.
  rewrite read_length_write by (unfold two64; lia). cbn [bind].
  unfold as_u32. rewrite N.mod_small by lia.
  unfold read_integer_i64, write_integer_i64. fold bits.
  rewrite read_integer_bits_write by exact Hb. cbn [bind].
  unfold bits. rewrite u64_i64_roundtrip by apply cast64_range.
  unfold value. rewrite from_to_i64 by exact Hv. reflexivity.
Qed.

