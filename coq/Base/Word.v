(* Machine words: u64 bit patterns are [N] below 2^64, i64 values are [Z];
   big-endian byte lists; leading zeros. *)
From A1 Require Export Base.Res.
Require Import ZifyBool ZifyNat ZifyN.
Local Open Scope N_scope.

Definition two64 : N := 18446744073709551616.
Definition two63 : N := 9223372036854775808.
Definition is_u64 (n : N) : Prop := n < two64.
Definition is_i64 (z : Z) : Prop := (- Z.of_N two63 <= z < Z.of_N two63)%Z.
Definition is_u64b (n : N) : bool := n <? two64.
Definition is_i64b (z : Z) : bool := ((- Z.of_N two63 <=? z) && (z <? Z.of_N two63))%Z.

Definition wrap64 (n : N) : N := n mod two64.
(* `x as u64` for an i64 x, and `x as i64` for a u64 x *)
Definition u64_of_i64 (z : Z) : N := Z.to_N (z mod Z.of_N two64).
Definition i64_of_u64 (n : N) : Z :=
  if n <? two63 then Z.of_N n else (Z.of_N n - Z.of_N two64)%Z.

(* u64::leading_zeros *)
Definition lz64 (n : N) : N := 64 - N.size n.

(* big-endian bytes *)
Fixpoint be_bytes (k : nat) (v : N) : list N :=
  match k with
  | O => []
  | S k' => (v / 256 ^ N.of_nat k') mod 256 :: be_bytes k' v
  end.
Definition of_be (l : list N) : N := fold_left (fun a b => a * 256 + b) l 0.

Definition byteb (b : N) : bool := b <? 256.

(** * Lemmas *)

Lemma two64_pow : two64 = 2 ^ 64. Proof. reflexivity. Qed.
Lemma two63_pow : two63 = 2 ^ 63. Proof. reflexivity. Qed.
Lemma Ztwo64 : Z.of_N two64 = 18446744073709551616%Z. Proof. reflexivity. Qed.
Lemma Ztwo63 : Z.of_N two63 = 9223372036854775808%Z. Proof. reflexivity. Qed.

(* a cast keeps a value of the target type and changes any other by a multiple of 2^64 *)
Lemma u64_of_i64_nonneg z : (0 <= z < Z.of_N two64)%Z -> u64_of_i64 z = Z.to_N z.
Proof. intros H. unfold u64_of_i64. rewrite Z.mod_small by lia. reflexivity. Qed.

Lemma u64_of_i64_shift z k : u64_of_i64 (z + k * Z.of_N two64) = u64_of_i64 z.
Proof. unfold u64_of_i64. rewrite Z.mod_add by (rewrite Ztwo64; lia). reflexivity. Qed.

Lemma u64_of_i64_neg z : (- Z.of_N two64 <= z < 0)%Z -> u64_of_i64 z = Z.to_N (z + Z.of_N two64).
Proof. intros H. rewrite <- (u64_of_i64_shift z 1), Z.mul_1_l. apply u64_of_i64_nonneg. lia. Qed.

Lemma u64_of_i64_Z z : Z.of_N (u64_of_i64 z) = (z mod Z.of_N two64)%Z.
Proof. apply Z2N.id, Z.mod_pos_bound. reflexivity. Qed.

Lemma u64_of_i64_lt z : u64_of_i64 z < two64.
Proof. apply N2Z.inj_lt. rewrite u64_of_i64_Z. apply Z.mod_pos_bound. reflexivity. Qed.

Lemma i64_of_u64_cong n : exists q, i64_of_u64 n = (Z.of_N n + q * Z.of_N two64)%Z.
Proof. unfold i64_of_u64. destruct (n <? two63); [exists 0%Z|exists (-1)%Z]; ring. Qed.

Lemma i64_u64_roundtrip n : n < two64 -> u64_of_i64 (i64_of_u64 n) = n.
Proof.
  intros H. destruct (i64_of_u64_cong n) as [q ->]. unfold two64 in H.
  rewrite u64_of_i64_shift, u64_of_i64_nonneg by (rewrite Ztwo64; lia). apply N2Z.id.
Qed.

Lemma i64_of_u64_range n : n < two64 -> is_i64 (i64_of_u64 n).
Proof.
  unfold i64_of_u64, is_i64. rewrite Ztwo64, Ztwo63. intros H. unfold two64 in H.
  destruct (N.ltb_spec n two63) as [L|L]; unfold two63 in L; lia.
Qed.

(* `x as u64 as i64` changes x by a multiple of 2^64. The layers name this term [Per.Prim.iwrap], [Der.Prim.to_i64],
   [Proto.Wire.i64_wrap] (and [Proto.Rw.to_i64]) and [Uper.Ty.to_i64]; each is it by conversion. *)
Lemma cast64_cong z : exists q, i64_of_u64 (u64_of_i64 z) = (z + q * Z.of_N two64)%Z.
Proof.
  destruct (i64_of_u64_cong (u64_of_i64 z)) as [q ->]. rewrite u64_of_i64_Z, Z.mod_eq by discriminate.
  exists (q - z / Z.of_N two64)%Z. ring.
Qed.

Lemma cast64_range z : is_i64 (i64_of_u64 (u64_of_i64 z)).
Proof. apply i64_of_u64_range, u64_of_i64_lt. Qed.

(* it lands in the range of i64, where only one value is congruent to x *)
Lemma u64_i64_roundtrip z : is_i64 z -> i64_of_u64 (u64_of_i64 z) = z.
Proof.
  intros H. destruct (cast64_cong z) as [q E]. pose proof (cast64_range z) as R.
  unfold is_i64 in H, R. rewrite Ztwo63 in H, R. rewrite Ztwo64 in E. lia.
Qed.

Lemma of_be_acc l a :
  fold_left (fun a b => a * 256 + b) l a = a * 256 ^ N.of_nat (length l) + of_be l.
Proof.
  unfold of_be. revert a. induction l as [|b l IH]; intros a.
  - simpl. lia.
  - cbn [fold_left length]. rewrite IH, (IH (0 * 256 + b)).
    replace (N.of_nat (S (length l))) with (N.succ (N.of_nat (length l))) by lia.
    rewrite N.pow_succ_r'. lia.
Qed.

Lemma of_be_app l1 l2 : of_be (l1 ++ l2) = of_be l1 * 256 ^ N.of_nat (length l2) + of_be l2.
Proof. unfold of_be at 1. rewrite fold_left_app, of_be_acc. reflexivity. Qed.

Lemma of_be_cons b l : of_be (b :: l) = b * 256 ^ N.of_nat (length l) + of_be l.
Proof. change (b :: l) with ([b] ++ l). rewrite of_be_app. unfold of_be at 1. simpl. lia. Qed.

Lemma be_bytes_length k v : length (be_bytes k v) = k.
Proof. induction k; simpl; auto. Qed.

Lemma of_be_be_bytes k v : of_be (be_bytes k v) = v mod 256 ^ N.of_nat k.
Proof.
  induction k as [|k IH].
  - simpl. rewrite N.mod_1_r. reflexivity.
  - cbn [be_bytes]. rewrite of_be_cons, be_bytes_length, IH.
    replace (N.of_nat (S k)) with (N.succ (N.of_nat k)) by lia.
    rewrite N.pow_succ_r'.
    set (p := 256 ^ N.of_nat k). assert (p <> 0) by (apply N.pow_nonzero; lia).
    rewrite (N.mul_comm 256 p).
    rewrite N.mod_mul_r by lia. lia.
Qed.

Lemma be_bytes_small k v : v < 256 ^ N.of_nat k -> of_be (be_bytes k v) = v.
Proof. intros. rewrite of_be_be_bytes. apply N.mod_small; auto. Qed.

Lemma be_bytes_bytes k v : Forall (fun b => b < 256) (be_bytes k v).
Proof. induction k; simpl; constructor; auto. apply N.mod_lt. lia. Qed.

Lemma be_bytes_skip j k v : skipn k (be_bytes (k + j) v) = be_bytes j v.
Proof. induction k as [|k IH]; [reflexivity|]. cbn [plus be_bytes skipn]. exact IH. Qed.

Lemma be_bytes_lead_zero j k v :
  v < 256 ^ N.of_nat j -> firstn k (be_bytes (k + j) v) = repeat 0 k.
Proof.
  intros H. induction k as [|k IH]; [reflexivity|].
  cbn [plus be_bytes firstn repeat]. f_equal; [|exact IH].
  rewrite N.div_small; [reflexivity|].
  eapply N.lt_le_trans; [exact H|]. apply N.pow_le_mono_r; lia.
Qed.

Lemma size_le_of_lt n k : n < 2 ^ k -> N.size n <= k.
Proof.
  intros H. destruct n as [|p]; [simpl; lia|].
  rewrite N.size_log2 by discriminate.
  apply N.log2_lt_pow2 in H; lia.
Qed.

Lemma size_ge_of_ge n k : 2 ^ k <= n -> k < N.size n.
Proof.
  intros H. assert (n <> 0) by (intro; subst; assert (0 < 2^k) by (apply N.neq_0_lt_0, N.pow_nonzero; lia); lia).
  rewrite N.size_log2 by auto.
  apply N.log2_le_pow2 in H; lia.
Qed.

(* the number of octets left after dropping the leading zero octets of a u64, but one at least *)
Lemma u64_octets v : v < two64 -> let o := 8 - N.min (lz64 v / 8) 7 in
  o = N.max 1 ((N.size v + 7) / 8) /\ 1 <= o <= 8 /\ v < 2 ^ (8 * o).
Proof.
  intros Hv o. assert (N.size v <= 64) by (apply size_le_of_lt; exact Hv).
  unfold lz64 in o. split; [lia|]. split; [lia|].
  eapply N.lt_le_trans; [apply N.size_gt|]. apply N.pow_le_mono_r; lia.
Qed.

(* `as u64 as u32` is `as u32` *)
Lemma mod_mod_mul a M K : (0 < M -> 0 < K -> (a mod (M * K)) mod M = a mod M)%Z.
Proof. intros HM HK. rewrite Z.rem_mul_r, (Z.mul_comm M), Z_mod_plus_full by lia. apply Z.mod_mod. lia. Qed.

(* `w as T` for a [b]-bit integer type T, signed or not, gives back any [z] of type T that
   [w] is congruent to modulo 2^64 *)
Lemma narrow_fits b (sg : bool) z w : 0 < b <= 64 ->
  (if sg then - 2 ^ (Z.of_N b - 1) <= z < 2 ^ (Z.of_N b - 1) else 0 <= z < 2 ^ Z.of_N b)%Z ->
  (exists q, w = z + q * Z.of_N two64)%Z ->
  let m := (2 ^ Z.of_N b)%Z in
  let t := (w mod m)%Z in
  (if sg then (if (t <? m / 2)%Z then t else t - m)%Z else t) = z.
Proof.
  intros Hb Hz [q ->] m t.
  assert (Hm : m = (2 * 2 ^ (Z.of_N b - 1))%Z).
  { unfold m. rewrite <- Z.pow_succ_r by lia. f_equal. lia. }
  assert (E64 : Z.of_N two64 = (2 ^ (64 - Z.of_N b) * m)%Z).
  { unfold m. rewrite <- Z.pow_add_r by lia. replace (64 - Z.of_N b + Z.of_N b)%Z with 64%Z by lia. reflexivity. }
  assert (Hh : (0 < 2 ^ (Z.of_N b - 1))%Z) by (apply Z.pow_pos_nonneg; lia).
  set (h := (2 ^ (Z.of_N b - 1))%Z) in *.
  assert (Et : t = (z mod m)%Z).
  { unfold t. rewrite E64, Z.mul_assoc. apply Z.mod_add. lia. }
  fold m in Hz. clearbody m t h. subst m t. destruct sg.
  - replace (2 * h / 2)%Z with h by (symmetry; rewrite Z.mul_comm; apply Z.div_mul; lia).
    destruct (Z.neg_nonneg_cases z) as [Hn|Hp].
    + replace (z mod (2 * h))%Z with (z + 2 * h)%Z by (apply Z.mod_unique with (q := (-1)%Z); lia).
      destruct (Z.ltb_spec (z + 2 * h) h); lia.
    + rewrite Z.mod_small by lia. destruct (Z.ltb_spec z h); lia.
  - apply Z.mod_small. lia.
Qed.

Lemma nrange_in k n : n < N.of_nat k -> In n (map N.of_nat (seq 0 k)).
Proof.
  intros H. apply in_map_iff. exists (N.to_nat n). split; [lia|].
  apply in_seq. lia.
Qed.
