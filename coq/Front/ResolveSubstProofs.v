(* Front/ResolveSubstProofs.v -- C12 for whole types, definitions, modules and module sets, from the facts about a single
   reference (Front/ResolveProofs.v).  The resolver sees (scope, model) only through its two lookups ([lookups_agree]).
   A type resolves like one where literals are replaced by references bound to them ([abs_ty]; as a function, [lit_ty]);
   a type with a reference that does not resolve at some use site ([ty_site]) has no model; the load order does not
   matter when every import has one target ([unique_targets]). *)
From Coq Require Import Permutation.
From A1 Require Import Base.ListFacts Front.Resolve Front.ResolveProofs.
Local Open Scope N_scope.

(* Facts about lists in general; nothing in this section is about the resolver. *)
Section Lists.
  Lemma Forall2_mono : forall {A B} (R1 R2 : A -> B -> Prop),
    (forall a b, R1 a b -> R2 a b) -> forall l l', Forall2 R1 l l' -> Forall2 R2 l l'.
  Proof. intros A B R1 R2 H l l' HF. induction HF as [|x y r r' Hxy _ IH]; constructor; auto. Qed.

  Lemma Forall2_map_l : forall {A B} (R : B -> A -> Prop) (f : A -> B) l, (forall x, R (f x) x) -> Forall2 R (map f l) l.
  Proof. intros A B R f l H. induction l as [|x l IH]; cbn [map]; constructor; [apply H | exact IH]. Qed.

  Lemma find_Forall2 : forall {A B} (R : A -> B -> Prop) (p : A -> bool) (q : B -> bool) l l',
    Forall2 R l l' -> (forall x y, R x y -> p x = q y) ->
    match find p l, find q l' with
    | Some x, Some y => R x y
    | None, None => True
    | _, _ => False
    end.
  Proof.
    intros A B R p q l l' H Hpq. induction H as [|x y r r' Hxy _ IH]; [exact I|].
    cbn [find]. rewrite <- (Hpq x y Hxy). destruct (p x); [exact Hxy | exact IH].
  Qed.

  Lemma find_perm : forall {A} (p : A -> bool) l l',
    Permutation l l' ->
    (forall x y, In x l -> In y l -> p x = true -> p y = true -> x = y) ->
    find p l = find p l'.
  Proof.
    intros A p l l' Hperm Huniq.
    destruct (find p l) as [a|] eqn:E1; destruct (find p l') as [b|] eqn:E2; try reflexivity.
    - apply find_some in E1. apply find_some in E2. destruct E1 as [Ha Hpa]. destruct E2 as [Hb Hpb].
      f_equal. apply Huniq; try assumption. eapply Permutation_in; [apply Permutation_sym; exact Hperm | exact Hb].
    - apply find_some in E1. destruct E1 as [Ha Hpa].
      pose proof (find_none _ _ E2 a (Permutation_in _ Hperm Ha)) as Hn. congruence.
    - apply find_some in E2. destruct E2 as [Hb Hpb].
      pose proof (find_none _ _ E1 b (Permutation_in _ (Permutation_sym Hperm) Hb)) as Hn. congruence.
  Qed.

  Lemma str_dec : forall x y : str, {x = y} + {x <> y}.
  Proof. apply list_eq_dec. apply N.eq_dec. Qed.
End Lists.

Definition lookup_map {A B} (f : A -> B) (l : lookup A) : lookup B :=
  match l with Found a => Found (f a) | NotFound => NotFound | Diverges => Diverges end.

(* what resolve_default looks at in a definition: is it an ENUMERATED, and which items *)
Definition enum_items {S R C} (a : asn S R C) : option (list (str * option N)) :=
  match a with
  | (_, TEnumerated variants _, _) => Some variants
  | _ => None
  end.

Definition ref_name {S R C} (t : ty S R C) : option str :=
  match t with TRef referenced _ => Some referenced | _ => None end.

Inductive default_kind : Type := DValue | DItem (referenced item : str) | DLoop.

Section Default.
  Variable scope : list umodel.
  Variable model : umodel.

  (* resolving keeps the head constructor; all that is needed: a resolved type is a reference iff the type was *)
  Lemma resolve_ty_ref_name : forall t t', resolve_ty scope model t = ROk t' -> ref_name t' = ref_name t.
  Proof.
    intros t t' H.
    destruct t as [ |[[lo hi] e] c|s c|s|s c| |i|i l|fs e|i s|fs e|i s|v e|vs e|n tg].
    all: try rewrite resolve_ty_sequence in H; try rewrite resolve_ty_set in H; try rewrite resolve_ty_choice in H.
    all: cbn [resolve_ty] in H.
    all: repeat (let a := fresh "a" in let Ha := fresh "Ha" in
                 apply rbind_ok in H; destruct H as [a [Ha H]]).
    all: inversion H; reflexivity.
  Qed.

  (* what resolve_default makes of DEFAULT <name> for a component of type t: the value reference `name`; the item
     `name` of the ENUMERATED that t refers to; no return, when the lookup of the type t refers to does not return.
     It looks at t only through ref_name, and at the definition only through enum_items. *)
  Definition default_kind_of {S R C} (t : ty S R C) (name : str) : default_kind :=
    match ref_name t with
    | None => DValue
    | Some referenced =>
        match lookup_map enum_items (definition scope (lookup_fuel scope) model referenced) with
        | Found (Some variants) =>
            match find (fun v => str_eqb name (fst v)) variants with
            | Some v => DItem referenced (fst v)
            | None => DValue
            end
        | Found None | NotFound => DValue
        | Diverges => DLoop
        end
    end.

  Definition default_of {S R C} (t : ty S R C) (name : str) : rres (option literal) :=
    match default_kind_of t name with
    | DValue => let^ l := resolve_literal scope model (Ref name) in ROk (Some l)
    | DItem referenced item => ROk (Some (LEnumVariant referenced item))
    | DLoop => RDiverge
    end.

  Lemma resolve_default_of : forall t name, resolve_default scope model t (Some (Ref name)) = default_of t name.
  Proof.
    intros t name. destruct t; try reflexivity. unfold default_of, default_kind_of. cbn [resolve_default ref_name].
    destruct (definition scope (lookup_fuel scope) model name0) as [[[tg0 t0] d0]| |]; try reflexivity.
    destruct t0; try reflexivity. cbn [lookup_map enum_items].
    destruct (find (fun v => str_eqb name (fst v)) variants); reflexivity.
  Qed.

  Lemma resolve_ty_default_of : forall t t' name, resolve_ty scope model t = ROk t' -> default_of t' name = default_of t name.
  Proof.
    intros t t' name H. unfold default_of, default_kind_of. rewrite (resolve_ty_ref_name _ _ H). reflexivity.
  Qed.

  Lemma default_kind_loop : forall {S R C} (t : ty S R C) name, default_kind_of t name = DLoop ->
    exists referenced, ref_name t = Some referenced /\ definition scope (lookup_fuel scope) model referenced = Diverges.
  Proof.
    intros S R C t name. unfold default_kind_of. destruct (ref_name t) as [referenced|]; [|discriminate].
    destruct (definition scope (lookup_fuel scope) model referenced) as [a| |] eqn:E; cbn [lookup_map];
      [|discriminate|intros _; exists referenced; auto].
    destruct (enum_items a) as [variants|]; [destruct (find _ variants)|]; discriminate.
  Qed.
End Default.

Section TyInd.
  Variables S R C : Type.
  Variable P : ty S R C -> Prop.
  Hypothesis HBoolean : P TBoolean.
  Hypothesis HInteger : forall r c, P (TInteger r c).
  Hypothesis HString : forall s c, P (TString s c).
  Hypothesis HOctetString : forall s, P (TOctetString s).
  Hypothesis HBitString : forall s c, P (TBitString s c).
  Hypothesis HNull : P TNull.
  Hypothesis HOptional : forall t, P t -> P (TOptional t).
  Hypothesis HDefault : forall t l, P t -> P (TDefault t l).
  Hypothesis HSequence : forall fs e, (forall f, In f fs -> P (snd (fst (snd f)))) -> P (TSequence fs e).
  Hypothesis HSequenceOf : forall t s, P t -> P (TSequenceOf t s).
  Hypothesis HSet : forall fs e, (forall f, In f fs -> P (snd (fst (snd f)))) -> P (TSet fs e).
  Hypothesis HSetOf : forall t s, P t -> P (TSetOf t s).
  Hypothesis HEnumerated : forall v e, P (TEnumerated v e).
  Hypothesis HChoice : forall vs e, (forall v, In v vs -> P (snd v)) -> P (TChoice vs e).
  Hypothesis HRef : forall n tg, P (TRef n tg).

  Lemma ty_nested_ind : forall t : ty S R C, P t.
  Proof.
    fix IH 1. intros [ |r c|s c|s|s c| |i|i l|fs e|i s|fs e|i s|v e|vs e|n tg].
    (* the constructors without a type inside: by their hypothesis, without the recursive call *)
    all: try (clear IH; auto; fail).
    - apply HOptional. apply IH.
    - apply HDefault. apply IH.
    - apply HSequence. induction fs as [|f fs IHfs]; intros x Hx; [destruct Hx|].
      destruct Hx as [<- | Hx]; [apply IH | exact (IHfs x Hx)].
    - apply HSequenceOf. apply IH.
    - apply HSet. induction fs as [|f fs IHfs]; intros x Hx; [destruct Hx|].
      destruct Hx as [<- | Hx]; [apply IH | exact (IHfs x Hx)].
    - apply HSetOf. apply IH.
    - apply HChoice. induction vs as [|v vs IHvs]; intros x Hx; [destruct Hx|].
      destruct Hx as [<- | Hx]; [apply IH | exact (IHvs x Hx)].
  Qed.
End TyInd.

(* the resolver sees (scope, model) only through the two lookups *)
Definition lookups_agree (Ms1 : list umodel) (M1 : umodel) (Ms2 : list umodel) (M2 : umodel) : Prop :=
  (forall name, value_reference Ms1 (lookup_fuel Ms1) M1 name = value_reference Ms2 (lookup_fuel Ms2) M2 name) /\
  (forall name, lookup_map enum_items (definition Ms1 (lookup_fuel Ms1) M1 name)
              = lookup_map enum_items (definition Ms2 (lookup_fuel Ms2) M2 name)).

Section Ext.
  Variables (Ms1 : list umodel) (M1 : umodel) (Ms2 : list umodel) (M2 : umodel).
  Hypothesis Hagree : lookups_agree Ms1 M1 Ms2 M2.

  Lemma resolve_usize_ext : forall l, resolve_usize Ms1 M1 l = resolve_usize Ms2 M2 l.
  Proof. intros [n|name]; [reflexivity|]. unfold resolve_usize. rewrite (proj1 Hagree name). reflexivity. Qed.

  Lemma resolve_i64_ext : forall l, resolve_i64 Ms1 M1 l = resolve_i64 Ms2 M2 l.
  Proof. intros [n|name]; [reflexivity|]. unfold resolve_i64. rewrite (proj1 Hagree name). reflexivity. Qed.

  Lemma resolve_literal_ext : forall l, resolve_literal Ms1 M1 l = resolve_literal Ms2 M2 l.
  Proof. intros [n|name]; [reflexivity|]. unfold resolve_literal. rewrite (proj1 Hagree name). reflexivity. Qed.

  Lemma resolve_opt_i64_ext : forall o, resolve_opt_i64 Ms1 M1 o = resolve_opt_i64 Ms2 M2 o.
  Proof. intros [l|]; [|reflexivity]. unfold resolve_opt_i64. rewrite resolve_i64_ext. reflexivity. Qed.

  Lemma resolve_size_ext : forall s, resolve_size Ms1 M1 s = resolve_size Ms2 M2 s.
  Proof.
    intros [|n e|lo hi e]; unfold resolve_size; [reflexivity| |]; repeat rewrite resolve_usize_ext; reflexivity.
  Qed.

  Lemma default_kind_ext : forall {S R C} (t : ty S R C) name,
    default_kind_of Ms1 M1 t name = default_kind_of Ms2 M2 t name.
  Proof.
    intros S R C t name. unfold default_kind_of. destruct (ref_name t) as [referenced|]; [|reflexivity].
    rewrite (proj2 Hagree referenced). reflexivity.
  Qed.

  Lemma resolve_default_ext : forall t d, resolve_default Ms1 M1 t d = resolve_default Ms2 M2 t d.
  Proof.
    intros t [[l|name]|]; try reflexivity.
    rewrite !resolve_default_of. unfold default_of. rewrite default_kind_ext, resolve_literal_ext. reflexivity.
  Qed.

  (* a definition / component, given the fact for its type: serves inside the induction over types and after it *)
  Lemma resolve_asn_ext_ty : forall a, resolve_ty Ms1 M1 (snd (fst a)) = resolve_ty Ms2 M2 (snd (fst a)) ->
    resolve_asn Ms1 M1 a = resolve_asn Ms2 M2 a.
  Proof.
    intros [[tag t] d] E. cbn [fst snd] in E. unfold resolve_asn. rewrite E.
    destruct (resolve_ty Ms2 M2 t) as [t'| |]; [|reflexivity|reflexivity].
    cbn [rbind]. rewrite resolve_default_ext. reflexivity.
  Qed.

  Lemma resolve_named_ext_ty : forall fs,
    (forall f, In f fs -> resolve_ty Ms1 M1 (snd (fst (snd f))) = resolve_ty Ms2 M2 (snd (fst (snd f)))) ->
    rmapM (resolve_named Ms1 M1) fs = rmapM (resolve_named Ms2 M2) fs.
  Proof.
    intros fs H. apply rmapM_ext. intros x Hin. unfold resolve_named.
    rewrite (resolve_asn_ext_ty (snd x) (H x Hin)). reflexivity.
  Qed.

  Lemma resolve_ty_ext : forall t, resolve_ty Ms1 M1 t = resolve_ty Ms2 M2 t.
  Proof.
    induction t as [ |[[lo hi] e] c|s c|s|s c| |i IH|i l IH|fs e IH|i s IH|fs e IH|i s IH|v e|vs e IH|n tg]
      using ty_nested_ind.
    all: try rewrite !resolve_ty_sequence; try rewrite !resolve_ty_set; try rewrite !resolve_ty_choice.
    all: try (cbn [resolve_ty]; repeat rewrite resolve_opt_i64_ext; repeat rewrite resolve_size_ext;
              try rewrite IH; reflexivity).
    - rewrite (resolve_named_ext_ty fs IH). reflexivity.
    - rewrite (resolve_named_ext_ty fs IH). reflexivity.
    - rewrite (rmapM_ext _ (resolve_variant Ms2 M2) vs); [reflexivity|].
      intros v Hv. unfold resolve_variant. f_equal. exact (IH v Hv).
  Qed.

  Lemma resolve_asn_ext : forall a, resolve_asn Ms1 M1 a = resolve_asn Ms2 M2 a.
  Proof. intros a. apply resolve_asn_ext_ty. apply resolve_ty_ext. Qed.
End Ext.

(* a module enters resolve_model through its header and the two loops *)
Lemma resolve_model_cong : forall Ms M Ms' M',
  m_name M = m_name M' -> m_oid M = m_oid M' -> m_imports M = m_imports M' ->
  rmapM (resolve_value Ms M) (m_value_references M) = rmapM (resolve_value Ms' M') (m_value_references M') ->
  rmapM (resolve_named Ms M) (m_definitions M) = rmapM (resolve_named Ms' M') (m_definitions M') ->
  resolve_model Ms M = resolve_model Ms' M'.
Proof.
  intros Ms M Ms' M' Hn Ho Hi Hv Hd. unfold resolve_model.
  rewrite !resolve_values_rmapM, !resolve_definitions_rmapM, Hn, Ho, Hi, Hv, Hd. reflexivity.
Qed.

Lemma resolve_model_ext : forall Ms1 Ms2 M, lookups_agree Ms1 M Ms2 M -> resolve_model Ms1 M = resolve_model Ms2 M.
Proof.
  intros Ms1 Ms2 M H. apply resolve_model_cong; try reflexivity; apply rmapM_ext; intros x _;
    [unfold resolve_value | unfold resolve_named]; rewrite (resolve_asn_ext _ _ _ _ H); reflexivity.
Qed.

(* [abs_ty Ms M t t']: t' is t where some INTEGER range bounds, SIZE bounds and DEFAULT values that are literals in t
   are references in t', each reference being bound -- by the lookup of the scope (Ms, M): locally or through
   IMPORTS, by OID or by name, whatever [value_reference] does -- to exactly the literal it replaces.  Read from right
   to left: t is t' with (some) references replaced by their literals. *)
Section Abs.
  Variable Ms : list umodel.
  Variable M : umodel.

  Definition vref (name : str) : lookup literal := value_reference Ms (lookup_fuel Ms) M name.

  (* INTEGER (lo..hi) bounds *)
  Inductive abs_i64 : lit_or_ref Z -> lit_or_ref Z -> Prop :=
  | abs_i64_same : forall x, abs_i64 x x
  | abs_i64_ref : forall v name, vref name = Found (LInteger v) -> abs_i64 (Lit v) (Ref name).

  Inductive abs_opt_i64 : option (lit_or_ref Z) -> option (lit_or_ref Z) -> Prop :=
  | abs_opt_none : abs_opt_i64 None None
  | abs_opt_some : forall x y, abs_i64 x y -> abs_opt_i64 (Some x) (Some y).

  (* SIZE bounds: the value has to be a size *)
  Inductive abs_usize : lit_or_ref N -> lit_or_ref N -> Prop :=
  | abs_usize_same : forall x, abs_usize x x
  | abs_usize_ref : forall v name,
      vref name = Found (LInteger v) -> (0 <= v)%Z -> abs_usize (Lit (Z.to_N v)) (Ref name).

  Inductive abs_size : size (lit_or_ref N) -> size (lit_or_ref N) -> Prop :=
  | abs_SAny : abs_size SAny SAny
  | abs_SFix : forall n n' e, abs_usize n n' -> abs_size (SFix n e) (SFix n' e)
  | abs_SRange : forall lo lo' hi hi' e, abs_usize lo lo' -> abs_usize hi hi' -> abs_size (SRange lo hi e) (SRange lo' hi' e).

  (* The one place where a reference is NOT read as a value reference (finding F12): the DEFAULT of a component whose
     type is a reference `referenced` such that the lookup of the *definition* `referenced`
       - finds an ENUMERATED type with an item called like the reference (then the DEFAULT is that item), or
       - does not return (cyclic IMPORTS: then resolving does not return either).
     In terms of default_kind_of above: the kind is DItem or DLoop, not DValue (default_exception_kind).          *)
  Definition default_exception (t : uty) (name : str) : bool :=
    match ref_name t with
    | None => false
    | Some referenced =>
        match definition Ms (lookup_fuel Ms) M referenced with
        | Found a =>
            match enum_items a with
            | Some variants => match find (fun v => str_eqb name (fst v)) variants with Some _ => true | None => false end
            | None => false
            end
        | NotFound => false
        | Diverges => true
        end
    end.

  (* DEFAULT values, of a component / definition of type t *)
  Inductive abs_default (t : uty) : option (lit_or_ref literal) -> option (lit_or_ref literal) -> Prop :=
  | abs_default_same : forall d, abs_default t d d
  | abs_default_ref : forall l name,
      vref name = Found l -> default_exception t name = false -> abs_default t (Some (Lit l)) (Some (Ref name)).

  Inductive abs_ty : uty -> uty -> Prop :=
  | abs_same : forall t, abs_ty t t
  | abs_Integer : forall lo lo' hi hi' e c,
      abs_opt_i64 lo lo' -> abs_opt_i64 hi hi' -> abs_ty (TInteger (lo, hi, e) c) (TInteger (lo', hi', e) c)
  | abs_String : forall s s' c, abs_size s s' -> abs_ty (TString s c) (TString s' c)
  | abs_OctetString : forall s s', abs_size s s' -> abs_ty (TOctetString s) (TOctetString s')
  | abs_BitString : forall s s' c, abs_size s s' -> abs_ty (TBitString s c) (TBitString s' c)
  | abs_Optional : forall i i', abs_ty i i' -> abs_ty (TOptional i) (TOptional i')
  | abs_Default : forall i i' l, abs_ty i i' -> abs_ty (TDefault i l) (TDefault i' l)
  | abs_Sequence : forall fs fs' e, abs_fields fs fs' -> abs_ty (TSequence fs e) (TSequence fs' e)
  | abs_SequenceOf : forall i i' s s', abs_ty i i' -> abs_size s s' -> abs_ty (TSequenceOf i s) (TSequenceOf i' s')
  | abs_Set : forall fs fs' e, abs_fields fs fs' -> abs_ty (TSet fs e) (TSet fs' e)
  | abs_SetOf : forall i i' s s', abs_ty i i' -> abs_size s s' -> abs_ty (TSetOf i s) (TSetOf i' s')
  | abs_Choice : forall vs vs' e, abs_variants vs vs' -> abs_ty (TChoice vs e) (TChoice vs' e)
  with abs_fields : list ufield -> list ufield -> Prop :=
  | abs_fields_nil : abs_fields [] []
  | abs_fields_cons : forall n tag t t' d d' r r',
      abs_ty t t' -> abs_default t d d' -> abs_fields r r' ->
      abs_fields ((n, (tag, t, d)) :: r) ((n, (tag, t', d')) :: r')
  with abs_variants : list (str * option atag * uty) -> list (str * option atag * uty) -> Prop :=
  | abs_variants_nil : abs_variants [] []
  | abs_variants_cons : forall n tag t t' r r',
      abs_ty t t' -> abs_variants r r' -> abs_variants ((n, tag, t) :: r) ((n, tag, t') :: r').

  Scheme abs_ty_mut := Minimality for abs_ty Sort Prop
    with abs_fields_mut := Minimality for abs_fields Sort Prop
    with abs_variants_mut := Minimality for abs_variants Sort Prop.
  Combined Scheme abs_mutind from abs_ty_mut, abs_fields_mut, abs_variants_mut.

  Inductive abs_asn : uasn -> uasn -> Prop :=
  | abs_asn_intro : forall tag t t' d d', abs_ty t t' -> abs_default t d d' -> abs_asn (tag, t, d) (tag, t', d').

  Inductive abs_value : str * uasn * literal -> str * uasn * literal -> Prop :=
  | abs_value_intro : forall n a a' v, abs_asn a a' -> abs_value (n, a, v) (n, a', v).

  Inductive abs_def : str * uasn -> str * uasn -> Prop :=
  | abs_def_intro : forall n a a', abs_asn a a' -> abs_def (n, a) (n, a').

  (* M' is M with some literals of its definitions (and of the types of its value assignments) abstracted; header,
     IMPORTS, the names and the values of the value assignments are the same *)
  Inductive abs_model (M' : umodel) : Prop :=
  | abs_model_intro :
      m_name M' = m_name M -> m_oid M' = m_oid M -> m_imports M' = m_imports M ->
      Forall2 abs_value (m_value_references M) (m_value_references M') ->
      Forall2 abs_def (m_definitions M) (m_definitions M') ->
      abs_model M'.

  Lemma abs_model_refl : abs_model M.
  Proof.
    assert (Ha : forall a, abs_asn a a).
    { intros [[tag t] d]. constructor; [apply abs_same | apply abs_default_same]. }
    constructor; auto.
    - induction (m_value_references M) as [|[[n a] v] r IH]; constructor; [constructor; apply Ha | exact IH].
    - induction (m_definitions M) as [|[n a] r IH]; constructor; [constructor; apply Ha | exact IH].
  Qed.
End Abs.

Lemma default_exception_kind : forall Ms M t name,
  default_exception Ms M t name = match default_kind_of Ms M t name with DValue => false | _ => true end.
Proof.
  intros Ms M t name. unfold default_exception, default_kind_of. destruct (ref_name t) as [referenced|]; [|reflexivity].
  destruct (definition Ms (lookup_fuel Ms) M referenced) as [a| |]; cbn [lookup_map]; try reflexivity.
  destruct (enum_items a) as [variants|]; [destruct (find _ variants)|]; reflexivity.
Qed.

Lemma default_exception_ext : forall Ms1 M1 Ms2 M2, lookups_agree Ms1 M1 Ms2 M2 ->
  forall t name, default_exception Ms1 M1 t name = default_exception Ms2 M2 t name.
Proof.
  intros Ms1 M1 Ms2 M2 Hagree t name.
  rewrite !default_exception_kind, (default_kind_ext _ _ _ _ Hagree). reflexivity.
Qed.

Section Subst.
  Variable Ms : list umodel.
  Variable M : umodel.

  Lemma subst_opt_i64 : forall x y, abs_opt_i64 Ms M x y -> resolve_opt_i64 Ms M y = resolve_opt_i64 Ms M x.
  Proof.
    intros x y [|a b [z|v name Hv]]; [reflexivity | reflexivity |].
    unfold resolve_opt_i64. rewrite (subst_i64 _ _ _ _ Hv). reflexivity.
  Qed.

  Lemma subst_abs_usize : forall x y, abs_usize Ms M x y -> resolve_usize Ms M y = resolve_usize Ms M x.
  Proof. intros x y [z|v name Hv Hpos]; [reflexivity|]. apply subst_usize; assumption. Qed.

  Lemma subst_size : forall s s', abs_size Ms M s s' -> resolve_size Ms M s' = resolve_size Ms M s.
  Proof.
    intros s s' [|n n' e Hn|lo lo' hi hi' e Hlo Hhi]; [reflexivity| |]; unfold resolve_size.
    - rewrite (subst_abs_usize _ _ Hn). reflexivity.
    - rewrite (subst_abs_usize _ _ Hlo), (subst_abs_usize _ _ Hhi). reflexivity.
  Qed.

  Lemma subst_default : forall t t0 d d',
    abs_default Ms M t d d' -> resolve_ty Ms M t = ROk t0 ->
    resolve_default Ms M t0 d' = resolve_default Ms M t0 d.
  Proof.
    intros t t0 d d' [d0|l name Hv Hex] Ht; [reflexivity|].
    rewrite resolve_default_of, (resolve_ty_default_of _ _ _ _ name Ht). unfold default_of.
    rewrite default_exception_kind in Hex.
    destruct (default_kind_of Ms M t name); try discriminate Hex.
    rewrite (proj2 (resolve_literal_ok_iff Ms M name l) Hv). reflexivity.
  Qed.

  Lemma subst_asn_ty : forall tag t t' d d',
    resolve_ty Ms M t' = resolve_ty Ms M t -> abs_default Ms M t d d' ->
    resolve_asn Ms M (tag, t', d') = resolve_asn Ms M (tag, t, d).
  Proof.
    intros tag t t' d d' Et Hd. unfold resolve_asn. rewrite Et.
    destruct (resolve_ty Ms M t) as [t0| |] eqn:E; [|reflexivity|reflexivity].
    cbn [rbind]. rewrite (subst_default _ _ _ _ Hd E). reflexivity.
  Qed.

  Lemma subst_ty_mut :
    (forall t t', abs_ty Ms M t t' -> resolve_ty Ms M t' = resolve_ty Ms M t) /\
    (forall fs fs', abs_fields Ms M fs fs' -> rmapM (resolve_named Ms M) fs' = rmapM (resolve_named Ms M) fs) /\
    (forall vs vs', abs_variants Ms M vs vs' -> rmapM (resolve_variant Ms M) vs' = rmapM (resolve_variant Ms M) vs).
  Proof.
    apply abs_mutind.
    - reflexivity.
    - intros lo lo' hi hi' e c Hlo Hhi. cbn [resolve_ty].
      rewrite (subst_opt_i64 _ _ Hlo), (subst_opt_i64 _ _ Hhi). reflexivity.
    - intros s s' c Hs. cbn [resolve_ty]. rewrite (subst_size _ _ Hs). reflexivity.
    - intros s s' Hs. cbn [resolve_ty]. rewrite (subst_size _ _ Hs). reflexivity.
    - intros s s' c Hs. cbn [resolve_ty]. rewrite (subst_size _ _ Hs). reflexivity.
    - intros i i' _ IH. cbn [resolve_ty]. rewrite IH. reflexivity.
    - intros i i' l _ IH. cbn [resolve_ty]. rewrite IH. reflexivity.
    - intros fs fs' e _ IH. rewrite !resolve_ty_sequence, IH. reflexivity.
    - intros i i' s s' _ IH Hs. cbn [resolve_ty]. rewrite IH, (subst_size _ _ Hs). reflexivity.
    - intros fs fs' e _ IH. rewrite !resolve_ty_set, IH. reflexivity.
    - intros i i' s s' _ IH Hs. cbn [resolve_ty]. rewrite IH, (subst_size _ _ Hs). reflexivity.
    - intros vs vs' e _ IH. rewrite !resolve_ty_choice, IH. reflexivity.
    - reflexivity.
    - intros n tag t t' d d' r r' _ IHt Hd _ IHr. cbn [rmapM]. rewrite IHr.
      unfold resolve_named. cbn [fst snd]. rewrite (subst_asn_ty tag _ _ _ _ IHt Hd). reflexivity.
    - reflexivity.
    - intros n tag t t' r r' _ IHt _ IHr. cbn [rmapM]. rewrite IHr.
      unfold resolve_variant. cbn [fst snd]. rewrite IHt. reflexivity.
  Qed.

  Theorem subst_ty : forall t t', abs_ty Ms M t t' -> resolve_ty Ms M t' = resolve_ty Ms M t.
  Proof. exact (proj1 subst_ty_mut). Qed.

  Theorem subst_asn : forall a a', abs_asn Ms M a a' -> resolve_asn Ms M a' = resolve_asn Ms M a.
  Proof. intros a a' [tag t t' d d' Ht Hd]. apply subst_asn_ty; [apply subst_ty; exact Ht | exact Hd]. Qed.
End Subst.

(* what the lookups inspect of a module: header, IMPORTS, names and values of the value assignments, names and
   "ENUMERATED view" of the definitions *)
Definition sim_value (x y : str * uasn * literal) : Prop := fst (fst x) = fst (fst y) /\ snd x = snd y.
Definition sim_def (x y : str * uasn) : Prop := fst x = fst y /\ enum_items (snd x) = enum_items (snd y).

Record sim_model (A B : umodel) : Prop := {
  sim_name : m_name A = m_name B;
  sim_oid : m_oid A = m_oid B;
  sim_imports : m_imports A = m_imports B;
  sim_values : Forall2 sim_value (m_value_references A) (m_value_references B);
  sim_defs : Forall2 sim_def (m_definitions A) (m_definitions B)
}.

Lemma abs_model_sim : forall Ms M M', abs_model Ms M M' -> sim_model M M'.
Proof.
  intros Ms M M' [Hn Ho Hi Hv Hd]. constructor; auto.
  - eapply Forall2_mono; [|exact Hv]. intros a b [n x y v _]. split; reflexivity.
  - eapply Forall2_mono; [|exact Hd]. intros a b [n x y [tag t t' d d' Ht _]]. split; [reflexivity|].
    destruct Ht; reflexivity.
Qed.

Lemma glookup_map : forall Ms name (A C : Type) (g : A -> C) loc f m,
  lookup_map g (glookup Ms name A loc f m) = glookup Ms name C (fun m => option_map g (loc m)) f m.
Proof.
  intros Ms name A C g loc. induction f as [|f IH]; intros m; cbn [glookup];
    destruct (loc m); cbn [option_map lookup_map]; try reflexivity;
    destruct (model_with_imported_item Ms m name); try reflexivity. apply IH.
Qed.

Section SimScope.
  Variables Ms Ms' : list umodel.
  Hypothesis HMs : Forall2 sim_model Ms Ms'.

  Lemma sim_imported : forall M M' name, sim_model M M' ->
    match model_with_imported_item Ms M name, model_with_imported_item Ms' M' name with
    | Some a, Some b => sim_model a b
    | None, None => True
    | _, _ => False
    end.
  Proof.
    intros M M' name HM. unfold model_with_imported_item. rewrite <- (sim_imports _ _ HM).
    destruct (find (fun i => existsb (str_eqb name) (i_what i)) (m_imports M)) as [imp|]; [|exact I].
    apply find_Forall2 with (R := sim_model); [exact HMs|].
    intros x y Hxy. rewrite (sim_oid _ _ Hxy), (sim_name _ _ Hxy). reflexivity.
  Qed.

  Lemma glookup_sim : forall name (A : Type) (loc : umodel -> option A),
    (forall X Y, sim_model X Y -> loc X = loc Y) ->
    forall f M M', sim_model M M' -> glookup Ms name A loc f M = glookup Ms' name A loc f M'.
  Proof.
    intros name A loc Hloc. induction f as [|f IH]; intros M M' HM; cbn [glookup];
      rewrite <- (Hloc M M' HM); pose proof (sim_imported M M' name HM) as Hi;
      destruct (loc M); try reflexivity;
      destruct (model_with_imported_item Ms M name), (model_with_imported_item Ms' M' name);
      try contradiction; try reflexivity.
    apply IH. exact Hi.
  Qed.

  Lemma sim_lookups_agree : forall M M', sim_model M M' -> lookups_agree Ms' M' Ms M.
  Proof.
    intros M M' HM. unfold lookups_agree, lookup_fuel. rewrite <- (Forall2_length _ _ _ HMs).
    split; intros name; symmetry.
    - rewrite !value_reference_glookup. apply glookup_sim; [|exact HM]. intros X Y HXY.
      pose proof (find_Forall2 sim_value _ _ _ _ (sim_values _ _ HXY)
                    (fun a b H => f_equal (fun n => str_eqb n name) (proj1 H))) as Hf.
      destruct (find _ (m_value_references X)) as [x|], (find _ (m_value_references Y)) as [y|];
        try contradiction; [|reflexivity].
      cbn [option_map]. f_equal. exact (proj2 Hf).
    - rewrite !definition_glookup, !glookup_map. apply glookup_sim; [|exact HM]. intros X Y HXY.
      pose proof (find_Forall2 sim_def _ _ _ _ (sim_defs _ _ HXY)
                    (fun a b H => f_equal (fun n => str_eqb n name) (proj1 H))) as Hf.
      destruct (find _ (m_definitions X)) as [x|], (find _ (m_definitions Y)) as [y|];
        try contradiction; [|reflexivity].
      cbn [option_map]. f_equal. exact (proj2 Hf).
  Qed.

  (* the other modules of the scope only have to keep what the lookups inspect *)
  Theorem subst_module_sim : forall M M', abs_model Ms M M' -> resolve_model Ms' M' = resolve_model Ms M.
  Proof.
    intros M M' HM. pose proof (sim_lookups_agree M M' (abs_model_sim _ _ _ HM)) as Hag.
    destruct HM as [Hn Ho Hi Hv Hd]. symmetry. apply resolve_model_cong; auto; apply rmapM_Forall2.
    - eapply Forall2_mono; [|exact Hv]. intros x y [n a a' v Ha]. unfold resolve_value. cbn [fst snd].
      rewrite (resolve_asn_ext _ _ _ _ Hag), (subst_asn _ _ _ _ Ha). reflexivity.
    - eapply Forall2_mono; [|exact Hd]. intros x y [n a a' Ha]. unfold resolve_named. cbn [fst snd].
      rewrite (resolve_asn_ext _ _ _ _ Hag), (subst_asn _ _ _ _ Ha). reflexivity.
  Qed.
End SimScope.

Theorem subst_module : forall Ms Ms' M M',
  Forall2 (abs_model Ms) Ms Ms' -> abs_model Ms M M' -> resolve_model Ms' M' = resolve_model Ms M.
Proof.
  intros Ms Ms' M M' HMs HM. apply subst_module_sim; [|exact HM].
  eapply Forall2_mono; [|exact HMs]. intros a b. apply abs_model_sim.
Qed.

Theorem subst_all : forall Ms Ms', Forall2 (abs_model Ms) Ms Ms' -> resolve_all Ms' = resolve_all Ms.
Proof.
  intros Ms Ms' HMs. unfold resolve_all. rewrite !resolve_each_rmapM. symmetry. apply rmapM_Forall2.
  eapply Forall2_mono; [|exact HMs]. intros x y Hxy. symmetry. exact (subst_module _ _ _ _ HMs Hxy).
Qed.

(* [ty_site Pi Pu Pd t]: t contains a reference `name`
     at an INTEGER range bound with Pi name, or at a SIZE bound with Pu name, or as the DEFAULT of a SEQUENCE/SET
     component of (unresolved) type t0 with Pd t0 name *)
Section Sites.
  Variables (Pi Pu : str -> Prop) (Pd : uty -> str -> Prop).

  Inductive size_site : size (lit_or_ref N) -> Prop :=
  | site_SFix : forall name e, Pu name -> size_site (SFix (Ref name) e)
  | site_SRange_lo : forall name hi e, Pu name -> size_site (SRange (Ref name) hi e)
  | site_SRange_hi : forall lo name e, Pu name -> size_site (SRange lo (Ref name) e).

  Inductive ty_site : uty -> Prop :=
  | site_Integer_lo : forall name hi e c, Pi name -> ty_site (TInteger (Some (Ref name), hi, e) c)
  | site_Integer_hi : forall lo name e c, Pi name -> ty_site (TInteger (lo, Some (Ref name), e) c)
  | site_String : forall s c, size_site s -> ty_site (TString s c)
  | site_OctetString : forall s, size_site s -> ty_site (TOctetString s)
  | site_BitString : forall s c, size_site s -> ty_site (TBitString s c)
  | site_Optional : forall i, ty_site i -> ty_site (TOptional i)
  | site_Default : forall i l, ty_site i -> ty_site (TDefault i l)
  | site_Sequence_ty : forall n tag t0 d fs e, In (n, (tag, t0, d)) fs -> ty_site t0 -> ty_site (TSequence fs e)
  | site_Sequence_default : forall n tag t0 name fs e,
      In (n, (tag, t0, Some (Ref name))) fs -> Pd t0 name -> ty_site (TSequence fs e)
  | site_SequenceOf_ty : forall i s, ty_site i -> ty_site (TSequenceOf i s)
  | site_SequenceOf_size : forall i s, size_site s -> ty_site (TSequenceOf i s)
  | site_Set_ty : forall n tag t0 d fs e, In (n, (tag, t0, d)) fs -> ty_site t0 -> ty_site (TSet fs e)
  | site_Set_default : forall n tag t0 name fs e,
      In (n, (tag, t0, Some (Ref name))) fs -> Pd t0 name -> ty_site (TSet fs e)
  | site_SetOf_ty : forall i s, ty_site i -> ty_site (TSetOf i s)
  | site_SetOf_size : forall i s, size_site s -> ty_site (TSetOf i s)
  | site_Choice : forall n tag t0 vs e, In (n, tag, t0) vs -> ty_site t0 -> ty_site (TChoice vs e).

  (* the type and the DEFAULT of a definition / of the type of a value assignment *)
  Inductive asn_site : uasn -> Prop :=
  | site_asn_ty : forall tag t d, ty_site t -> asn_site (tag, t, d)
  | site_asn_default : forall tag t name, Pd t name -> asn_site (tag, t, Some (Ref name)).

  Inductive model_site (M : umodel) : Prop :=
  | site_definition : forall n a, In (n, a) (m_definitions M) -> asn_site a -> model_site M
  | site_value : forall n a v, In (n, a, v) (m_value_references M) -> asn_site a -> model_site M.

  (* the sites of a size / type / definition, read off its shape *)
  Lemma size_site_inv : forall s, size_site s ->
    match s with
    | SAny => False
    | SFix n _ => exists name, n = Ref name /\ Pu name
    | SRange lo hi _ => (exists name, lo = Ref name /\ Pu name) \/ (exists name, hi = Ref name /\ Pu name)
    end.
  Proof. intros s H. destruct H; eauto. Qed.

  Lemma asn_site_inv : forall tag t d, asn_site (tag, t, d) -> ty_site t \/ exists name, d = Some (Ref name) /\ Pd t name.
  Proof. intros tag t d H. inversion H; subst; eauto. Qed.

  Lemma ty_site_inv : forall t, ty_site t ->
    match t with
    | TInteger (lo, hi, _) _ =>
        (exists name, lo = Some (Ref name) /\ Pi name) \/ (exists name, hi = Some (Ref name) /\ Pi name)
    | TString s _ | TOctetString s | TBitString s _ => size_site s
    | TOptional i | TDefault i _ => ty_site i
    | TSequence fs _ | TSet fs _ => exists n a, In (n, a) fs /\ asn_site a
    | TSequenceOf i s | TSetOf i s => ty_site i \/ size_site s
    | TChoice vs _ => exists n tag t0, In (n, tag, t0) vs /\ ty_site t0
    | _ => False
    end.
  Proof. intros t H. destruct H; eauto 6 using site_asn_ty, site_asn_default. Qed.

  (* a component list is a list of definitions *)
  Lemma site_fields_asn : forall n a fs e, In (n, a) fs -> asn_site a -> ty_site (TSequence fs e) /\ ty_site (TSet fs e).
  Proof.
    intros n a fs e Hin Ha. revert Hin. destruct Ha as [tag t d Ht|tag t name Hn]; intros Hin; split.
    - eapply site_Sequence_ty; eassumption.
    - eapply site_Set_ty; eassumption.
    - eapply site_Sequence_default; eassumption.
    - eapply site_Set_default; eassumption.
  Qed.
End Sites.

Lemma rbind_not_ok : forall {A B} (r : rres A) (f : A -> rres B),
  (forall a, r <> ROk a) -> forall b, rbind r f <> ROk b.
Proof. intros A B r f Hr b H. apply rbind_ok in H. destruct H as [a [Ha _]]. exact (Hr a Ha). Qed.

Lemma rbind_not_ok_k : forall {A B} (r : rres A) (f : A -> rres B),
  (forall a, r = ROk a -> forall b, f a <> ROk b) -> forall b, rbind r f <> ROk b.
Proof. intros A B r f Hf b H. apply rbind_ok in H. destruct H as [a [Ha H]]. exact (Hf a Ha b H). Qed.

Section SiteErrors.
  Variable Ms : list umodel.
  Variable M : umodel.
  Variables (Pi Pu : str -> Prop) (Pd : uty -> str -> Prop).
  Hypothesis HPi : forall name, Pi name -> forall v, resolve_i64 Ms M (Ref name) <> ROk v.
  Hypothesis HPu : forall name, Pu name -> forall v, resolve_usize Ms M (Ref name) <> ROk v.
  Hypothesis HPd : forall t0 name, Pd t0 name -> forall v, default_of Ms M t0 name <> ROk v.

  Lemma size_site_error : forall s, size_site Pu s -> forall r, resolve_size Ms M s <> ROk r.
  Proof.
    intros s [name e Hn|name hi e Hn|lo name e Hn]; unfold resolve_size.
    - apply rbind_not_ok. exact (HPu _ Hn).
    - apply rbind_not_ok. exact (HPu _ Hn).
    - apply rbind_not_ok_k. intros a _. apply rbind_not_ok. exact (HPu _ Hn).
  Qed.

  Lemma opt_i64_site_error : forall name, Pi name -> forall r, resolve_opt_i64 Ms M (Some (Ref name)) <> ROk r.
  Proof. intros name Hn. unfold resolve_opt_i64. apply rbind_not_ok. exact (HPi _ Hn). Qed.

  Lemma asn_ty_error : forall tag t d,
    (forall r, resolve_ty Ms M t <> ROk r) -> forall r, resolve_asn Ms M (tag, t, d) <> ROk r.
  Proof. intros tag t d Ht. unfold resolve_asn. apply rbind_not_ok. exact Ht. Qed.

  Lemma asn_default_error : forall tag t name,
    Pd t name -> forall r, resolve_asn Ms M (tag, t, Some (Ref name)) <> ROk r.
  Proof.
    intros tag t name Hn. unfold resolve_asn.
    apply rbind_not_ok_k. intros t' Et. apply rbind_not_ok.
    rewrite resolve_default_of, (resolve_ty_default_of _ _ _ _ name Et). exact (HPd _ _ Hn).
  Qed.

  Lemma named_error : forall x l, In x l -> (forall r, resolve_asn Ms M (snd x) <> ROk r) ->
    forall r, rmapM (resolve_named Ms M) l <> ROk r.
  Proof. intros x l Hin Hx. apply (rmapM_not_ok _ _ x Hin). unfold resolve_named. apply rbind_not_ok. exact Hx. Qed.

  Lemma ty_site_error : forall t, ty_site Pi Pu Pd t -> forall r, resolve_ty Ms M t <> ROk r.
  Proof.
    intros t Hs.
    induction Hs as [name hi e c Hn|lo name e c Hn|s c Hs|s Hs|s c Hs|i _ IH|i l _ IH
                    |n tag t0 d fs e Hin _ IH|n tag t0 name fs e Hin Hn|i s _ IH|i s Hs
                    |n tag t0 d fs e Hin _ IH|n tag t0 name fs e Hin Hn|i s _ IH|i s Hs
                    |n tag t0 vs e Hin _ IH].
    all: try rewrite resolve_ty_sequence; try rewrite resolve_ty_set; try rewrite resolve_ty_choice; cbn [resolve_ty].
    (* the part that holds the site is resolved first, or second *)
    all: try (apply rbind_not_ok; eauto using opt_i64_site_error, size_site_error; fail).
    all: try (apply rbind_not_ok_k; intros a _; apply rbind_not_ok; eauto using opt_i64_site_error, size_site_error; fail).
    (* the site is in a component or an alternative *)
    - apply rbind_not_ok. apply (named_error _ _ Hin). apply asn_ty_error. exact IH.
    - apply rbind_not_ok. apply (named_error _ _ Hin). apply asn_default_error. exact Hn.
    - apply rbind_not_ok. apply (named_error _ _ Hin). apply asn_ty_error. exact IH.
    - apply rbind_not_ok. apply (named_error _ _ Hin). apply asn_default_error. exact Hn.
    - apply rbind_not_ok. apply (rmapM_not_ok _ _ _ Hin). unfold resolve_variant. apply rbind_not_ok. exact IH.
  Qed.

  Lemma asn_site_error : forall a, asn_site Pi Pu Pd a -> forall r, resolve_asn Ms M a <> ROk r.
  Proof.
    intros a [tag t d Ht|tag t name Hn]; [apply asn_ty_error; exact (ty_site_error _ Ht) | apply asn_default_error; exact Hn].
  Qed.

  Lemma model_site_error : model_site Pi Pu Pd M -> forall r, resolve_model Ms M <> ROk r.
  Proof.
    intros [n a Hin Ha|n a v Hin Ha]; unfold resolve_model.
    - apply rbind_not_ok_k. intros vals _. apply rbind_not_ok. rewrite resolve_definitions_rmapM.
      apply (named_error _ _ Hin). exact (asn_site_error _ Ha).
    - apply rbind_not_ok. rewrite resolve_values_rmapM. apply (rmapM_not_ok _ _ _ Hin).
      unfold resolve_value. apply rbind_not_ok. exact (asn_site_error _ Ha).
  Qed.
End SiteErrors.

Lemma resolve_each_error : forall Ms M l,
  In M l -> (forall r, resolve_model Ms M <> ROk r) -> forall rs, resolve_each Ms l <> ROk rs.
Proof. intros Ms M l Hin Hbad. rewrite resolve_each_rmapM. exact (rmapM_not_ok _ _ _ Hin Hbad). Qed.

Section SiteInstances.
  Variable Ms : list umodel.
  Variable M : umodel.

  (* the ENUMERATED special case of a DEFAULT fires: the component type is a reference whose definition lookup finds an
     ENUMERATED with an item called `name`.  This is default_kind_of = DItem (enum_default_fires_kind): default_exception
     without its second case, the lookup that does not return *)
  Definition enum_default_fires (t : uty) (name : str) : bool :=
    match ref_name t with
    | None => false
    | Some referenced =>
        match definition Ms (lookup_fuel Ms) M referenced with
        | Found a =>
            match enum_items a with
            | Some variants => match find (fun v => str_eqb name (fst v)) variants with Some _ => true | None => false end
            | None => false
            end
        | _ => false
        end
    end.

  (* a reference that no module binds, at an INTEGER bound, a SIZE bound or as a DEFAULT (unless it names an item
     of the referenced ENUMERATED) *)
  Definition ref_unresolved (name : str) : Prop := vref Ms M name = NotFound.
  Definition ref_unresolved_default (t : uty) (name : str) : Prop :=
    vref Ms M name = NotFound /\ enum_default_fires t name = false.

  (* a reference bound to a value that is not an INTEGER, at an INTEGER bound or a SIZE bound; for SIZE also a
     negative INTEGER *)
  Definition ref_non_integer (name : str) : Prop := exists l, vref Ms M name = Found l /\ forall v, l <> LInteger v.
  Definition ref_non_size (name : str) : Prop :=
    exists l, vref Ms M name = Found l /\ forall v, l = LInteger v -> (v < 0)%Z.

  Lemma enum_default_fires_kind : forall t name,
    enum_default_fires t name = match default_kind_of Ms M t name with DItem _ _ => true | _ => false end.
  Proof.
    intros t name. unfold enum_default_fires, default_kind_of. destruct (ref_name t) as [referenced|]; [|reflexivity].
    destruct (definition Ms (lookup_fuel Ms) M referenced) as [a| |]; cbn [lookup_map]; try reflexivity.
    destruct (enum_items a) as [variants|]; [destruct (find _ variants)|]; reflexivity.
  Qed.

  Lemma i64_not_ok : forall name,
    (forall v, vref Ms M name <> Found (LInteger v)) -> forall v, resolve_i64 Ms M (Ref name) <> ROk v.
  Proof. intros name K v H. apply resolve_i64_ok_iff in H. exact (K v H). Qed.

  Lemma usize_not_ok : forall name,
    (forall v, vref Ms M name = Found (LInteger v) -> (v < 0)%Z) -> forall k, resolve_usize Ms M (Ref name) <> ROk k.
  Proof.
    intros name K k H. apply resolve_usize_ok_iff in H. destruct H as [v [Hv [Hpos _]]]. specialize (K v Hv). lia.
  Qed.

  Lemma unresolved_i64_error : forall name, ref_unresolved name -> forall v, resolve_i64 Ms M (Ref name) <> ROk v.
  Proof. intros name Hn. apply i64_not_ok. intros v Hv. unfold ref_unresolved in Hn. congruence. Qed.

  Lemma unresolved_usize_error : forall name, ref_unresolved name -> forall v, resolve_usize Ms M (Ref name) <> ROk v.
  Proof. intros name Hn. apply usize_not_ok. intros v Hv. unfold ref_unresolved in Hn. congruence. Qed.

  Lemma unresolved_default_error : forall t0 name,
    ref_unresolved_default t0 name -> forall v, default_of Ms M t0 name <> ROk v.
  Proof.
    intros t0 name [Hv Hf] v. unfold default_of. rewrite enum_default_fires_kind in Hf.
    destruct (default_kind_of Ms M t0 name); [|discriminate Hf|discriminate].
    destruct (resolve_leaf_unresolved Ms M name Hv) as [_ [_ El]]. rewrite El. discriminate.
  Qed.

  Lemma non_integer_error : forall name, ref_non_integer name -> forall v, resolve_i64 Ms M (Ref name) <> ROk v.
  Proof.
    intros name [l [Hl Hn]]. apply i64_not_ok. intros v Hv. rewrite Hl in Hv. inversion Hv as [E]. exact (Hn v E).
  Qed.

  Lemma non_size_error : forall name, ref_non_size name -> forall v, resolve_usize Ms M (Ref name) <> ROk v.
  Proof.
    intros name [l [Hl Hneg]]. apply usize_not_ok. intros v Hv. rewrite Hl in Hv. inversion Hv as [E]. exact (Hneg v E).
  Qed.

  Theorem unresolved_is_error_module :
    model_site ref_unresolved ref_unresolved ref_unresolved_default M -> forall r, resolve_model Ms M <> ROk r.
  Proof. exact (model_site_error Ms M _ _ _ unresolved_i64_error unresolved_usize_error unresolved_default_error). Qed.

  Theorem non_integer_is_error_module :
    model_site ref_non_integer ref_non_size (fun _ _ => False) M -> forall r, resolve_model Ms M <> ROk r.
  Proof. apply (model_site_error Ms M _ _ _ non_integer_error non_size_error). intros t0 name []. Qed.
End SiteInstances.

(* the test by which model_with_imported_item picks the module an import refers to *)
Definition import_target (imp : import) (m : umodel) : bool :=
  oid_matches (m_oid m) (i_from_oid imp) || str_eqb (m_name m) (i_from imp).

(* every import of M is answered by at most one module of the scope (two equal copies count as one) *)
Definition unique_targets (Ms : list umodel) (M : umodel) : Prop :=
  forall imp m1 m2, In imp (m_imports M) -> In m1 Ms -> In m2 Ms ->
    import_target imp m1 = true -> import_target imp m2 = true -> m1 = m2.

(* a computable sufficient condition: no import of a module of l is answered at two positions of the scope *)
Lemma unique_targets_by_count : forall Ms l,
  forallb (fun m => forallb (fun imp => (length (filter (import_target imp) Ms) <=? 1)%nat) (m_imports m)) l = true ->
  forall m, In m l -> unique_targets Ms m.
Proof.
  intros Ms l H m Hm imp m1 m2 Himp H1 H2 Hp1 Hp2.
  rewrite forallb_forall in H. specialize (H m Hm). rewrite forallb_forall in H. specialize (H imp Himp).
  apply Nat.leb_le in H.
  assert (I1 : In m1 (filter (import_target imp) Ms)) by (apply filter_In; auto).
  assert (I2 : In m2 (filter (import_target imp) Ms)) by (apply filter_In; auto).
  destruct (filter (import_target imp) Ms) as [|x [|y r]]; cbn [length In] in *.
  - contradiction.
  - destruct I1 as [<-|[]], I2 as [<-|[]]. reflexivity.
  - lia.
Qed.

Section Perm.
  Variables Ms Ms' : list umodel.
  Hypothesis Hperm : Permutation Ms Ms'.
  Hypothesis Huniq : forall m, In m Ms -> unique_targets Ms m.

  Lemma perm_imported : forall M name, unique_targets Ms M ->
    model_with_imported_item Ms' M name = model_with_imported_item Ms M name.
  Proof.
    intros M name HM. unfold model_with_imported_item.
    destruct (find (fun i => existsb (str_eqb name) (i_what i)) (m_imports M)) as [imp|] eqn:E; [|reflexivity].
    apply find_some in E. destruct E as [Himp _]. symmetry.
    apply (find_perm (import_target imp) Ms Ms' Hperm). intros x y. exact (HM imp x y Himp).
  Qed.

  Lemma glookup_perm : forall name (A : Type) (loc : umodel -> option A) f M, unique_targets Ms M ->
    glookup Ms' name A loc f M = glookup Ms name A loc f M.
  Proof.
    intros name A loc. induction f as [|f IH]; intros M HM; cbn [glookup]; rewrite (perm_imported M name HM).
    - reflexivity.
    - destruct (loc M); [reflexivity|].
      destruct (model_with_imported_item Ms M name) as [m'|] eqn:E; [|reflexivity].
      apply IH. apply Huniq. exact (imported_in _ _ _ _ E).
  Qed.

  Lemma perm_lookups_agree : forall M, unique_targets Ms M -> lookups_agree Ms' M Ms M.
  Proof.
    intros M HM. unfold lookups_agree, lookup_fuel. rewrite <- (Permutation_length Hperm).
    split; intros name; [rewrite !value_reference_glookup | rewrite !definition_glookup];
      rewrite (glookup_perm _ _ _ _ M HM); reflexivity.
  Qed.

  Theorem order_irrelevant_module : forall M, unique_targets Ms M -> resolve_model Ms' M = resolve_model Ms M.
  Proof. intros M HM. apply resolve_model_ext. apply perm_lookups_agree. exact HM. Qed.
End Perm.

Lemma rmapM_perm : forall {A B} (f : A -> rres B) l l', Permutation l l' ->
  forall r, rmapM f l = ROk r -> exists r', rmapM f l' = ROk r' /\ Permutation r r'.
Proof.
  intros A B f l l' Hp r H. apply rmapM_ok_iff in H.
  destruct (Permutation_Forall2 Hp H) as [r' [Hr HF]]. exists r'. split; [apply rmapM_ok_iff; exact HF | exact Hr].
Qed.

Theorem order_irrelevant_all : forall Ms Ms',
  Permutation Ms Ms' -> (forall m, In m Ms -> unique_targets Ms m) ->
  forall rs, resolve_all Ms = ROk rs -> exists rs', resolve_all Ms' = ROk rs' /\ Permutation rs rs'.
Proof.
  intros Ms Ms' Hperm Huniq rs H. unfold resolve_all in *. rewrite resolve_each_rmapM in *.
  destruct (rmapM_perm _ _ _ Hperm rs H) as [rs' [H' P]].
  exists rs'. split; [|exact P]. rewrite <- H'. apply rmapM_ext.
  intros m Hm. apply (order_irrelevant_module Ms Ms' Hperm Huniq).
  apply Huniq. eapply Permutation_in; [apply Permutation_sym; exact Hperm|exact Hm].
Qed.

Lemma unique_targets_perm : forall Ms Ms', Permutation Ms Ms' ->
  (forall m, In m Ms -> unique_targets Ms m) -> forall m, In m Ms' -> unique_targets Ms' m.
Proof.
  intros Ms Ms' Hperm Huniq m Hm imp m1 m2 Himp H1 H2 Hp1 Hp2.
  pose proof (Permutation_sym Hperm) as Hs.
  apply (Huniq m (Permutation_in _ Hs Hm) imp m1 m2 Himp (Permutation_in _ Hs H1) (Permutation_in _ Hs H2) Hp1 Hp2).
Qed.

(* [lit_ty Ms M t]: every reference of t at an INTEGER bound that the lookup binds to an INTEGER, at a SIZE bound that it
   binds to a non-negative INTEGER, at a DEFAULT that it binds to any value (unless the F12 exception applies) is
   replaced by the literal found; all other references (the ones that make resolving fail) are kept *)
Section Literalize.
  Variable Ms : list umodel.
  Variable M : umodel.

  Definition lit_i64 (x : lit_or_ref Z) : lit_or_ref Z :=
    match x with
    | Ref name => match vref Ms M name with Found (LInteger v) => Lit v | _ => x end
    | Lit _ => x
    end.

  Definition lit_usize (x : lit_or_ref N) : lit_or_ref N :=
    match x with
    | Ref name => match vref Ms M name with
                  | Found (LInteger v) => if (v <? 0)%Z then x else Lit (Z.to_N v)
                  | _ => x
                  end
    | Lit _ => x
    end.

  Definition lit_size (s : size (lit_or_ref N)) : size (lit_or_ref N) :=
    match s with
    | SAny => SAny
    | SFix n e => SFix (lit_usize n) e
    | SRange lo hi e => SRange (lit_usize lo) (lit_usize hi) e
    end.

  Definition lit_default (t : uty) (d : option (lit_or_ref literal)) : option (lit_or_ref literal) :=
    match d with
    | Some (Ref name) =>
        if default_exception Ms M t name then d
        else match vref Ms M name with Found l => Some (Lit l) | _ => d end
    | _ => d
    end.

  Fixpoint lit_ty (t : uty) : uty :=
    match t with
    | TInteger (lo, hi, e) c => TInteger (option_map lit_i64 lo, option_map lit_i64 hi, e) c
    | TString s c => TString (lit_size s) c
    | TOctetString s => TOctetString (lit_size s)
    | TBitString s c => TBitString (lit_size s) c
    | TOptional i => TOptional (lit_ty i)
    | TDefault i l => TDefault (lit_ty i) l
    | TSequence fs e =>
        TSequence (map (fun f : ufield => match f with (n, (tag, t0, d)) => (n, (tag, lit_ty t0, lit_default t0 d)) end) fs) e
    | TSequenceOf i s => TSequenceOf (lit_ty i) (lit_size s)
    | TSet fs e =>
        TSet (map (fun f : ufield => match f with (n, (tag, t0, d)) => (n, (tag, lit_ty t0, lit_default t0 d)) end) fs) e
    | TSetOf i s => TSetOf (lit_ty i) (lit_size s)
    | TChoice vs e =>
        TChoice (map (fun v : str * option atag * uty => match v with (n, tag, t0) => (n, tag, lit_ty t0) end) vs) e
    | _ => t
    end.

  Definition lit_asn (a : uasn) : uasn := match a with (tag, t, d) => (tag, lit_ty t, lit_default t d) end.

  Definition lit_model : umodel :=
    {| m_name := m_name M; m_oid := m_oid M; m_imports := m_imports M;
       m_definitions := map (fun x : str * uasn => (fst x, lit_asn (snd x))) (m_definitions M);
       m_value_references := map (fun x : str * uasn * literal => (fst (fst x), lit_asn (snd (fst x)), snd x))
                               (m_value_references M) |}.

  (* a bound is replaced exactly when it resolves *)
  Lemma lit_i64_spec : forall name,
    lit_i64 (Ref name) = match resolve_i64 Ms M (Ref name) with ROk v => Lit v | _ => Ref name end.
  Proof.
    intros name. unfold lit_i64, resolve_i64, vref.
    destruct (value_reference Ms (lookup_fuel Ms) M name) as [[b|s|z|bs|t0 v0]| |]; reflexivity.
  Qed.

  Lemma lit_usize_spec : forall name,
    lit_usize (Ref name) = match resolve_usize Ms M (Ref name) with ROk k => Lit k | _ => Ref name end.
  Proof.
    intros name. unfold lit_usize, resolve_usize, vref.
    destruct (value_reference Ms (lookup_fuel Ms) M name) as [[b|s|z|bs|t0 v0]| |]; try reflexivity.
    destruct (z <? 0)%Z; reflexivity.
  Qed.

  Lemma lit_ty_ref_name : forall t, ref_name (lit_ty t) = ref_name t.
  Proof. intros t. destruct t as [ |[[lo hi] e] c|s c|s|s c| |i|i l|fs e|i s|fs e|i s|v e|vs e|n tg]; reflexivity. Qed.

  Lemma default_exception_lit_ty : forall Ms' M' t name,
    default_exception Ms' M' (lit_ty t) name = default_exception Ms' M' t name.
  Proof. intros Ms' M' t name. unfold default_exception. rewrite lit_ty_ref_name. reflexivity. Qed.

  (* what lit_ty maps over component lists *)
  Definition lit_field (f : ufield) : ufield :=
    match f with (n, (tag, t0, d)) => (n, (tag, lit_ty t0, lit_default t0 d)) end.

  Lemma lit_model_sim : sim_model lit_model M.
  Proof.
    constructor; try reflexivity; cbn [lit_model m_value_references m_definitions]; apply Forall2_map_l.
    - intros x. split; reflexivity.
    - intros [n [[tag t] d]]. split; [reflexivity|]. destruct t as [ |[[lo hi] e] c| | | | | | | | | | | | | ]; reflexivity.
  Qed.
End Literalize.

(* the literalization relative to (Ms, M) is an abstraction relative to any (Ms', M') with the same lookups: (Ms, M)
   itself, and the literalized scope *)
Section LiteralizeAbs.
  Variables (Ms : list umodel) (M : umodel) (Ms' : list umodel) (M' : umodel).
  Hypothesis Hagree : lookups_agree Ms M Ms' M'.

  Lemma lit_i64_abs : forall x, abs_i64 Ms' M' (lit_i64 Ms M x) x.
  Proof.
    intros [z|name]; [apply abs_i64_same|]. rewrite lit_i64_spec.
    destruct (resolve_i64 Ms M (Ref name)) as [v| |] eqn:E; try apply abs_i64_same.
    apply abs_i64_ref. unfold vref. rewrite <- (proj1 Hagree name). exact (proj1 (resolve_i64_ok_iff Ms M name v) E).
  Qed.

  Lemma lit_opt_i64_abs : forall o, abs_opt_i64 Ms' M' (option_map (lit_i64 Ms M) o) o.
  Proof. intros [x|]; constructor. apply lit_i64_abs. Qed.

  Lemma lit_usize_abs : forall x, abs_usize Ms' M' (lit_usize Ms M x) x.
  Proof.
    intros [z|name]; [apply abs_usize_same|]. rewrite lit_usize_spec.
    destruct (resolve_usize Ms M (Ref name)) as [k| |] eqn:E; try apply abs_usize_same.
    apply resolve_usize_ok_iff in E. destruct E as [v [Hv [Hpos ->]]].
    apply abs_usize_ref; [|exact Hpos]. unfold vref. rewrite <- (proj1 Hagree name). exact Hv.
  Qed.

  Lemma lit_size_abs : forall s, abs_size Ms' M' (lit_size Ms M s) s.
  Proof. intros [|n e|lo hi e]; constructor; apply lit_usize_abs. Qed.

  Lemma lit_default_abs : forall t d, abs_default Ms' M' (lit_ty Ms M t) (lit_default Ms M t d) d.
  Proof.
    intros t [[l|name]|]; try apply abs_default_same. unfold lit_default.
    destruct (default_exception Ms M t name) eqn:Ex; [apply abs_default_same|].
    destruct (vref Ms M name) as [l| |] eqn:E; try apply abs_default_same.
    apply abs_default_ref.
    - unfold vref in *. rewrite <- (proj1 Hagree name). exact E.
    - rewrite default_exception_lit_ty, <- (default_exception_ext _ _ _ _ Hagree). exact Ex.
  Qed.

  Lemma lit_fields_abs : forall fs : list ufield,
    (forall f, In f fs -> abs_ty Ms' M' (lit_ty Ms M (snd (fst (snd f)))) (snd (fst (snd f)))) ->
    abs_fields Ms' M' (map (lit_field Ms M) fs) fs.
  Proof.
    induction fs as [|[n [[tag t0] d]] r IHr]; intros H; cbn [map lit_field]; constructor.
    - exact (H _ (or_introl eq_refl)).
    - apply lit_default_abs.
    - apply IHr. intros f Hf. apply H. right. exact Hf.
  Qed.

  Lemma lit_ty_abs : forall t, abs_ty Ms' M' (lit_ty Ms M t) t.
  Proof.
    induction t as [ |[[lo hi] e] c|s c|s|s c| |i IH|i l IH|fs e IH|i s IH|fs e IH|i s IH|v e|vs e IH|n tg]
      using ty_nested_ind; cbn [lit_ty]; try apply abs_same.
    (* the constructor of abs_ty for this shape; its parts by the lemmas above and the induction hypothesis *)
    all: constructor; auto using lit_opt_i64_abs, lit_size_abs, lit_fields_abs.
    induction vs as [|[[n tag] t0] r IHr]; cbn [map]; constructor.
    - exact (IH _ (or_introl eq_refl)).
    - apply IHr. intros v Hv. apply IH. right. exact Hv.
  Qed.

  Lemma lit_asn_abs : forall a, abs_asn Ms' M' (lit_asn Ms M a) a.
  Proof. intros [[tag t] d]. constructor; [apply lit_ty_abs|apply lit_default_abs]. Qed.
End LiteralizeAbs.

(* every module of the scope literalized (each relative to the original scope) *)
Definition lit_scope (Ms : list umodel) : list umodel := map (lit_model Ms) Ms.

Lemma lit_model_abs : forall Ms M, abs_model (lit_scope Ms) (lit_model Ms M) M.
Proof.
  intros Ms M.
  pose proof (sim_lookups_agree (lit_scope Ms) Ms (Forall2_map_l _ _ Ms (lit_model_sim Ms))
                (lit_model Ms M) M (lit_model_sim Ms M)) as Hag.
  constructor; try reflexivity; cbn [lit_model m_value_references m_definitions]; apply Forall2_map_l.
  - intros [[n a] v]. constructor. exact (lit_asn_abs _ _ _ _ Hag a).
  - intros [n a]. constructor. exact (lit_asn_abs _ _ _ _ Hag a).
Qed.

Lemma lit_scope_abs : forall Ms, Forall2 (abs_model (lit_scope Ms)) (lit_scope Ms) Ms.
Proof. intros Ms. apply Forall2_map_l. apply lit_model_abs. Qed.

(* completeness of the literalization: when the module resolves, no reference is left (outside F12) *)
Section Complete.
  Variable Ms : list umodel.
  Variable M : umodel.

  Definition any_ref (name : str) : Prop := True.
  (* a DEFAULT reference outside the F12 exception *)
  Definition plain_default (t : uty) (name : str) : Prop := default_exception Ms M t name = false.

  (* literalization keeps a reference exactly when it does not resolve *)
  Definition kept_i64 (name : str) : Prop := forall v, resolve_i64 Ms M (Ref name) <> ROk v.
  Definition kept_usize (name : str) : Prop := forall k, resolve_usize Ms M (Ref name) <> ROk k.
  Definition kept_default (t : uty) (name : str) : Prop := forall v, default_of Ms M t name <> ROk v.

  Lemma lit_i64_kept : forall x name, lit_i64 Ms M x = Ref name -> x = Ref name /\ kept_i64 name.
  Proof.
    intros [z|n0] name H; [discriminate|]. rewrite lit_i64_spec in H.
    destruct (resolve_i64 Ms M (Ref n0)) as [v| |] eqn:E; [discriminate| |]; inversion H; subst.
    all: split; [reflexivity|]; intros v; rewrite E; discriminate.
  Qed.

  Lemma lit_usize_kept : forall x name, lit_usize Ms M x = Ref name -> x = Ref name /\ kept_usize name.
  Proof.
    intros [z|n0] name H; [discriminate|]. rewrite lit_usize_spec in H.
    destruct (resolve_usize Ms M (Ref n0)) as [k| |] eqn:E; [discriminate| |]; inversion H; subst.
    all: split; [reflexivity|]; intros k; rewrite E; discriminate.
  Qed.

  Lemma lit_opt_i64_kept : forall o name,
    option_map (lit_i64 Ms M) o = Some (Ref name) -> o = Some (Ref name) /\ kept_i64 name.
  Proof.
    intros [x|] name H; [|discriminate]. inversion H as [E]. destruct (lit_i64_kept _ _ E) as [-> K]. auto.
  Qed.

  Lemma lit_size_kept : forall s, size_site any_ref (lit_size Ms M s) -> size_site kept_usize s.
  Proof.
    intros [|n e|lo hi e] H; apply size_site_inv in H; cbn [lit_size] in H.
    - destruct H.
    - destruct H as [name [E _]]. destruct (lit_usize_kept _ _ E) as [-> K]. apply site_SFix. exact K.
    - destruct H as [[name [E _]] | [name [E _]]]; destruct (lit_usize_kept _ _ E) as [-> K].
      + apply site_SRange_lo. exact K.
      + apply site_SRange_hi. exact K.
  Qed.

  Lemma lit_default_kept : forall t d name,
    lit_default Ms M t d = Some (Ref name) -> plain_default (lit_ty Ms M t) name -> d = Some (Ref name) /\ kept_default t name.
  Proof.
    intros t [[l|n0]|] name H Hp; try discriminate. unfold lit_default in H.
    unfold plain_default in Hp. rewrite default_exception_lit_ty in Hp.
    destruct (default_exception Ms M t n0) eqn:Ex.
    - inversion H; subst. rewrite Hp in Ex. discriminate.
    - rewrite default_exception_kind in Ex.
      destruct (vref Ms M n0) as [l| |] eqn:E; try discriminate; inversion H; subst.
      all: split; [reflexivity|]; intros v; unfold default_of, resolve_literal; fold (vref Ms M name); rewrite E.
      all: destruct (default_kind_of Ms M t name); [discriminate | discriminate Ex | discriminate].
  Qed.

  Lemma lit_asn_kept_ty : forall a,
    (ty_site any_ref any_ref plain_default (lit_ty Ms M (snd (fst a))) ->
     ty_site kept_i64 kept_usize kept_default (snd (fst a))) ->
    asn_site any_ref any_ref plain_default (lit_asn Ms M a) -> asn_site kept_i64 kept_usize kept_default a.
  Proof.
    intros [[tag t] d] IH H. cbn [lit_asn fst snd] in *. apply asn_site_inv in H. destruct H as [H | [name [E P]]].
    - apply site_asn_ty. apply IH. exact H.
    - destruct (lit_default_kept _ _ _ E P) as [-> K]. apply site_asn_default. exact K.
  Qed.

  Lemma lit_fields_kept : forall (fs : list ufield) n a,
    (forall f, In f fs -> ty_site any_ref any_ref plain_default (lit_ty Ms M (snd (fst (snd f)))) ->
                          ty_site kept_i64 kept_usize kept_default (snd (fst (snd f)))) ->
    In (n, a) (map (lit_field Ms M) fs) -> asn_site any_ref any_ref plain_default a ->
    exists a0, In (n, a0) fs /\ asn_site kept_i64 kept_usize kept_default a0.
  Proof.
    intros fs n a IH Hin Ha. apply in_map_iff in Hin. destruct Hin as [[n1 [[tag1 t1] d1]] [Heq Hmem]].
    inversion Heq; subst. exists (tag1, t1, d1). split; [exact Hmem|].
    apply lit_asn_kept_ty; [exact (IH _ Hmem) | exact Ha].
  Qed.

  Lemma lit_ty_kept : forall t,
    ty_site any_ref any_ref plain_default (lit_ty Ms M t) -> ty_site kept_i64 kept_usize kept_default t.
  Proof.
    induction t as [ |[[lo hi] e] c|s c|s|s c| |i IH|i l IH|fs e IH|i s IH|fs e IH|i s IH|v e|vs e IH|n tg]
      using ty_nested_ind; intros H; apply ty_site_inv in H; cbn [lit_ty] in H; try contradiction.
    - destruct H as [[name [E _]] | [name [E _]]]; destruct (lit_opt_i64_kept _ _ E) as [-> K].
      + apply site_Integer_lo. exact K.
      + apply site_Integer_hi. exact K.
    - apply site_String. apply lit_size_kept. exact H.
    - apply site_OctetString. apply lit_size_kept. exact H.
    - apply site_BitString. apply lit_size_kept. exact H.
    - apply site_Optional. apply IH. exact H.
    - apply site_Default. apply IH. exact H.
    - destruct H as [n [a [Hin Ha]]]. destruct (lit_fields_kept fs n a IH Hin Ha) as [a0 [Hmem Ha0]].
      exact (proj1 (site_fields_asn _ _ _ _ _ _ e Hmem Ha0)).
    - destruct H as [H | H]; [apply site_SequenceOf_ty; apply IH | apply site_SequenceOf_size; apply lit_size_kept]; exact H.
    - destruct H as [n [a [Hin Ha]]]. destruct (lit_fields_kept fs n a IH Hin Ha) as [a0 [Hmem Ha0]].
      exact (proj2 (site_fields_asn _ _ _ _ _ _ e Hmem Ha0)).
    - destruct H as [H | H]; [apply site_SetOf_ty; apply IH | apply site_SetOf_size; apply lit_size_kept]; exact H.
    - destruct H as [n [tag [t0 [Hin Ht]]]]. apply in_map_iff in Hin. destruct Hin as [[[n1 tag1] t1] [Heq Hmem]].
      inversion Heq; subst. eapply site_Choice; [exact Hmem|]. exact (IH _ Hmem Ht).
  Qed.

  Lemma lit_asn_kept : forall a,
    asn_site any_ref any_ref plain_default (lit_asn Ms M a) -> asn_site kept_i64 kept_usize kept_default a.
  Proof. intros a. apply lit_asn_kept_ty. apply lit_ty_kept. Qed.

  Lemma lit_model_kept :
    model_site any_ref any_ref plain_default (lit_model Ms M) -> model_site kept_i64 kept_usize kept_default M.
  Proof.
    intros [n a Hin Ha|n a v Hin Ha]; cbn [lit_model m_definitions m_value_references] in Hin;
      apply in_map_iff in Hin.
    - destruct Hin as [[n1 a1] [Heq Hin]]. cbn [fst snd] in Heq. inversion Heq; subst.
      eapply site_definition; [exact Hin|]. apply lit_asn_kept. exact Ha.
    - destruct Hin as [[[n1 a1] v1] [Heq Hin]]. cbn [fst snd] in Heq. inversion Heq; subst.
      eapply site_value; [exact Hin|]. apply lit_asn_kept. exact Ha.
  Qed.
End Complete.
