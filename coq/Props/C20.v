(* C20 — DER primitives round trip: identifier, length, BOOLEAN, INTEGER, ENUMERATED.
   The theorems are stated here; each is proved by a lemma of Der/Proofs.v or derived from its
   lemmas in a few lines. *)
From A1 Require Import Der.Prim Der.Proofs.
Local Open Scope N_scope.

Theorem C20_length : forall l tail, is_u64 l ->
  read_length (write_length l ++ tail) = Ok (l, tail).
Proof. exact read_length_write. Qed.

Theorem C20_ident : forall c n tail, n < 64 ->
  read_identifier (write_identifier c n ++ tail) = Ok (c, n, tail).
Proof. exact read_identifier_write. Qed.

(* exactly: a single identifier octet carries tag numbers below 64 and no others (the reader never
   returns a number >= 64, so a larger tag number cannot round-trip; no generated type has one) *)
Theorem C20_ident_exact : forall c n tail,
  read_identifier (write_identifier c n ++ tail) = Ok (c, n, tail) <-> n < 64.
Proof. intros c n tail. split; [apply read_identifier_value_lt|apply read_identifier_write]. Qed.

Theorem C20_ident_value_bound : forall inp c n rest,
  read_identifier inp = Ok (c, n, rest) -> n < 64.
Proof. exact read_identifier_value_lt. Qed.

Theorem C20_boolean : forall c tag b tail, tag < 64 ->
  r_boolean tag (w_boolean c tag b ++ tail) = Ok (b, tail).
Proof.
  intros c tag b tail Ht. unfold r_boolean, w_boolean. rewrite <- !app_assoc.
  rewrite read_identifier_write by exact Ht. cbn [bind].
  rewrite N.eqb_refl. cbn [negb].
  rewrite read_length_write by reflexivity. cbn [bind].
  rewrite N.eqb_refl. cbn [negb]. apply read_boolean_write.
Qed.

Theorem C20_boolean_nonzero : forall b tail, b <> 0 ->
  read_boolean (b :: tail) = Ok (true, tail).
Proof.
  intros b tail H. unfold read_boolean. change (b :: tail) with ([b] ++ tail).
  rewrite read_exact_app by reflexivity. cbn [bind hd].
  destruct (N.eqb_spec b 0); [contradiction|reflexivity].
Qed.

Theorem C20_int : forall k c tag v tail, tag < 64 -> ik_fits k v ->
  r_number k tag (w_number k c tag v ++ tail) = Ok (v, tail).
Proof. exact r_number_w_number. Qed.

Theorem C20_enum : forall c tag n i tail, tag < 64 -> i < n -> is_u64 i ->
  r_enumerated n tag (w_enumerated c tag i ++ tail) = Ok (i, tail).
Proof.
  intros c tag n i tail Ht Hi H64. unfold r_enumerated, w_enumerated.
  rewrite r_number_w_number; [|exact Ht|].
  - cbn [bind]. rewrite N2Z.id. destruct (N.ltb_spec i n); [reflexivity|lia].
  - unfold ik_fits, is_u64 in *. cbn [ik_signed ik_bits]. change (2 ^ Z.of_N 64)%Z with (Z.of_N two64). lia.
Qed.

(* non-vacuity: the hypotheses are inhabited by non-trivial values *)
Example C20_nonvacuous :
  is_u64 70000 /\ ik_fits I16 (-300)%Z /\ (5 < 64) /\
  w_number I16 ContextSpecific 5 (-300)%Z = [133; 8; 255; 255; 255; 255; 255; 255; 254; 212] /\
  write_length 70000 = [131; 1; 17; 112].
Proof. vm_compute. repeat split; congruence. Qed.

Print Assumptions C20_length.
Print Assumptions C20_ident.
Print Assumptions C20_ident_exact.
Print Assumptions C20_ident_value_bound.
Print Assumptions C20_boolean.
Print Assumptions C20_boolean_nonzero.
Print Assumptions C20_int.
Print Assumptions C20_enum.
