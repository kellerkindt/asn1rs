(* C04 — decoders never panic, hang or over-read on arbitrary input.  The theorems are stated
   here; each is proved by a theorem of C10 or C11 or by a lemma of the proof files of its layer,
   or derived from such lemmas in a few lines; witnesses are closed terms evaluated here.
   In the model every partial Rust operation (indexing, unchecked arithmetic per profile, allocation,
   unwrap, debug assertions) is an explicit [Panic] outcome, so "never panics" is a statement about outcomes. It is
   written [is_panic r = false], [np r] (Per/Proofs.v; the same by unfolding), [forall p, r <> Panic p] (protobuf), or
   as the arm [Panic _ => False] of a match where the theorem also speaks of the successful outcome. *)
From A1 Require Props.C10 Props.C11.
From A1 Require Der.TotalProofs.
From A1 Require Import Uper.Spec Uper.TotalProofs.
From A1 Require Proto.TotalProofs.
Local Open Scope N_scope.

(** L0: the bit copy under every read never panics when positions do not overflow *)
Theorem C04_bit_copy_no_panic : forall m src sp dst dp len,
  Forall (fun b => b < 256) src -> Forall (fun b => b < 256) dst ->
  sp + len < two64 -> dp + len < two64 ->
  is_panic (A1.Bits.Copy.bit_string_copy_bulked m src sp dst dp len) = false.
Proof. exact C11.C11_bulk_no_panic. Qed.

(** L1: the PER primitive readers on arbitrary sources, both cargo profiles *)
Theorem C04_per_readers_no_panic : forall m s,
  np (r_nnbi m None None s) /\
  (forall lb ub, nn_bounded lb ub ->
     opt_or lb 0 + 2 ^ N.size (opt_or ub I64_MAX - opt_or lb 0) <= two64 -> np (r_nnbi m lb ub s)) /\
  (forall lb ub, opt_or lb 0 < two64 -> ~ Known_C10_length_semi_or_large_bound lb ub ->
     np (r_length_determinant m lb ub s)) /\
  (forall k, np (r_2s_compliment k s)) /\
  (forall lb ub, np (r_constrained m lb ub s)) /\
  np (r_normally_small m s) /\
  (forall lb, np (r_semi_constrained m lb s)) /\
  np (r_unconstrained m s) /\
  (forall std ext, std < two64 -> np (r_enumeration_index m std ext s)).
Proof. exact C10.C10_no_panic_readers. Qed.

Theorem C04_octetstring_reader_no_panic : forall m lb ub extensible s,
  ~ Known_C10_length_semi_or_large_bound lb ub -> opt_or lb 0 <= opt_or ub I64_MAX ->
  np (r_octetstring m lb ub extensible s).
Proof. exact C10.C10_no_panic_octetstring_read. Qed.

(* the listed finding F04-1 / F10-3: a 63-bit length from the input is allocated *)
Theorem C04_refuted_untrusted_length_alloc :
  exists m lb bytes,
    is_panic (r_octetstring m (Some lb) None false (src_of_bytes bytes (8 * blen bytes))) = true.
Proof.
  destruct C10.C10_refuted_octetstring_alloc as (m & lb & bytes & E).
  exists m, lb, bytes. rewrite E. reflexivity.
Qed.

(** no success beyond the declared length: a bit read succeeds only strictly inside it *)
Theorem C04_read_bit_within_len : forall s b s',
  r_bit s = Ok (b, s') -> s_pos s < s_len s /\ s_pos s' = s_pos s + 1 /\ s_len s' = s_len s.
Proof. intros s b s' E. destruct (r_bit_adv s b s' E) as [L ->]. unfold rem in L. cbn. lia. Qed.

Theorem C04_read_bits_within_len : forall s dst doff n bs s',
  r_bits_into s dst doff n = Ok (bs, s') ->
  s_pos s + n <= s_len s \/ s_len s < s_pos s /\ n = 0.
Proof. intros s dst doff n bs s' E. apply r_bits_into_adv in E. destruct E as [[L _] _]. unfold rem in L. lia. Qed.

(** DER: the primitive readers and the implemented BasicReader arms are total on every byte string *)
Theorem C04_der_total : forall inp,
  is_panic (A1.Der.Prim.read_length inp) = false /\
  is_panic (A1.Der.Prim.read_identifier inp) = false /\
  is_panic (A1.Der.Prim.read_boolean inp) = false /\
  (forall n, is_panic (A1.Der.Prim.read_integer_i64 n inp) = false) /\
  (forall n, is_panic (A1.Der.Prim.read_integer_u64 n inp) = false) /\
  (forall k tag, is_panic (A1.Der.Prim.r_number k tag inp) = false) /\
  (forall tag, is_panic (A1.Der.Prim.r_boolean tag inp) = false) /\
  (forall n tag, is_panic (A1.Der.Prim.r_enumerated n tag inp) = false).
Proof. exact A1.Der.TotalProofs.der_total. Qed.

(** * L2: the UPER reader [read_ty] (model of `impl Reader for UperReader`) is total.

   Vocabulary (Uper/TotalProofs.v):
     [src_inv s]    the source invariant: the unread bits are the suffix of the slice at the cursor
                    ([s_rest s = skipn (s_pos s) (s_all s)]), [s_pos s <= s_len s], and the declared bit
                    length is below 2^63 (a bit count of a Rust slice);
     [same_src s s'] same slice, same slice length, same declared length;
     [Known_C04 t]  the type contains, anywhere, a member of a listed finding family:
        (F04-1) [Known_C04_size lo hi]: a size constraint of a restricted string (not UTF8String, whose reader
                ignores it) / OCTET STRING / BIT STRING / SEQUENCE OF with a lower bound and no upper bound, or an
                upper bound of 64K or more: the count read from the input, a field of 17 to 63 bits, is allocated as it comes
                (SEQUENCE OF: `Vec::with_capacity(len)`);
        (F04-3) [Known_C04_bits_unconstrained lo hi ext]: a BIT STRING whose length can arrive in the
                unconstrained form (no bounds at all, or an extension marker): the fragment loop of
                read_bitstring underflows for 16384 bits or more.
   Every panic class of the model is covered: P_ARITH (unchecked arithmetic, dev profile), P_CAPACITY /
   P_UNBOUNDED (allocation or loop sized by the input), P_UNWRAP (read_opt / read_default), P_ASSERT (the
   `debug_assert!(scope.exhausted())` of scope_pushed, dev profile), P_OTHER (states the model calls unreachable). *)
Theorem C04_uper_total : forall m t s, wf_ty t -> ~ Known_C04 t -> src_inv s ->
  match read_ty m t (r_of_src s) with
  | Ok (_, r') => s_pos (r_src r') <= s_len s /\ src_inv (r_src r') /\ s_len (r_src r') = s_len s
  | Err _ => True
  | Panic _ => False
  end.
Proof.
  intros m t s Hty Hk Hi.
  pose proof (read_total m t Hty Hk s (r_of_src s) eq_refl (conj Hi (same_src_refl s))) as G.
  destruct (read_ty m t (r_of_src s)) as [[v r']| |]; [|exact I|exact G].
  destruct G as [[G1 (_ & _ & G2)] _]. pose proof G1 as (_ & P & _).
  split; [lia|]. split; [exact G1|exact G2].
Qed.

(* every byte string, every declared bit length below 2^63, both cargo profiles *)
Theorem C04_uper_total_bytes : forall m t bytes len, wf_ty t -> ~ Known_C04 t -> len < two63 ->
  is_panic (read_ty m t (r_of_src (src_of_bytes bytes len))) = false.
Proof.
  intros m t bytes len Hty Hk Hl. pose proof (C04_uper_total m t _ Hty Hk (src_of_bits_inv (bits_of_bytes bytes) len Hl)) as G.
  destruct (read_ty m t _) as [[v r']| |]; [reflexivity|reflexivity|contradiction].
Qed.

Theorem C04_src_of_bytes_inv : forall bytes len, len < two63 -> src_inv (src_of_bytes bytes len).
Proof. intros bytes. exact (src_of_bits_inv _). Qed.

(* the remaining-bit count does not underflow: before the read, and in the state after every successful
   read; a failed read (Err) returns no state in the model -- the caller keeps the state it passed in, which
   is within the invariant -- and every intermediate state of every primitive keeps [s_pos <= s_len]
   ([C04_pos_le_len_preserved]) *)
Theorem C04_remaining_callable : forall m t s, wf_ty t -> ~ Known_C04 t -> src_inv s ->
  src_remaining m s = Ok (s_len s - s_pos s) /\
  forall v r', read_ty m t (r_of_src s) = Ok (v, r') ->
    src_remaining m (r_src r') = Ok (s_len s - s_pos (r_src r')).
Proof. exact remaining_callable. Qed.

Theorem C04_remaining_in_invariant : forall m s, src_inv s -> src_remaining m s = Ok (s_len s - s_pos s).
Proof. exact remaining_ok. Qed.

(* [pos_le_len f]: on success from a source in the invariant the output source is in the invariant,
   with the cursor within the (unchanged) declared length *)
Theorem C04_pos_le_len_preserved : forall m,
  pos_le_len r_bit /\
  (forall d o n, pos_le_len (fun s => r_bits_into s d o n)) /\
  (forall p, pos_le_len (fun s => Ok (tt, src_set_pos s p))) /\
  (forall lb ub, pos_le_len (r_nnbi m lb ub)) /\
  (forall lb ub, pos_le_len (r_length_determinant m lb ub)) /\
  (forall k, pos_le_len (r_2s_compliment k)) /\
  (forall lb ub, pos_le_len (r_constrained m lb ub)) /\
  pos_le_len (r_normally_small m) /\
  pos_le_len (r_unconstrained m) /\
  (forall std ext, pos_le_len (r_enumeration_index m std ext)) /\
  (forall lb ub ext, pos_le_len (r_octetstring m lb ub ext)) /\
  (forall lb u, pos_le_len (r_bitstring m lb (Some u) false)).
Proof.
  intros m. assert (Hset : forall p, keeps (fun s => Ok (tt, src_set_pos s p))).
  { intros p s a s' Hi E. injection E as _ <-. apply src_set_pos_inv. exact Hi. }
  repeat match goal with |- _ /\ _ => split end; intros; apply keeps_pos_le_len; auto with keeps.
Qed.

(* the entry call of a component in any scope of a field walk never panics, never answers None to an
   OPTIONAL/DEFAULT component (no unwrap of None), and leaves a state within the invariant even when it
   reports an error (SEQUENCE drops that error) *)
Theorem C04_entry_total : forall m r sc (o e : bool) n k,
  src_inv (r_src r) -> r_scope r = Some sc -> winv e sc (n + 1) (k + (if o then 1 else 0)) ->
  entry_post e n k o (r_src r) (read_bit_field_entry_st m r o).
Proof. exact entry_good. Qed.

(** the excluded classes contain panics: F04-1 *)
Theorem C04_refuted_size_octets :
  let t := TOctets (Some 1) None false in
  wf_ty t /\ Known_C04 t /\ run_bytes release_mode t [255; 255; 255; 255; 255; 255; 255; 255] = Panic P_CAPACITY.
Proof. cbv zeta. split; [exact I|]. split; [discriminate|]. vm_compute. reflexivity. Qed.
Theorem C04_refuted_size_string :
  let t := TStr Ia5 (Some 1) None false in
  wf_ty t /\ Known_C04 t /\ run_bytes release_mode t [255; 255; 255; 255; 255; 255; 255; 255] = Panic P_CAPACITY.
Proof. cbv zeta. split; [exact I|]. split; [discriminate|]. vm_compute. reflexivity. Qed.
Theorem C04_refuted_size_bitstring :
  let t := TBitStr (Some 1) None false in
  wf_ty t /\ Known_C04 t /\ run_bytes release_mode t [255; 255; 255; 255; 255; 255; 255; 255] = Panic P_UNBOUNDED.
Proof. cbv zeta. split; [exact I|]. split; [left; discriminate|]. vm_compute. reflexivity. Qed.
Theorem C04_refuted_size_sequence_of :
  let t := TListOf TBool (Some 1) None false in
  wf_ty t /\ Known_C04 t /\ run_bytes release_mode t [255; 255; 255; 255; 255; 255; 255; 255] = Panic P_CAPACITY.
Proof. cbv zeta. split; [split; exact I|]. split; [left; discriminate|]. vm_compute. reflexivity. Qed.
Theorem C04_refuted_size_large_upper :
  let t := TOctets None (Some 1099511627776) false in
  wf_ty t /\ Known_C04 t /\ run_bytes release_mode t [255; 255; 255; 255; 255; 255; 255; 255] = Panic P_UNBOUNDED.
Proof. cbv zeta. split; [exact I|]. split; [cbn; lia|]. vm_compute. reflexivity. Qed.

(** F04-3 *)
Theorem C04_refuted_bitstring_unconstrained :
  let t := TBitStr None None false in
  let bytes := [193] ++ repeat 0 2048 ++ [1; 128] in
  wf_ty t /\ Known_C04 t /\ run_bytes dev_mode t bytes = Panic P_ARITH /\ is_panic (run_bytes release_mode t bytes) = true.
Proof.
  cbv zeta. split; [exact I|]. split; [right; left; split; reflexivity|]. split; vm_compute; reflexivity.
Qed.
Theorem C04_refuted_bitstring_extensible :
  let t := TBitStr (Some 1) (Some 8) true in
  let bytes := [224; 128] ++ repeat 0 2048 ++ [192; 0] in
  wf_ty t /\ Known_C04 t /\ run_bytes dev_mode t bytes = Panic P_ARITH.
Proof.
  cbv zeta. split; [cbn; lia|]. split; [right; right; reflexivity|]. vm_compute. reflexivity.
Qed.

(* an extension-addition count of 2^64 (extension bit, normally small number FF..FF of 8 octets) is no panic:
   Scope::read_from_field adds its 1 with saturating_add (regression witness of that overflow) *)
Theorem C04_ext_count_overflow_is_error : forall m,
  is_panic (run_bytes m (TSeq [(FReq, TBool); (FReq, TBool)] 0 2 (Some 0))
              [225; 31; 255; 255; 255; 255; 255; 255; 255; 224; 0]) = false.
Proof. intros [[|] [|]]; vm_compute; reflexivity. Qed.

(** ** the protobuf Reader (model Proto/Rw.v, tied to rw/proto_read.rs by the differential stream of C17: ops 4010..4018
       and 4060).  The names of the protobuf model clash with the UPER ones, so the statements live in a module. *)
Module ProtoC04.
Import A1.Proto.Wire A1.Proto.Rw A1.Proto.Proofs A1.Proto.RwLemmas A1.Proto.RoundtripProofs A1.Proto.TotalProofs.

(* the only class in which the protobuf reader panics or diverges: the type contains, anywhere, a SEQUENCE OF whose
   element type is again a SEQUENCE OF (F17-3 nested_list_read_unbounded: the inner read_set_or_sequence_of runs in
   State::Root and never ends; in the model that is Panic P_UNBOUNDED).  F17-6 (ProtoRead::read_bit_vec on fewer
   than 8 bytes) is NOT a class of the Reader: read_bit_string checks the length first, and the
   theorem below covers BIT STRING components. *)
Definition Known_C04_proto (t : pty) : Prop := Known_proto_unbounded t.

(* every byte list, both profiles, every type that is not a bare SEQUENCE OF (a generated type is a struct or an
   enum) and is outside the class: no panic.  The model's fuels (index_enclosed: |source| + 2 rounds, read_varint:
   11 rounds) are set by the model itself and running out of them is a Panic (P_UNBOUNDED / P_OTHER), so
   "does not loop" is part of the statement. *)
Theorem C04_proto_total : forall m t bs,
  is_seqof t = false -> ~ Known_C04_proto t -> forall p, pread m t bs <> Panic p.
Proof. exact pread_total. Qed.

(* every type of the class fails the boolean test [no_nested_list] (the converse is not stated); the class is closed
   under nesting by its constructors; a witness inside it diverges in both profiles *)
Theorem C04_proto_refuted_nested_list :
  (forall t, Known_C04_proto t -> no_nested_list t = false) /\
  let t := TSeq [(false, TSeqOf (TSeqOf (TInt KU8))); (false, TInt KU8)] in
  Known_C04_proto t /\
  pread dev_mode t [8; 7; 16; 9] = Panic P_UNBOUNDED /\ pread release_mode t [8; 7; 16; 9] = Panic P_UNBOUNDED.
Proof.
  split; [exact known_unbounded_not|]. split.
  - apply (KP_in_seq _ false (TSeqOf (TSeqOf (TInt KU8)))); [left; reflexivity|constructor].
  - vm_compute. split; reflexivity.
Qed.

(* no over-read.  [pread] returns only the value, so the statement is about the underlying reader [rd] and its
   state: (1) every byte range the reader holds after a successful step lies inside the source (s <= e <= |src|);
   (2) [slice] (the model of &source[range]) succeeds only inside the source and returns exactly those bytes;
   (3) every entry index_enclosed tabulates lies inside the window it was asked to index (checked_end);
   (4) the primitive readers return a suffix of their input, having consumed between 1 and 11 bytes *)
Theorem C04_proto_no_overread :
  (forall m t src st v st', ~ Known_C04_proto t -> st_ok src st -> (is_seqof t = true -> is_encl st = true) ->
     rd m src t st = Ok (v, st') -> st_ok src st') /\
  (forall src s e sl, slice src (s, e) = Ok sl ->
     s <= e /\ e <= nlen src /\ sl = firstn (N.to_nat (e - s)) (skipn (N.to_nat s) src)) /\
  (forall src r tc tags, rng_ok src r -> index_enclosed src r = Ok (Enclosed tc tags) ->
     Forall (fun t => rng_in r (ent_rng t)) tags) /\
  (forall bs v rest, read_varint bs = Ok (v, rest) -> exists pre, bs = pre ++ rest /\ (1 <= length pre <= 11)%nat) /\
  (forall bs tag f rest, read_tag bs = Ok (tag, f, rest) -> exists pre, bs = pre ++ rest /\ (1 <= length pre <= 11)%nat).
Proof.
  split; [exact reader_ranges_ok|]. split; [exact slice_inv|]. split; [exact index_enclosed_window|]. split.
  - intros bs v rest E. exact (okp_ok (read_varint_spec bs) E).
  - intros bs tag f rest E. exact (okp_ok (read_tag_spec bs) E).
Qed.

(* the raw primitives (ops 4010..4018) on every input, both profiles: none panics except read_bit_vec, which panics
   exactly on inputs shorter than 8 bytes (F17-6; witness C04_proto_refuted_bit_vec_short in Props/C17.v:
   read_bit_vec dev_mode [1; 2; 3] = Panic P_ARITH) *)
Theorem C04_proto_primitives_total : forall m bs,
  (forall p, read_varint bs <> Panic p) /\ (forall p, read_tag bs <> Panic p) /\
  (forall p, read_sint32 bs <> Panic p) /\ (forall p, read_sint64 bs <> Panic p) /\
  (forall p, read_string bs <> Panic p) /\ (forall p, read_uint32 bs <> Panic p) /\
  (forall p, read_bool bs <> Panic p) /\ (forall p, read_sfixed32 bs <> Panic p) /\
  (forall p, read_uint64 bs <> Panic p) /\ (forall p, read_enum_variant bs <> Panic p) /\
  (forall p, read_bytes bs <> Panic p) /\
  ((8 <= length bs)%nat -> forall p, read_bit_vec m bs <> Panic p) /\
  ((length bs < 8)%nat -> exists p, read_bit_vec m bs = Panic p).
Proof.
  intros m bs.
  assert (V : forall A (f : N * list N -> res A), (forall x, okp (fun _ => True) (f x)) ->
            forall p, bind (read_varint bs) f <> Panic p)
    by (intros A f H; apply (okp_npan (varint_then _ bs f H))).
  repeat split.
  - apply (okp_npan (read_varint_spec bs)).
  - apply (okp_npan (read_tag_spec bs)).
  - apply V. intros [v r]. exact I.
  - apply V. intros [v r]. exact I.
  - unfold read_string. destruct (utf8_valid bs); discriminate.
  - apply V. intros [v r]. exact I.
  - apply V. intros [v r]. exact I.
  - unfold read_sfixed32, read_exact. destruct (length bs <? 4)%nat; cbn [bind]; discriminate.
  - apply (okp_npan (read_varint_spec bs)).
  - apply V. intros [v r]. exact I.
  - discriminate.
  - intros H. unfold read_bit_vec, read_bytes, bitvec_from_trailing. cbn [bind].
    assert ((length bs <? 8)%nat = false) as -> by (apply Nat.ltb_ge; lia). cbn [bind]. discriminate.
  - intros H. unfold read_bit_vec, read_bytes, bitvec_from_trailing. cbn [bind].
    assert ((length bs <? 8)%nat = true) as -> by (apply Nat.ltb_lt; lia).
    destruct (overflow_checks m); cbn [bind]; eexists; reflexivity.
Qed.

(* non-vacuity: a message in a list in a message, with a CHOICE, an OPTIONAL and a BIT STRING, on garbage *)
Definition t_c04_proto : pty :=
  TSeq [(false, TSeqOf (TSeq [(false, TChoice [TInt KU8; TStr]); (true, TInt KI16)])); (false, TBool); (true, TBits)].
Example C04_proto_nonvacuous :
  is_seqof t_c04_proto = false /\ ~ Known_C04_proto t_c04_proto /\
  pread dev_mode t_c04_proto [10; 5; 1] = Err E_IO /\ pread release_mode t_c04_proto [10; 5; 1] = Err E_IO /\
  pread dev_mode t_c04_proto [10; 6; 10; 4; 18; 2; 255; 254; 16; 1] = Err E_UTF8 /\
  pread release_mode t_c04_proto [10; 6; 10; 4; 18; 2; 255; 254; 16; 1] = Err E_UTF8 /\
  pread dev_mode t_c04_proto [26; 3; 1; 2; 3] = Err E_IO /\ pread release_mode t_c04_proto [26; 3; 1; 2; 3] = Err E_IO /\
  pread dev_mode t_c04_proto [255; 255; 255; 255; 255; 255; 255; 255; 255; 255; 255; 7] = Err E_INVALID_FORMAT /\
  pread dev_mode t_c04_proto [10; 255; 255; 255; 255; 255; 255; 255; 255; 255; 1] = Err E_IO /\
  pread dev_mode t_c04_proto [10; 4; 10; 2; 8; 7; 16; 1]
  = Ok (VSeq [VList [VSeq [VChoice 0 (VInt 7); VOpt None]]; VBool true; VOpt None]).
Proof.
  split; [reflexivity|]. split.
  - intros K. apply known_unbounded_not in K. vm_compute in K. discriminate K.
  - vm_compute. repeat split; reflexivity.
Qed.
End ProtoC04.
Export ProtoC04.

(** non-vacuity: an extensible SEQUENCE with two known additions read from an encoding with three *)
Example C04_nonvacuous :
  wf_ty ex4_ty /\ ~ Known_C04 ex4_ty /\
  (forall m, exists r',
     read_ty m ex4_ty (r_of_src (src_of_bytes ex4_bytes 77)) =
       Ok (VSeq [Some (VBool true); Some (VInt 5); Some (VOctets [170]); Some (VList [VChoice 0 (VBool true)])], r')
     /\ s_pos (r_src r') = 77) /\
  (forall m, read_ty m ex4_ty (r_of_src (src_of_bytes ex4_bytes 76)) = Err E_END_OF_STREAM).
Proof.
  split; [|split; [|split]].
  - cbn. repeat split; try lia; try discriminate.
  - cbn. unfold Known_C04_size. intros H. decompose [or] H; try contradiction; try lia; try congruence.
  - intros [[|] [|]]; eexists; vm_compute; split; reflexivity.
  - intros [[|] [|]]; vm_compute; reflexivity.
Qed.

Print Assumptions C04_bit_copy_no_panic.
Print Assumptions C04_per_readers_no_panic.
Print Assumptions C04_octetstring_reader_no_panic.
Print Assumptions C04_refuted_untrusted_length_alloc.
Print Assumptions C04_read_bit_within_len.
Print Assumptions C04_read_bits_within_len.
Print Assumptions C04_der_total.
Print Assumptions C04_uper_total.
Print Assumptions C04_uper_total_bytes.
Print Assumptions C04_src_of_bytes_inv.
Print Assumptions C04_remaining_callable.
Print Assumptions C04_remaining_in_invariant.
Print Assumptions C04_pos_le_len_preserved.
Print Assumptions C04_entry_total.
Print Assumptions C04_refuted_size_octets.
Print Assumptions C04_refuted_size_string.
Print Assumptions C04_refuted_size_bitstring.
Print Assumptions C04_refuted_size_sequence_of.
Print Assumptions C04_refuted_size_large_upper.
Print Assumptions C04_refuted_bitstring_unconstrained.
Print Assumptions C04_refuted_bitstring_extensible.
Print Assumptions C04_ext_count_overflow_is_error.
Print Assumptions C04_proto_total.
Print Assumptions C04_proto_refuted_nested_list.
Print Assumptions C04_proto_no_overread.
Print Assumptions C04_proto_primitives_total.
Print Assumptions C04_nonvacuous.
