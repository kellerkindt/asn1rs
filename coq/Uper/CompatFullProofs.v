(* C05 end to end, top level: what the statements C05_forward / C05_backward of Props/C05.v speak of.
   Schema pairs related by appended extension additions (SEQUENCE/SET), extension alternatives (CHOICE)
   or extension values (ENUMERATED), the values the reader of one version returns for the other, a
   worked pair, and the run and tactics by which the closed examples of Props/C05.v are evaluated.
   That such a pair is an instance of the relation at any depth, with these values, is shown at the end
   of Uper/CompatNestedProofs.v. *)
From A1 Require Import Uper.Spec.
Local Open Scope N_scope.

(* written out as [fun f => is_optk (fst f) = true] in Uper/Proofs.v *)
Definition optk (f : fkind * ty) : Prop := is_optk (fst f) = true.

Inductive extends : ty -> ty -> Prop :=
| ext_seq fs adds so fc ea :
    wf_ty (TSeq fs so fc (Some ea)) ->
    wf_ty (TSeq (fs ++ adds) so (fc + N.of_nat (length adds)) (Some ea)) ->
    Forall optk adds ->      (* an addition the older version does not know is OPTIONAL or DEFAULT *)
    extends (TSeq fs so fc (Some ea)) (TSeq (fs ++ adds) so (fc + N.of_nat (length adds)) (Some ea))
| ext_choice alts more std :
    wf_ty (TChoice alts std true) -> wf_ty (TChoice (alts ++ more) std true) ->
    extends (TChoice alts std true) (TChoice (alts ++ more) std true)
| ext_enum vc k std :
    wf_ty (TEnum vc std true) -> wf_ty (TEnum (vc + k) std true) ->
    extends (TEnum vc std true) (TEnum (vc + k) std true).

(* what the newer reader reports for an addition that was not transmitted: [map (fun f => absent_val (fst f)) adds]
   with [absent_val] of Uper/Proofs.v, by conversion *)
Definition pad_of (adds : list (fkind * ty)) : list (option val) :=
  map (fun f => match fst f with FDef d => Some d | _ => None end) adds.

(* a V1 value seen under V2 *)
Definition pad_absent (V1 V2 : ty) (v : val) : val :=
  match V1, V2, v with
  | TSeq fs1 _ _ _, TSeq fs2 _ _ _, VSeq vals => VSeq (vals ++ pad_of (skipn (length fs1) fs2))
  | _, _, _ => v
  end.
(* a V2 value seen under V1 *)
Definition project_root (V1 V2 : ty) (v : val) : val :=
  match V1, v with
  | TSeq fs1 _ _ _, VSeq vals => VSeq (firstn (length fs1) vals)
  | _, _ => v
  end.
(* the alternative / item of a V2 value exists in V1 *)
Definition known_index (V1 : ty) (v : val) : Prop :=
  match V1, v with
  | TChoice alts _ _, VChoice i _ => i < N.of_nat (length alts)
  | TEnum vc _ _, VEnum i => i < vc
  | _, _ => True
  end.

(* the worked pair: V1 = SEQUENCE { a BOOLEAN, b INTEGER(0..255) OPTIONAL, ..., c BOOLEAN OPTIONAL },
      V2 = V1 + { d OCTET STRING OPTIONAL, e INTEGER(0..255) DEFAULT 7 }; d carries 130 octets, so its
      open type holds 132 octets and the open-type length takes two octets; a sentinel octet follows *)
Definition ex5_fields : list (fkind * ty) :=
  [(FReq, TBool); (FOpt, TInt U8 (Some 0%Z) (Some 255%Z) false); (FOpt, TBool)].
Definition ex5_adds : list (fkind * ty) :=
  [(FOpt, TOctets None None false); (FDef (VInt 7), TInt U8 (Some 0%Z) (Some 255%Z) false)].
Definition ex5_V1 : ty := TSeq ex5_fields 1 3 (Some 1).
Definition ex5_V2 : ty := TSeq (ex5_fields ++ ex5_adds) 1 (3 + N.of_nat (length ex5_adds)) (Some 1).
Definition ex5_v1 : val := VSeq [Some (VBool true); Some (VInt 9); Some (VBool false)].
Definition ex5_v2 : val :=
  VSeq [Some (VBool true); None; Some (VBool true); Some (VOctets (repeat 171 130)); Some (VInt 200)].
Definition ex5_sentinel : ty := TInt U8 (Some 0%Z) (Some 255%Z) false.

(* write [vw] under [Vw] followed by [x] under [T]; read under [Vr], then [T]; report both values and
   whether the reader ended exactly at the end of the input *)
Definition compat_run (m : mode) (Vw Vr : ty) (vw : val) (T : ty) (x : val) : option (val * val * bool) :=
  match enc m Vw vw, enc m T x with
  | Ok bs, Ok bs' =>
      let all := bs ++ bs' in
      match read_ty m Vr (r_of_src (src_of_bits all (bl all))) with
      | Ok (v, r1) =>
          match read_ty m T r1 with
          | Ok (x', r2) => Some (v, x', s_pos (r_src r2) =? bl all)
          | _ => None
          end
      | _ => None
      end
  | _, _ => None
  end.

(* the closed hypotheses of the examples, for example constants unfolded by [unf]: [Known_C01] is a
   disjunction over the positions of the value, each disjunct refuted by evaluating a length *)
Ltac not_known unf :=
  let C := fresh "C" in
  intros C; unf; cbn [Known_C01 app] in C;
  repeat match goal with
         | H : _ \/ _ |- _ => destruct H
         | H : _ /\ _ |- _ => destruct H
         | H : False |- _ => contradiction H
         | H : Known_C01_open_type_16k _ _ _ |- _ =>
             let b := fresh "b" in let E := fresh "E" in let L := fresh "L" in
             destruct H as (b & E & L); vm_compute in E; injection E as <-; vm_compute in L; apply L; reflexivity
         | H : Known_C10_sized_length _ _ _ |- _ => destruct H as [H _]; apply H; reflexivity
         | H : Known_C01_len _ _ _ _ |- _ => destruct H
         | H : Known_C01_size_F10_1 _ _ _ _ |- _ => destruct H as [_ H]; apply H; reflexivity
         | H : Known_C01_count_16k _ _ _ _ |- _ => destruct H as [H _]; vm_compute in H; apply H; reflexivity
         end.
(* [wf_val] of a closed value: closed comparisons, and [Forall] over literal lists *)
Ltac wf_value unf :=
  unf; cbn [wf_val app]; repeat split; try reflexivity; try (vm_compute; reflexivity);
  try (repeat constructor; reflexivity);
  try (apply Forall_forall; intros ? Hx; apply repeat_spec in Hx; subst; reflexivity).

(* [wf_ty] of a closed type: a conjunction of closed comparisons *)
Ltac wf_ty_closed := vm_compute; repeat split; try discriminate; try reflexivity.

Ltac ex5_unfold := unfold ex5_V1, ex5_V2, ex5_v1, ex5_v2, ex5_fields, ex5_adds in *.

Lemma ex5_extends : extends ex5_V1 ex5_V2.
Proof.
  apply (ext_seq ex5_fields ex5_adds 1 3 1).
  - wf_ty_closed.
  - wf_ty_closed.
  - repeat constructor.
Qed.
