(* C18: the numbering of the emitted schema, the schema of the flat example, and the types on which the validity of the
   schema is evaluated. *)
From A1 Require Import Proto.Schema Proto.Proofs.
Local Open Scope N_scope.

(* numbering a mapped list from i: the j-th entry (from 0) carries number i+j and the image of the j-th element *)
Lemma number_from_map {A B} (f : A -> B) l : forall i,
  length (number_from i (map f l)) = length l /\
  forall j num ty, nth_error (number_from i (map f l)) j = Some (num, ty) ->
    num = i + N.of_nat j /\ exists a, nth_error l j = Some a /\ ty = f a.
Proof.
  induction l as [|a l IH]; intros i; cbn [map number_from length].
  - split; [reflexivity|]. intros [|j] num ty H; discriminate H.
  - destruct (IH (i + 1)) as [IL IN]. split; [rewrite IL; reflexivity|].
    intros [|j] num ty H; cbn [nth_error] in H.
    + injection H as <- <-. split; [lia|]. exists a. split; reflexivity.
    + apply IN in H. destruct H as [-> H]. split; [lia|exact H].
Qed.

(* the flat type of Proofs.v: its schema and the field values a decoder must find *)
Definition flat_schema : pmsg := match schema_of flat_ty with Some m => m | None => [] end.

Definition flat_expected (b : bool) (x : N) (oy : option Z) : list pbval :=
  [BNum (if b then 1 else 0); BNum (Z.of_N x); BNum (match oy with Some y => y | None => 0 end)].

(* the types on which the emitted schema is checked for validity (representative message types of the harness zoo) *)
Definition rq (t : pty) := (false, t).
Definition op (t : pty) := (true, t).
Definition s_inner := TSeq [rq (TInt KU16); op TStr].
Definition s_ch2 := TChoice [TInt KU8; TBytes].
Definition s_ch := TChoice [TInt KI16; TBool; TStr; s_inner; s_ch2; TEnum 3].
Definition good_types : list pty :=
  [ TSeq [rq (TInt KU8); rq (TInt KI8); rq (TInt KU16); rq (TInt KI16); rq (TInt KU32); rq (TInt KI32);
          rq (TInt KU64); rq (TInt KI64); rq (TInt KU64)];
    s_inner;
    TSeq [rq TBool; rq TStr; rq TBytes; rq TBits; rq (TEnum 3); rq TStr];
    TSeq [op (TInt KU8); op TStr; op TBool; op TBytes; op s_inner; rq (TInt KI8); op (TEnum 3); op (TInt KI64)];
    TSeq [rq (TSeqOf (TInt KI32)); rq (TSeqOf TStr); rq (TSeqOf s_inner); op (TSeqOf (TInt KU8)); rq TBool;
          rq (TSeqOf (TInt KU16))];
    s_ch2; s_ch;
    TSeq [rq TBool; rq s_ch; rq (TInt KU8); op s_ch2];
    TSeq [rq (TSeqOf s_ch2); rq (TSeqOf (TEnum 3)); rq (TSeqOf TBool); rq (TSeqOf TBytes)];
    TSeq [rq (TSeq [rq (TInt KU16)]); op (TSeq [rq (TInt KU16)]); rq (TSeq [rq (TSeqOf TStr)])];
    TSeq [rq (TSeq [op (TSeq [op (TInt KU8)]); rq TBool]); rq TStr];
    TSeq [rq (TInt KU8); rq TNull; rq (TInt KU8)];
    TChoice [TNull; TInt KU8];
    TSeq [rq TBits] ].

Definition schema_valid (t : pty) : bool :=
  match schema_of t with Some m => valid_proto3 m | None => false end.
