(* The reader's steps over the presence bits of extension additions, from the definitions of
   Uper/Reader.v alone: an addition beyond the transmitted range reads as absent, and what one turn of
   the loop that skips unknown additions does.  Props/C05.v states them as the step level of C05; the
   SEQUENCE/SET reader walk of Uper/Proofs.v is built on them. *)
From A1 Require Import Uper.Reader.
Local Open Scope N_scope.

Lemma beyond_transmitted_is_absent r a b is_opt :
  b <= a -> read_from_field_simple r (AllBitField a b) is_opt = Ok (f_ok (Some false), r).
Proof.
  intros H. unfold read_from_field_simple.
  destruct (N.ltb_spec a b); [lia|reflexivity].
Qed.

Lemma skip_loop_done f m r p stop : stop <= p -> skip_unknown_loop f m r p stop = Ok r.
Proof. intros H. destruct f; cbn [skip_unknown_loop]; [reflexivity|]. destruct (N.leb_spec stop p); [reflexivity|lia]. Qed.

Lemma skip_absent_step f m r p stop :
  p < stop -> r_bit_at (r_src r) p = Ok false ->
  skip_unknown_loop (S f) m r p stop = skip_unknown_loop f m r (p + 1) stop.
Proof.
  intros Hp Hb. cbn [skip_unknown_loop]. destruct (N.leb_spec stop p); [lia|].
  rewrite Hb. reflexivity.
Qed.

Lemma skip_present_step f m r p stop len r1 :
  p < stop -> r_bit_at (r_src r) p = Ok true ->
  r_get r (r_length_determinant m None None) = Ok (len, r1) ->
  len * 8 < two64 -> s_pos (r_src r1) + len * 8 < two64 ->
  s_pos (r_src r1) + len * 8 <= s_len (r_src r1) ->
  skip_unknown_loop (S f) m r p stop =
    skip_unknown_loop f m (r_set_src r1 (src_set_pos (r_src r1) (s_pos (r_src r1) + len * 8))) (p + 1) stop.
Proof.
  intros Hp Hb Hl H1 H2 H3. cbn [skip_unknown_loop]. destruct (N.leb_spec stop p); [lia|].
  rewrite Hb. cbn [bind]. rewrite Hl. cbn [bind].
  unfold umul. change BYTE_LEN with 8. destruct (N.ltb_spec (len * 8) two64); [|lia]. cbn [bind].
  unfold uadd. destruct (N.ltb_spec (s_pos (r_src r1) + len * 8) two64); [|lia]. cbn [bind].
  assert (E : s_pos (src_set_pos (r_src r1) (s_pos (r_src r1) + len * 8)) = s_pos (r_src r1) + len * 8).
  { unfold src_set_pos. cbn [s_pos]. apply N.min_l. lia. }
  change (r_src (r_set_src r1 ?x)) with x. cbn [r_set_src r_src].
  rewrite E. rewrite N.eqb_refl. reflexivity.
Qed.
