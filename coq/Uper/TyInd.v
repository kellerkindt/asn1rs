(* The induction principle for the nested type universe [ty]: the components of a SEQUENCE and the
   alternatives of a CHOICE satisfy the predicate.
   The proofs that use it name their ten cases by position (intro patterns, selectors like [1-6,10:]), and
   [flat], [shape], the [Known_*] classes, [violates], [has_unknown] end in a catch-all: a new constructor of
   [ty] shifts the former and falls silently into the latter. *)
From A1 Require Export Uper.Ty.

Section TyInd.
  Variable P : ty -> Prop.
  Hypothesis HBool : P TBool.
  Hypothesis HNull : P TNull.
  Hypothesis HInt : forall k lo hi e, P (TInt k lo hi e).
  Hypothesis HStr : forall c lo hi e, P (TStr c lo hi e).
  Hypothesis HOct : forall lo hi e, P (TOctets lo hi e).
  Hypothesis HBit : forall lo hi e, P (TBitStr lo hi e).
  Hypothesis HList : forall e lo hi x, P e -> P (TListOf e lo hi x).
  Hypothesis HSeq : forall fs so fc ea, Forall (fun f => P (snd f)) fs -> P (TSeq fs so fc ea).
  Hypothesis HChoice : forall alts std ext, Forall P alts -> P (TChoice alts std ext).
  Hypothesis HEnum : forall vc std ext, P (TEnum vc std ext).
  Fixpoint ty_ind' (t : ty) : P t :=
    match t with
    | TBool => HBool
    | TNull => HNull
    | TInt k lo hi e => HInt k lo hi e
    | TStr c lo hi e => HStr c lo hi e
    | TOctets lo hi e => HOct lo hi e
    | TBitStr lo hi e => HBit lo hi e
    | TListOf e lo hi x => HList e lo hi x (ty_ind' e)
    | TSeq fs so fc ea =>
        HSeq fs so fc ea
          ((fix go (fs : list (fkind * ty)) : Forall (fun f => P (snd f)) fs :=
              match fs with
              | [] => Forall_nil _
              | f :: r => Forall_cons f (match f as f0 return P (snd f0) with (k, ft) => ty_ind' ft end) (go r)
              end) fs)
    | TChoice alts std ext =>
        HChoice alts std ext
          ((fix go (l : list ty) : Forall P l :=
              match l with
              | [] => Forall_nil _
              | a :: r => Forall_cons a (ty_ind' a) (go r)
              end) alts)
    | TEnum vc std ext => HEnum vc std ext
    end.
End TyInd.
