(* The primitives of Wire.v read back what they wrote (varint, zig-zag, tag, the integer kinds of Rw.v), and the flat
   example type of C17 and C18. *)
From A1 Require Import Base.ListFacts Proto.Rw.
Local Open Scope N_scope.

(* [nrange] and [sweep] as in Bits/Proofs.v and Der/Proofs.v: the three layers do not import one another *)
Definition nrange (k : nat) : list N := map N.of_nat (seq 0 k).
Lemma sweep (P : N -> bool) k :
  forallb P (nrange k) = true -> forall n, n < N.of_nat k -> P n = true.
Proof. intros H n Hn. rewrite forallb_forall in H. apply H, nrange_in, Hn. Qed.

Lemma varint_byte_masks_sweep :
  forallb (fun b => (N.land b 127 =? b mod 128) && (Bool.eqb (N.land b 128 =? 0) (b <? 128))) (nrange 256) = true.
Proof. vm_compute. reflexivity. Qed.

Lemma varint_byte_masks b : b < 256 -> N.land b 127 = b mod 128 /\ (N.land b 128 =? 0) = (b <? 128).
Proof.
  intros Hb. pose proof (sweep _ 256 varint_byte_masks_sweep b Hb) as E. cbv beta in E.
  apply andb_true_iff in E. destruct E as [E1 E2].
  apply N.eqb_eq in E1. apply Bool.eqb_prop in E2. auto.
Qed.

(* a number is its low k bits below the rest: a varint's groups (k = 7), a tag's wire type (k = 3) *)
Lemma split_pow v k : N.lor (v mod 2 ^ k) (N.shiftl (v / 2 ^ k) k) = v.
Proof. rewrite <- N.land_ones, <- N.shiftr_div_pow2, <- N.ldiff_ones_r, N.lor_comm. apply N.lor_ldiff_and. Qed.

Lemma shiftl_le a b s : a <= b -> N.shiftl a s <= N.shiftl b s.
Proof. rewrite !N.shiftl_mul_pow2. apply N.mul_le_mono_r. Qed.

(* one round of the reader on the byte lo + 128c at shift s: the seven bits are or-ed in at s; c is the continuation flag *)
Lemma rvl_byte f value s lo (c : bool) rest :
  s < 64 -> lo < 128 -> N.shiftl lo s < two64 ->
  read_varint_loop (S f) value s ((lo + if c then 128 else 0) :: rest) =
  if c then read_varint_loop f (N.lor value (N.shiftl lo s)) (s + 7) rest else Ok (N.lor value (N.shiftl lo s), rest).
Proof.
  intros Hs Hlo Hfit. cbn [read_varint_loop]. apply N.ltb_lt in Hs. rewrite Hs.
  destruct (varint_byte_masks (lo + if c then 128 else 0)) as [-> ->]; [destruct c; lia|].
  rewrite <- N.shiftl_mul_pow2.
  destruct c.
  - change (lo + 128) with (lo + 1 * 128). rewrite N.mod_add, (N.mod_small lo), (N.mod_small _ _ Hfit) by lia.
    assert ((lo + 1 * 128 <? 128) = false) as -> by lia. reflexivity.
  - rewrite N.add_0_r, (N.mod_small lo), (N.mod_small _ _ Hfit) by lia.
    apply N.ltb_lt in Hlo. rewrite Hlo. reflexivity.
Qed.

(* the shift is s and m of the writer's ten rounds are left; what is left to read, shifted into place, fits 64 bits *)
Lemma varint_rounds : forall (m : nat) (s v value : N) (tail : list N),
  (0 < m)%nat -> s + 7 * N.of_nat m = 70 -> N.shiftl v s < two64 ->
  read_varint_loop (S m) value s (write_varint_fuel m v ++ tail) = Ok (N.lor value (N.shiftl v s), tail).
Proof.
  induction m as [|m IH]; intros s v value tail Hm Hs Hv; [lia|].
  cbn [write_varint_fuel]. destruct (127 <? v) eqn:Hbig; cbn [app].
  - pose proof (N.mod_lt v 128) as M. pose proof (split_pow v 7) as E. change (2 ^ 7) with 128 in E.
    assert (L1 : v mod 128 <= v) by (apply N.mod_le; discriminate).
    assert (L2 : N.shiftl (v / 128) 7 <= v) by (rewrite N.shiftl_mul_pow2, N.mul_comm; apply N.mul_div_le; discriminate).
    set (lo := v mod 128) in *. set (hi := v / 128) in *. clearbody lo hi.
    rewrite (rvl_byte _ value s lo true); [|lia|lia|eapply N.le_lt_trans; [apply shiftl_le, L1|exact Hv]].
    assert (Hv' : N.shiftl hi (s + 7) < two64).
    { rewrite N.add_comm, <- N.shiftl_shiftl. eapply N.le_lt_trans; [apply shiftl_le, L2|exact Hv]. }
    rewrite IH; [| |lia|exact Hv'].
    + rewrite <- N.lor_assoc, (N.add_comm s 7), <- N.shiftl_shiftl, <- N.shiftl_lor, E. reflexivity.
    + (* the tenth byte holds one bit *)
      destruct m; [|lia]. assert (s = 63) as -> by lia. rewrite N.shiftl_mul_pow2 in Hv.
      change (2 ^ 63) with 9223372036854775808 in Hv. unfold two64 in Hv. lia.
  - rewrite <- (N.add_0_r v) at 1. rewrite (rvl_byte _ value s v false) by (try exact Hv; lia). reflexivity.
Qed.

Theorem varint_roundtrip v tail :
  v < two64 -> read_varint (write_varint v ++ tail) = Ok (v, tail).
Proof.
  intros Hv. unfold read_varint, write_varint. rewrite varint_rounds by (rewrite ?N.shiftl_0_r; lia).
  rewrite N.shiftl_0_r. reflexivity.
Qed.

Lemma read_varint_self v : v < two64 -> read_varint (write_varint v) = Ok (v, []).
Proof. intros H. rewrite <- (app_nil_r (write_varint v)). apply varint_roundtrip, H. Qed.

Lemma write_varint_fuel_len f v : (length (write_varint_fuel f v) <= f)%nat.
Proof.
  revert v. induction f as [|f IH]; intros v; cbn [write_varint_fuel]; [simpl; lia|].
  destruct (127 <? v); cbn [length]; [specialize (IH (v / 128)); lia|lia].
Qed.
Lemma write_varint_len v : (1 <= length (write_varint v) <= 10)%nat.
Proof.
  pose proof (write_varint_fuel_len 10 v). unfold write_varint in *. split; [|assumption].
  cbn [write_varint_fuel]. destruct (127 <? v); cbn [length]; lia.
Qed.

Lemma write_varint_not_nil v : is_nil (write_varint v) = false.
Proof. pose proof (write_varint_len v). destruct (write_varint v); [cbn [length] in *; lia|reflexivity]. Qed.

Lemma lxor_m1 x : Z.lxor x (-1) = (- x - 1)%Z.
Proof. rewrite Z.lxor_m1_r. unfold Z.lnot. lia. Qed.

Lemma land1_mod2 n : N.land n 1 = n mod 2.
Proof. change 1 with (N.ones 1). rewrite N.land_ones. reflexivity. Qed.

(* a cast to a signed type keeps a value of that type ... *)
Lemma i32_wrap_small z : is_i32 z -> i32_wrap z = z.
Proof.
  unfold is_i32, i32_wrap. change (Z.of_N two31) with 2147483648%Z. change (Z.of_N two32) with 4294967296%Z.
  intros H. rewrite Z.mod_small; lia.
Qed.
Lemma i64_wrap_small z : is_i64 z -> i64_wrap z = z.
Proof. apply u64_i64_roundtrip. Qed.
(* ... and changes any other by a multiple of the modulus *)
Lemma i32_wrap_cong z : exists q, i32_wrap z = (z + q * 4294967296)%Z.
Proof.
  unfold i32_wrap. change (Z.of_N two31) with 2147483648%Z. change (Z.of_N two32) with 4294967296%Z.
  rewrite Z.mod_eq by discriminate. exists (- ((z + 2147483648) / 4294967296))%Z. ring.
Qed.

(* the zig-zag code of z as a number: 0, -1, 1, -2, ... become 0, 1, 2, 3, ... *)
Definition zz_val (z : Z) : N := Z.to_N (if (z <? 0)%Z then - 2 * z - 1 else 2 * z)%Z.

Lemma zz_val_half z :
  Z.of_N (zz_val z / 2) = (if z <? 0 then - z - 1 else z)%Z /\ zz_val z mod 2 = if (z <? 0)%Z then 1 else 0.
Proof. unfold zz_val. destruct (z <? 0)%Z eqn:Hs; lia. Qed.

(* decoding it in a signed type with 2h values: shift right (the half is below h, so the cast keeps it), then flip every
   bit when the lowest one was set *)
Lemma unzz_wrap (wrap : Z -> Z) h z : (forall y, - h <= y < h -> wrap y = y)%Z -> (- h <= z < h)%Z ->
  Z.lxor (wrap (Z.of_N (zz_val z / 2))) (- Z.of_N (N.land (zz_val z) 1)) = z.
Proof.
  intros W Hz. rewrite land1_mod2. destruct (zz_val_half z) as [E ->]. rewrite E, W by (destruct (z <? 0)%Z eqn:Hs; lia).
  destruct (z <? 0)%Z; [change (- Z.of_N 1)%Z with (-1)%Z; rewrite lxor_m1|apply Z.lxor_0_r]. lia.
Qed.

(* encoding in M = 2^b-bit two's complement: shift left (w, whatever the shift loses), flip every bit of a
   negative number; read as an unsigned b-bit number the result is the code *)
Lemma zz_mod M w z : (- M <= 2 * z < M)%Z -> (exists q, w = z * 2 + q * M)%Z ->
  (Z.lxor w (if z <? 0 then -1 else 0) mod M)%Z = Z.of_N (zz_val z).
Proof.
  intros Hz [q ->]. unfold zz_val. destruct (z <? 0)%Z eqn:Hs.
  - rewrite lxor_m1. replace (- (z * 2 + q * M) - 1)%Z with (- 2 * z - 1 + - q * M)%Z by ring.
    rewrite Z_mod_plus_full, Z.mod_small, Z2N.id by lia. reflexivity.
  - rewrite Z.lxor_0_r, Z_mod_plus_full, Z.mod_small, Z2N.id by lia. ring.
Qed.

Lemma zz32_low z : is_i32 z -> u32_of_u64 (zz32 z) = zz_val z.
Proof.
  intros H. unfold u32_of_u64, zz32. apply N2Z.inj. rewrite N2Z.inj_mod, u64_of_i64_Z.
  change (Z.of_N two64) with (Z.of_N two32 * Z.of_N two32)%Z. rewrite mod_mod_mul by reflexivity.
  apply (zz_mod 4294967296); [|apply i32_wrap_cong].
  unfold is_i32 in H. change (Z.of_N two31) with 2147483648%Z in H. lia.
Qed.

Theorem zigzag32_roundtrip z : is_i32 z -> unzz32 (zz32 z) = z.
Proof.
  intros H. unfold unzz32. cbv zeta. rewrite (zz32_low z H). exact (unzz_wrap i32_wrap 2147483648 z i32_wrap_small H).
Qed.

Lemma zz64_val z : is_i64 z -> zz64 z = zz_val z.
Proof.
  intros H. unfold zz64. apply N2Z.inj. rewrite u64_of_i64_Z.
  apply (zz_mod (Z.of_N two64)); [|apply cast64_cong].
  unfold is_i64 in H. rewrite Ztwo63 in H. rewrite Ztwo64. lia.
Qed.

Theorem zigzag64_roundtrip z : is_i64 z -> unzz64 (zz64 z) = z.
Proof.
  intros H. unfold unzz64. rewrite (zz64_val z H). exact (unzz_wrap i64_wrap 9223372036854775808 z i64_wrap_small H).
Qed.

Lemma u32_small i : i < two32 -> u32_of_u64 i = i.
Proof. apply N.mod_small. Qed.

Lemma lor_fmt_sweep :
  forallb (fun c => (N.land c 7 =? c) ) [0; 1; 2; 5] = true.
Proof. reflexivity. Qed.

(* the tag word as its readers take it apart *)
Lemma tag_word_spec field f :
  field < 2 ^ 29 -> let w := tag_word field f in w < two32 /\ w / 8 = field /\ w mod 8 = format_code f.
Proof.
  intros Hf w. unfold w, tag_word.
  assert (field * 8 < two32) by (change two32 with (2 ^ 29 * 8); lia).
  assert (format_code f < 8) by (destruct f; cbn; lia).
  pose proof (split_pow (field * 8 + format_code f) 3) as E. rewrite N.shiftl_mul_pow2 in E. change (2 ^ 3) with 8 in E.
  replace ((field * 8 + format_code f) mod 8) with (format_code f) in E by lia.
  replace ((field * 8 + format_code f) / 8) with field in E by lia.
  rewrite N.mod_small, N.lor_comm, E by assumption.
  change two32 with 4294967296 in *. change (2 ^ 29) with 536870912 in Hf. lia.
Qed.

Theorem tag_roundtrip field f tail :
  field < 2 ^ 29 -> read_tag (write_tag field f ++ tail) = Ok (field, f, tail).
Proof.
  intros Hf. destruct (tag_word_spec field f Hf) as (L & Ed & Em).
  unfold read_tag, write_tag.
  rewrite varint_roundtrip by (change two64 with (two32 * two32); change two32 with 4294967296 in *; lia).
  cbn [bind]. unfold u32_of_u64. rewrite (N.mod_small _ _ L).
  change 7 with (N.ones 3). rewrite N.land_ones. change (2 ^ 3) with 8. rewrite Ed, Em.
  destruct f; reflexivity.
Qed.

Lemma in_kind_range k z : in_kind k z = true ->
  let '(lo, hi) := kind_range k in (lo <= z <= hi)%Z.
Proof. unfold in_kind. destruct (kind_range k) as [lo hi]. lia. Qed.

(* the 64-bit word whose varint [number_bytes] writes: the value cast to i64, then to the wire format ... *)
Definition number_word (k : pikind) (z : Z) : N :=
  match kind_sel k with
  | PUInt32 => Z.to_N (i64_wrap z mod Z.of_N two32)
  | PUInt64 => u64_of_i64 (i64_wrap z)
  | PSInt32 => zz32 (i32_wrap (i64_wrap z))
  | PSInt64 => zz64 (i64_wrap z)
  end.
(* ... and the i64 that [number_read] makes of a word before the cast to the Rust type *)
Definition word_i64 (s : pnum) (x : N) : Z :=
  match s with
  | PUInt32 => Z.of_N (u32_of_u64 x)
  | PUInt64 => i64_of_u64 x
  | PSInt32 => unzz32 x
  | PSInt64 => unzz64 x
  end.

Lemma number_bytes_word k z : number_bytes k z = write_varint (number_word k z).
Proof. unfold number_bytes, number_word. destruct (kind_sel k); reflexivity. Qed.

Lemma number_bytes_len k z : (1 <= length (number_bytes k z) <= 10)%nat.
Proof. rewrite number_bytes_word. apply write_varint_len. Qed.

Lemma number_word_lt k z : number_word k z < two64.
Proof.
  unfold number_word. destruct (kind_sel k); try apply u64_of_i64_lt.
  pose proof (Z.mod_pos_bound (i64_wrap z) (Z.of_N two32) eq_refl). unfold two32, two64 in *. lia.
Qed.

Lemma number_read_word k x : x < two64 ->
  number_read k (write_varint x) = Ok (from_i64 k (word_i64 (kind_sel k) x)).
Proof.
  intros Hx. unfold number_read, word_i64, read_uint32, read_uint64, read_sint32, read_sint64.
  rewrite (read_varint_self x Hx). destruct (kind_sel k); reflexivity.
Qed.

(* the value survives the cast of the wire format chosen by write_number: the Rust type is never wider than the format
   (the fixed-width kinds by their ranges; an extensible INTEGER, a 64-bit Rust type, gets a 64-bit format: [num_sel]
   takes a 32-bit one only for a constraint without extension marker) *)
Definition num_fits (k : pikind) (z : Z) : bool :=
  match kind_sel k with
  | PUInt32 => ((0 <=? z) && (z <? 4294967296))%Z
  | PSInt32 => ((-2147483648 <=? z) && (z <? 2147483648))%Z
  | _ => true
  end.

Lemma kind_sel_eq k : kind_sel k =
  match k with
  | KU8 | KU16 | KU32 => PUInt32 | KU64 => PUInt64
  | KI8 | KI16 | KI32 => PSInt32 | KI64 => PSInt64
  | KExt _ mn _ => if (0 <=? unwrap_or mn 0)%Z then PUInt64 else PSInt64
  end.
Proof. destruct k; reflexivity. Qed.

Lemma ext_sel64 sg mn mx : kind_sel (KExt sg mn mx) = PUInt64 \/ kind_sel (KExt sg mn mx) = PSInt64.
Proof. rewrite kind_sel_eq. destruct (0 <=? unwrap_or mn 0)%Z; auto. Qed.

Lemma all_fits k z : in_kind k z = true -> num_fits k z = true.
Proof.
  intros H. apply in_kind_range in H. unfold num_fits. rewrite kind_sel_eq.
  destruct k as [| | | | | | | |sg mn mx]; cbn [kind_range] in H; try reflexivity; try lia.
  destruct (0 <=? unwrap_or mn 0)%Z; reflexivity.
Qed.

Lemma word_roundtrip k z : num_fits k z = true -> word_i64 (kind_sel k) (number_word k z) = i64_wrap z.
Proof.
  unfold num_fits, number_word, word_i64. pose proof (cast64_range z) as Hw. intros Hf. destruct (kind_sel k).
  - rewrite i64_wrap_small by (unfold is_i64; rewrite Ztwo63; lia). change (Z.of_N two32) with 4294967296%Z.
    rewrite Z.mod_small, u32_small by (unfold two32; lia). lia.
  - apply u64_i64_roundtrip, Hw.
  - assert (Hi : is_i32 z) by (unfold is_i32; change (Z.of_N two31) with 2147483648%Z; lia).
    rewrite i64_wrap_small, (i32_wrap_small z Hi) by (unfold is_i64; rewrite Ztwo63; lia). apply zigzag32_roundtrip, Hi.
  - apply zigzag64_roundtrip, Hw.
Qed.

(* `as iN` is `as uN` moved down by half the range *)
Lemma wrap_signed_fits b z w : 0 < b <= 64 -> (- 2 ^ (Z.of_N b - 1) <= z < 2 ^ (Z.of_N b - 1))%Z ->
  (exists q, w = z + q * Z.of_N two64)%Z -> wrap_signed (Z.of_N b) w = z.
Proof.
  intros Hb Hz [q ->]. unfold wrap_signed. apply Z.sub_move_r.
  apply (narrow_fits b false); [exact Hb| |exists q; ring].
  replace (2 ^ Z.of_N b)%Z with (2 * 2 ^ (Z.of_N b - 1))%Z by (rewrite <- Z.pow_succ_r by lia; f_equal; lia). lia.
Qed.

(* the cast to i64 and back is the identity on every value of the Rust type: the i64 differs from the value by a
   multiple of 2^64, and the Rust type has at most 64 bits *)
Lemma from_to_i64 k z : in_kind k z = true -> from_i64 k (i64_wrap z) = z.
Proof.
  intros H. apply in_kind_range in H. pose proof (cast64_cong z) as C. fold (i64_wrap z) in C.
  destruct k as [| | | | | | | |[|] mn mx]; cbn [kind_range] in H; cbn [from_i64].
  - apply (narrow_fits 8 false); [lia|cbn; lia|exact C].
  - apply (wrap_signed_fits 8); [lia|cbn; lia|exact C].
  - apply (narrow_fits 16 false); [lia|cbn; lia|exact C].
  - apply (wrap_signed_fits 16); [lia|cbn; lia|exact C].
  - apply (narrow_fits 32 false); [lia|cbn; lia|exact C].
  - apply (wrap_signed_fits 32); [lia|cbn; lia|exact C].
  - apply (narrow_fits 64 false); [lia|cbn; lia|exact C].
  - apply u64_i64_roundtrip. unfold is_i64. cbv [i64_min i64_max] in H. lia.
  - apply u64_i64_roundtrip. unfold is_i64. cbv [i64_min i64_max] in H. lia.
  - apply (narrow_fits 64 false); [lia|cbn; lia|exact C].
Qed.

Theorem number_roundtrip k z : in_kind k z = true -> number_read k (number_bytes k z) = Ok z.
Proof.
  intros Hin. rewrite number_bytes_word, number_read_word by apply number_word_lt.
  rewrite word_roundtrip by apply all_fits, Hin. rewrite from_to_i64 by exact Hin. reflexivity.
Qed.

(* from_vec_with_trailing_bit_len takes apart what to_vec_with_trailing_bit_len put together *)
Lemma bitvec_from_trailing_app m bytes n : n < two64 -> bitvec_from_trailing m (bytes ++ be_bytes 8 n) = Ok (bytes, n).
Proof.
  intros Hn. unfold bitvec_from_trailing. rewrite app_length, be_bytes_length.
  assert ((length bytes + 8 <? 8)%nat = false) as -> by (apply Nat.ltb_ge; lia).
  replace (length bytes + 8 - 8)%nat with (length bytes) by lia.
  rewrite firstn_app_exact, skipn_app_exact by reflexivity. rewrite be_bytes_small by exact Hn. reflexivity.
Qed.

(* SEQUENCE { b BOOLEAN, x INTEGER (0..255), y INTEGER (-128..127) OPTIONAL } *)
Definition flat_ty : pty := TSeq [(false, TBool); (false, TInt KU8); (true, TInt KI8)].

(* [-32 <= y < 32] is the bound that C17_roundtrip_flat_partial, C17_backends_agree_partial and
   C18_decodes_under_schema_partial are stated with; the component is [KI8] and -128 <= y <= 127 would do *)
Lemma flat_wf b x oy : x < 256 -> (forall y, oy = Some y -> (-32 <= y < 32)%Z) ->
  wf_val flat_ty (VSeq [VBool b; VInt (Z.of_N x); VOpt (option_map VInt oy)]) = true.
Proof.
  intros Hx Hy. destruct oy as [y|]; cbn [flat_ty option_map wf_val andb].
  - specialize (Hy y eq_refl). unfold in_kind. cbn [kind_range]. lia.
  - unfold in_kind. cbn [kind_range]. lia.
Qed.

(* three (or two) one-byte tags, each followed by a varint *)
Lemma flat_write m b x oy :
  exists bs, pwrite_vec m flat_ty (VSeq [VBool b; VInt (Z.of_N x); VOpt (option_map VInt oy)]) = Ok bs /\
             (1 <= length bs <= 33)%nat.
Proof.
  pose proof (write_varint_len (if b then 1 else 0)) as Lb. fold (write_bool b) in Lb.
  pose proof (number_bytes_len KU8 (Z.of_N x)) as Lx.
  destruct oy as [y|].
  - pose proof (number_bytes_len KI8 y) as Ly.
    exists ((([8] ++ write_bool b) ++ [16] ++ number_bytes KU8 (Z.of_N x)) ++ [24] ++ number_bytes KI8 y).
    split; [reflexivity|]. rewrite !app_length. cbn [length]. lia.
  - exists (([8] ++ write_bool b) ++ [16] ++ number_bytes KU8 (Z.of_N x)).
    split; [reflexivity|]. rewrite !app_length. cbn [length]. lia.
Qed.
