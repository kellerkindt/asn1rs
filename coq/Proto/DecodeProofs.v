(* C18: the bytes the Writer emits decode, under the emitted schema and with the reference proto3 decoder of
   Schema.v, to the field values of the value (unbounded, by induction on the type universe). *)
From A1 Require Import Base.ListFacts Proto.Schema Proto.Proofs Proto.SchemaProofs Proto.RwLemmas Proto.RoundtripProofs.
Local Open Scope N_scope.

Lemma spec_varint_write : forall f v tail, (0 < f)%nat -> v < 128 ^ N.of_nat f -> v < two64 ->
  spec_varint f (write_varint_fuel f v ++ tail) = Some (v, tail).
Proof.
  induction f as [|f IH]; intros v tail Hf Hv Hv64; [lia|].
  cbn [write_varint_fuel]. destruct (127 <? v) eqn:Hbig; cbn [app spec_varint].
  - rewrite Nat2N.inj_succ, N.pow_succ_r' in Hv. pose proof (N.mod_lt v 128) as M.
    assert ((v mod 128 + 128 <? 128) = false) as -> by lia.
    rewrite IH; [|destruct f; [cbn in Hv|]; lia|apply N.div_lt_upper_bound; [discriminate|exact Hv]|].
    + rewrite N.add_sub, (N.add_comm (v mod 128)), <- N.div_mod', N.mod_small by exact Hv64. reflexivity.
    + eapply N.le_lt_trans; [apply (N.div_le_upper_bound v 128 v); lia|exact Hv64].
  - assert ((v <? 128) = true) as -> by lia. reflexivity.
Qed.

Lemma get_varint_write v tail : v < two64 -> get_varint (write_varint v ++ tail) = Some (v, tail).
Proof.
  intros H. unfold get_varint, write_varint. apply spec_varint_write; [lia| |exact H].
  unfold two64 in H. change (128 ^ N.of_nat 10) with 1180591620717411303424. lia.
Qed.

Lemma get_tag tag f rest : tag < 2 ^ 29 -> get_varint (write_tag tag f ++ rest) = Some (tag_word tag f, rest).
Proof.
  intros H. destruct (tag_word_spec tag f H) as [L _]. apply get_varint_write. unfold two32, two64 in *. lia.
Qed.

Definition wire_of (r : prec) : wire := match r with RVar x => WVarint x | RLen p => WLen p end.
Definition wrecs (trs : list (N * prec)) : list (N * wire) := map (fun tr => (fst tr, wire_of (snd tr))) trs.

Definition small (r : prec) : Prop := nlen (payload r) < two64.

Lemma small_of_content trs : nlen (content trs) < two64 -> Forall (fun tr => small (snd tr)) trs.
Proof.
  induction trs as [|[tag r] trs IH]; intros H; constructor; rewrite content_cons, nlen_app in H.
  - apply (payload_lt tag r). lia.
  - apply IH. lia.
Qed.

Lemma split_at_app p rest : split_at (nlen p) (p ++ rest) = Some (p, rest).
Proof.
  unfold split_at. assert ((N.of_nat (length (p ++ rest)) <? nlen p) = false) as ->.
  { unfold nlen. rewrite app_length. lia. }
  unfold nlen. rewrite Nat2N.id, firstn_app_exact, skipn_app_exact by reflexivity. reflexivity.
Qed.

Lemma parse_records_content : forall trs fuel,
  parsable trs -> Forall (fun tr => small (snd tr)) trs -> (length (content trs) < fuel)%nat ->
  parse_records fuel (content trs) = Some (wrecs trs).
Proof.
  induction trs as [|[tag r] trs IH]; intros fuel Hwf Hsm Hfuel; (destruct fuel as [|fuel]; [inversion Hfuel|]).
  - reflexivity.
  - inversion Hwf as [|? ? [Htag Hr] Hwf']; inversion Hsm as [|? ? Hs Hsm']; subst. cbn [fst snd] in Htag, Hr, Hs.
    rewrite content_cons in Hfuel |- *. rewrite app_length in Hfuel. pose proof (rec_bytes_len tag r) as Lr. unfold nlen in Lr.
    specialize (IH fuel Hwf' Hsm' ltac:(lia)).
    unfold rec_bytes. rewrite <- app_assoc.
    destruct (write_tag tag (rfmt r)) as [|b l] eqn:Ewt.
    { pose proof (write_tag_len tag (rfmt r)) as H. rewrite Ewt in H. cbn in H. lia. }
    cbn [app parse_records]. change (b :: l ++ rbody r ++ content trs) with ((b :: l) ++ rbody r ++ content trs).
    rewrite <- Ewt. rewrite get_tag by lia. destruct (tag_word_spec tag (rfmt r)) as (L & -> & ->); [lia|].
    assert ((tag =? 0) = false) as -> by lia.
    assert ((4294967295 <? tag_word tag (rfmt r)) = false) as -> by (unfold two32 in L; lia).
    cbn [orb].
    destruct r as [x|p]; cbn [rec_wf rbody rfmt format_code] in *.
    + rewrite get_varint_write by exact Hr. rewrite IH. reflexivity.
    + unfold small in Hs. cbn [payload] in Hs. rewrite <- app_assoc.
      rewrite get_varint_write by exact Hs. rewrite split_at_app, IH. reflexivity.
Qed.

Lemma records_content trs : parsable trs -> nlen (content trs) < two64 -> records (content trs) = Some (wrecs trs).
Proof.
  intros H Hl. unfold records. apply parse_records_content; [exact H|apply small_of_content, Hl|apply Nat.lt_succ_diag_r].
Qed.

Definition dec_elems (t' : ptype) :=
  fix elems (ws : list wire) : option (list pbval) :=
    match ws with
    | [] => Some []
    | WLen l :: r =>
        match dec_field t' [WLen l], elems r with
        | Some v, Some vs => Some (v :: vs)
        | _, _ => None
        end
    | _ :: r => elems r
    end.
Definition dec_find (n : N) (w : wire) :=
  fix find (alts : list (N * ptype)) {struct alts} : option (option pbval) :=
    match alts with
    | [] => Some None
    | (an, at_) :: ar =>
        if (an =? n) && wire_ok at_ w
        then match dec_field at_ [w] with
             | Some v => Some (Some v)
             | None => None
             end
        else find ar
    end.
Definition dec_scan (alts : list (N * ptype)) :=
  fix scan (recs : list (N * wire)) (acc : option (N * pbval)) {struct recs} : option pbval :=
    match recs with
    | [] => Some (BOneof acc)
    | (n, w) :: r =>
        match dec_find n w alts with
        | None => None
        | Some None => scan r acc
        | Some (Some v) => scan r (Some (n, v))
        end
    end.
Definition dec_fields (recs : list (N * wire)) :=
  fix fields (fs : list (N * ptype)) {struct fs} : option (list pbval) :=
    match fs with
    | [] => Some []
    | (num, ft) :: fs' =>
        let ov :=
          match ft with
          | POneofT alts => dec_scan alts recs None
          | _ => dec_field ft (select num recs)
          end in
        match ov, fields fs' with
        | Some v, Some vs => Some (v :: vs)
        | _, _ => None
        end
    end.

Lemma dec_msg_eq fs ws :
  dec_field (PMsgT fs) ws =
  match lens ws with
  | [] => Some (BMsg None)
  | a :: l =>
      match records (concat (a :: l)) with
      | None => None
      | Some recs => option_map (fun vs => BMsg (Some vs)) (dec_fields recs fs)
      end
  end.
Proof. reflexivity. Qed.

Lemma dec_rep_msg_eq fs ws :
  dec_field (PRepeated (PMsgT fs)) ws = option_map BRep (dec_elems (PMsgT fs) ws).
Proof. reflexivity. Qed.

(* the field of a component is never a oneof (that of a CHOICE is a message holding one) *)
Lemma dec_fields_cons recs num t fs' :
  dec_fields recs ((num, field_type t) :: fs') =
  match dec_field (field_type t) (select num recs), dec_fields recs fs' with
  | Some v, Some vs => Some (v :: vs)
  | _, _ => None
  end.
Proof. destruct t; reflexivity. Qed.

(* the field loop of [pb_field], named through the SEQUENCE it runs in *)
Definition pb_fields (fs : list (bool * pty)) (vs : list pval) : list pbval :=
  match pb_field (TSeq fs) (VSeq vs) with BMsg (Some l) => l | _ => [] end.
Lemma pb_seq_eq fs vs : pb_field (TSeq fs) (VSeq vs) = BMsg (Some (pb_fields fs vs)).
Proof. reflexivity. Qed.
Lemma pb_choice_eq alts i x :
  pb_field (TChoice alts) (VChoice i x) =
  BMsg (Some [BOneof (match nth_alt alts i with Some a => Some (i + 1, pb_field a x) | None => None end)]).
Proof. cbn [pb_field]. do 4 f_equal. exact (pick_nth_alt (fun a => Some (i + 1, pb_field a x)) None alts i). Qed.

Lemma select_none num trs : Forall (fun tr => fst tr <> num) trs -> select num (wrecs trs) = [].
Proof.
  induction 1 as [|tr trs H _ IH]; [reflexivity|].
  cbn [wrecs map select flat_map]. assert ((fst tr =? num) = false) as -> by lia. exact IH.
Qed.

Lemma select_same num rs : select num (wrecs (map (pair num) rs)) = map wire_of rs.
Proof.
  induction rs as [|r rs IH]; [reflexivity|].
  cbn [wrecs map select flat_map fst snd]. rewrite N.eqb_refl. cbn [app]. f_equal. exact IH.
Qed.

Lemma select_field tag before rs after :
  Forall (fun tr : N * prec => fst tr < tag) before -> Forall (fun tr : N * prec => fst tr <> tag) after ->
  select tag (wrecs (before ++ map (pair tag) rs ++ after)) = map wire_of rs.
Proof.
  intros Hb Ha. assert (APP : forall a b, select tag (wrecs (a ++ b)) = select tag (wrecs a) ++ select tag (wrecs b))
    by (intros a b; unfold select, wrecs; rewrite map_app; apply flat_map_app).
  rewrite !APP, select_same, (select_none tag after Ha), app_nil_r.
  rewrite select_none; [reflexivity|]. eapply Forall_impl; [|exact Hb]. intros tr. cbv beta. lia.
Qed.

Lemma unzigzag_zz z : unzigzag (zz_val z) = z.
Proof.
  unfold unzigzag, zz_val. destruct (z <? 0)%Z eqn:Hs.
  - replace (Z.to_N (-2 * z - 1)) with (1 + 2 * Z.to_N (- z - 1)) by lia.
    rewrite N.even_add_mul_2. cbn [N.even]. lia.
  - replace (Z.to_N (2 * z)) with (2 * Z.to_N z) by lia. rewrite N.even_mul. cbn [N.even orb]. lia.
Qed.

(* for a kind the compiler produces, the declared scalar type is that of the format the writer selects, and a
   64-bit format carries a value of its own signedness *)
Lemma kind_scalar k z : wf_kind k = true -> in_kind k z = true ->
  match kind_sel k with
  | PUInt32 => scalar_of_kind k = SUInt32
  | PSInt32 => scalar_of_kind k = SSInt32
  | PUInt64 => scalar_of_kind k = SUInt64 /\ (0 <= z < 18446744073709551616)%Z
  | PSInt64 => scalar_of_kind k = SSInt64 /\ (- 9223372036854775808 <= z < 9223372036854775808)%Z
  end.
Proof.
  intros Hw H. apply in_kind_range in H. rewrite kind_sel_eq.
  destruct k as [| | | | | | | |[|] mn mx]; cbn [kind_range wf_kind] in *; cbv [i64_min i64_max] in H;
    change (Z.of_N two63) with 9223372036854775808%Z in H; try reflexivity; try (split; [reflexivity|lia]).
  (* extensible: 64-bit Rust type, 64-bit format of the same signedness, 64-bit proto type *)
  - assert ((0 <=? unwrap_or mn 0)%Z = false) as -> by lia. split; [reflexivity|lia].
  - rewrite Hw. split; [reflexivity|lia].
Qed.

Lemma int_value k z : in_kind k z = true -> wf_kind k = true -> num_value (scalar_of_kind k) (number_word k z) = z.
Proof.
  intros H Hw. pose proof (kind_scalar k z Hw H) as S. pose proof (all_fits k z H) as F. unfold num_fits in F.
  assert (I64 : forall y, (- 9223372036854775808 <= y < 9223372036854775808)%Z -> i64_wrap y = y)
    by (intros y Hy; apply i64_wrap_small; unfold is_i64; rewrite Ztwo63; exact Hy).
  unfold number_word. destruct (kind_sel k).
  - rewrite S, I64 by lia. cbn [num_value]. change (Z.of_N two32) with 4294967296%Z.
    rewrite Z.mod_small, N.mod_small by lia. lia.
  - destruct S as [-> Hz]. cbn [num_value]. unfold i64_wrap. rewrite i64_u64_roundtrip by apply u64_of_i64_lt.
    rewrite u64_of_i64_Z, Ztwo64. apply Z.mod_small. lia.
  - assert (Hi : is_i32 z) by (unfold is_i32; change (Z.of_N two31) with 2147483648%Z; lia).
    rewrite S, I64, (i32_wrap_small z Hi) by lia. cbn [num_value]. fold two32. fold (u32_of_u64 (zz32 z)).
    rewrite (zz32_low z Hi). apply unzigzag_zz.
  - destruct S as [-> Hz]. rewrite I64, zz64_val by (try (unfold is_i64; rewrite Ztwo63); exact Hz). apply unzigzag_zz.
Qed.

Lemma int_wire k z : in_kind k z = true -> wf_kind k = true ->
  exists x, x < two64 /\ number_bytes k z = write_varint x /\ num_value (scalar_of_kind k) x = z.
Proof.
  intros H Hw. exists (number_word k z). split; [apply number_word_lt|]. split; [apply number_bytes_word|apply int_value; assumption].
Qed.

Definition decodes_field (t : pty) : Prop :=
  forall v, good t = true -> wf_val t v = true -> Forall small (recs_of t v) ->
  dec_field (field_type t) (map wire_of (recs_of t v)) = Some (pb_field t v).

Lemma dec_absent t : dec_field (field_type t) [] = Some (absent_of t).
Proof.
  destruct t as [|k| | | | |n|fs|t'|alts]; try reflexivity.
  - destruct k as [| | | | | | | |[|] ? ?]; reflexivity.
  - destruct t' as [|k| | | | |n|fs|t''|alts]; try reflexivity. destruct k as [| | | | | | | |[|] ? ?]; reflexivity.
Qed.

Lemma decodes_field_bool : decodes_field TBool.
Proof. intros v _ Hwf _. destruct v as [b| | | | | | | | | |]; try discriminate Hwf. destruct b; reflexivity. Qed.

Lemma decodes_field_int k : decodes_field (TInt k).
Proof.
  intros v Hg Hwf _. destruct v as [|z| | | | | | | | |]; try discriminate Hwf.
  cbn [recs_of map wire_of field_type dec_field pb_field]. unfold dec_scalar.
  assert (is_varint_scalar (scalar_of_kind k) = true) as -> by (destruct k as [| | | | | | | |[|] ? ?]; reflexivity).
  cbn [varints flat_map app last]. rewrite (int_value k z Hwf Hg). reflexivity.
Qed.

Lemma decodes_field_bits : decodes_field TBits.
Proof.
  intros v _ Hwf _. destruct v as [| | | |bytes n| | | | | |]; try discriminate Hwf.
  apply wf_bits_inv in Hwf. destruct Hwf as [Hl Hn].
  cbn [recs_of map wire_of field_type pb_field dec_field]. unfold dec_scalar. cbn [is_varint_scalar lens flat_map app last].
  replace (N.to_nat (N.min ((n + 7) / 8) (N.of_nat (length bytes)))) with (length bytes) by lia.
  rewrite firstn_all. reflexivity.
Qed.

Lemma decodes_field_enum n : decodes_field (TEnum n).
Proof.
  intros v Hg Hwf _. destruct v as [| | | | | |i| | | |]; try discriminate Hwf. cbn [good wf_val] in Hg, Hwf.
  cbn [recs_of map wire_of field_type dec_field pb_field]. unfold dec_enum. cbn [varints flat_map app last].
  rewrite u32_small, N.mod_small by (unfold two32 in *; lia). reflexivity.
Qed.

Lemma wire_ok_single t v r : single t = true -> recs_of t v = [r] -> wire_ok (field_type t) (wire_of r) = true.
Proof.
  intros Hs Hr.
  destruct t as [|k| | | | |n|fs|t'|alts]; try discriminate Hs;
    destruct v as [b|z|s|l|bytes bl| |i|vs|ov|vs|i x]; try discriminate Hr;
    cbn [recs_of] in Hr; injection Hr as <-; try reflexivity.
  destruct k as [| | | | | | | |[|] ? ?]; reflexivity.
Qed.

(* a repeated field whose records each fit the element type decodes record by record *)
Lemma rep_each ft ws vals :
  Forall2 (fun w v => wire_ok ft w = true /\ dec_field ft [w] = Some v) ws vals ->
  dec_field (PRepeated ft) ws = Some (BRep vals).
Proof.
  intros H. destruct ft as [s|n|fs|t'|alts];
    [| | |destruct H as [|w v ws vals [Hw _] _]; [reflexivity|discriminate Hw]..].
  - cbn [dec_field]. destruct (is_varint_scalar s) eqn:Hv.
    + assert (dec_packed (fun v => BNum (num_value s v)) ws = Some vals) as ->; [|reflexivity].
      induction H as [|w v ws vals [Hw Hd] _ IH]; [reflexivity|].
      destruct w; cbn [wire_ok] in Hw; rewrite ?Hv in Hw; try discriminate Hw.
      injection Hd as <-. cbn [dec_packed]. rewrite IH. unfold dec_scalar. rewrite Hv. reflexivity.
    + do 2 f_equal. induction H as [|w v ws vals [Hw Hd] _ IH]; [reflexivity|].
      destruct w as [| |l|]; cbn [wire_ok] in Hw; rewrite ?Hv in Hw; try discriminate Hw.
      injection Hd as <-. change (lens (WLen l :: ws)) with (l :: lens ws). cbn [map]. rewrite IH. unfold dec_scalar. rewrite Hv. reflexivity.
  - cbn [dec_field]. assert (dec_packed (fun v => BNum (Z.of_N (v mod 4294967296))) ws = Some vals) as ->; [|reflexivity].
    induction H as [|w v ws vals [Hw Hd] _ IH]; [reflexivity|].
    destruct w; cbn [wire_ok] in Hw; try discriminate Hw.
    injection Hd as <-. cbn [dec_packed]. rewrite IH. reflexivity.
  - rewrite dec_rep_msg_eq. assert (dec_elems (PMsgT fs) ws = Some vals) as ->; [|reflexivity].
    induction H as [|w v ws vals [Hw Hd] _ IH]; [reflexivity|].
    destruct w; cbn [wire_ok] in Hw; try discriminate Hw.
    cbn [dec_elems]. rewrite Hd, IH. reflexivity.
Qed.

Lemma decodes_field_seqof t' : decodes_field t' -> decodes_field (TSeqOf t').
Proof.
  intros HD v Hg Hwf Hsm. destruct v as [| | | | | | | | |vs|]; try discriminate Hwf.
  cbn [good] in Hg. apply andb_true_iff in Hg. destruct Hg as [Hs Hg]. cbn [wf_val recs_of] in Hwf, Hsm.
  cbn [field_type pb_field recs_of].
  apply rep_each.
  induction vs as [|x vs IH]; [constructor|].
  cbn [forallb] in Hwf. apply andb_true_iff in Hwf. destruct Hwf as [H1 H2].
  cbn [flat_map] in Hsm |- *. apply Forall_app in Hsm. destruct Hsm as [Hs1 Hs2].
  destruct (single_shape t' x Hs H1) as (r & Er).
  pose proof (HD x Hg H1 Hs1) as D. rewrite Er in D |- *.
  constructor; [split; [apply (wire_ok_single t' x r Hs Er)|exact D]|apply IH; assumption].
Qed.

Lemma pb_fields_present o t fs v vs : pb_fields ((o, t) :: fs) (present o v :: vs) = pb_field t v :: pb_fields fs vs.
Proof. destruct o; reflexivity. Qed.
Lemma pb_fields_absent t fs vs : pb_fields ((true, t) :: fs) (VOpt None :: vs) = absent_of t :: pb_fields fs vs.
Proof. reflexivity. Qed.

Lemma decodes_fields : forall fs, Forall (fun p => decodes_field (snd p)) fs -> forall vs, wf_fields fs vs = true ->
  forallb (fun p => good (snd p)) fs = true ->
  forall tag before, Forall (fun tr : N * prec => fst tr < tag) before ->
  Forall (fun tr : N * prec => small (snd tr)) (recs_fields fs vs tag) ->
  dec_fields (wrecs (before ++ recs_fields fs vs tag)) (number_from tag (map (fun '(_, t) => field_type t) fs))
  = Some (pb_fields fs vs).
Proof.
  assert (NEXT : forall tag before, Forall (fun tr : N * prec => fst tr < tag) before ->
            Forall (fun tr : N * prec => fst tr < tag + 1) before).
  { intros tag before. apply Forall_impl. intros tr. lia. }
  refine (wf_fields_ind _ _ _ _ _).
  - reflexivity.
  - intros o t fs v vs Ht H1 H2 IH Hg tag before Hb Hsm.
    cbn [forallb snd] in Hg. apply andb_true_iff in Hg. destruct Hg as [Hg1 Hg2].
    rewrite recs_fields_present in Hsm |- *. rewrite pb_fields_present. apply Forall_app in Hsm. destruct Hsm as [Hs1 Hs2].
    cbn [map number_from]. rewrite dec_fields_cons.
    rewrite (select_field tag before _ _ Hb (recs_fields_later fs vs tag)).
    rewrite Ht; [|exact Hg1|exact H1|exact (proj1 (Forall_map (pair tag) _ _) Hs1)].
    rewrite app_assoc. rewrite IH; [reflexivity|exact Hg2| |exact Hs2].
    apply Forall_app. split; [apply NEXT, Hb|].
    apply Forall_forall. intros tr Hin. apply in_map_iff in Hin. destruct Hin as (r & <- & _). apply N.lt_add_pos_r. reflexivity.
  - intros t fs vs H2 IH Hg tag before Hb Hsm.
    cbn [forallb snd] in Hg. apply andb_true_iff in Hg. destruct Hg as [_ Hg2].
    cbn [recs_fields map number_from] in Hsm |- *. rewrite pb_fields_absent, dec_fields_cons.
    pose proof (select_field tag before [] _ Hb (recs_fields_later fs vs tag)) as S.
    cbn [map app] in S. rewrite S, dec_absent.
    rewrite IH; [reflexivity|exact Hg2|apply NEXT, Hb|exact Hsm].
Qed.

Lemma decodes_field_seq fs : Forall (fun p => decodes_field (snd p)) fs -> decodes_field (TSeq fs).
Proof.
  intros HF v Hg Hwf Hsm. destruct v as [| | | | | | |vs| | |]; try discriminate Hwf.
  rewrite recs_seq_eq in Hsm |- *.
  cbn [good] in Hg. apply andb_true_iff in Hg. destruct Hg as [Hn Hg].
  inversion Hsm as [|? ? Hs _]; subst. unfold small in Hs. cbn [payload] in Hs.
  cbn [map wire_of field_type]. rewrite dec_msg_eq. cbn [lens flat_map app concat].
  rewrite app_nil_r.
  rewrite (records_content _ (fields_parsable fs vs Hn) Hs).
  rewrite pb_seq_eq.
  pose proof (decodes_fields fs HF vs Hwf Hg 1 [] (Forall_nil _) (small_of_content _ Hs)) as D. cbn [app] in D. rewrite D. reflexivity.
Qed.

Lemma find_numbered w : forall alts k j a v,
  nth_alt alts j = Some a -> wire_ok (field_type a) w = true -> dec_field (field_type a) [w] = Some v ->
  dec_find (k + j) w (number_from k (map field_type alts)) = Some (Some v).
Proof.
  induction alts as [|a0 r IH]; intros k j a v Hn Hw Hd; [discriminate|].
  cbn [nth_alt] in Hn. cbn [map number_from dec_find].
  destruct (j =? 0) eqn:Ej.
  - injection Hn as ->. assert ((k =? k + j) = true) as -> by lia. rewrite Hw, Hd. reflexivity.
  - assert ((k =? k + j) = false) as -> by lia. cbn [andb].
    replace (k + j) with (k + 1 + (j - 1)) by lia. apply (IH (k + 1) (j - 1) a v Hn Hw Hd).
Qed.

Lemma decodes_field_choice alts : Forall decodes_field alts -> decodes_field (TChoice alts).
Proof.
  intros HF v Hg Hwf Hsm. destruct v as [| | | | | | | | | |i x]; try discriminate Hwf.
  destruct (choice_inv good alts i x Hg Hwf) as (a & ra & Ea & Hin & Hsa & Hga & Hwa & Era & Hrw & Hi & Erec).
  rewrite Forall_forall in HF. specialize (HF a Hin x Hga Hwa). rewrite Era in HF. cbn [map] in HF.
  rewrite Erec in Hsm |- *. inversion Hsm as [|? ? Hs _]; subst. unfold small in Hs. cbn [payload] in Hs.
  assert (Sra : small ra) by exact (payload_lt (i + 1) ra _ Hs).
  cbn [map wire_of field_type]. rewrite dec_msg_eq. cbn [lens flat_map app concat].
  rewrite app_nil_r, <- content_one, records_content;
    [|constructor; [exact (conj (conj (N.le_add_l 1 i) Hi) Hrw)|constructor]|rewrite content_one; exact Hs].
  cbn [wrecs map fst snd]. rewrite pb_choice_eq, Ea. cbn [dec_fields dec_scan].
  rewrite (N.add_comm i 1) at 1.
  rewrite (find_numbered (wire_of ra) alts 1 i a (pb_field a x) Ea (wire_ok_single a x ra Hsa Era)
             (HF (Forall_cons _ Sra (Forall_nil _)))).
  reflexivity.
Qed.

Theorem decodes_field_all : forall t, decodes_field t.
Proof.
  induction t as [| k | | | | | n | fs IH | t' IH | alts IH] using pty_nested_ind.
  - apply decodes_field_bool.
  - apply decodes_field_int.
  - intros v _ Hwf _. destruct v; try discriminate Hwf. reflexivity.
  - intros v _ Hwf _. destruct v; try discriminate Hwf. reflexivity.
  - apply decodes_field_bits.
  - intros v _ Hwf _. destruct v; try discriminate Hwf. reflexivity.
  - apply decodes_field_enum.
  - apply decodes_field_seq, IH.
  - apply decodes_field_seqof, IH.
  - apply decodes_field_choice, IH.
Qed.

Theorem decodes_good m t v msg :
  top_ok t = true -> good t = true -> wf_val t v = true -> schema_of t = Some msg ->
  exists bs, pwrite m t v = Ok bs /\
    (nlen bs < two64 -> exists vals, pb_decode msg bs = Some vals /\ pb_of_val t v = Some vals).
Proof.
  intros Ht Hg Hwf Hsch. destruct (top_write m t v Ht Hwf) as (r & Er & Ew).
  exists (payload r). split; [exact Ew|]. intros Hlen.
  pose proof (decodes_field_all t v Hg Hwf) as D. rewrite Er in D. cbn [map] in D.
  specialize (D (Forall_cons r (Hlen : small r) (Forall_nil _))).
  unfold schema_of in Hsch. unfold pb_decode, pb_of_val.
  destruct t; try discriminate Ht; try discriminate Hsch; destruct v as [| | | | | | |vs| | |i x]; try discriminate Hwf.
  - rewrite recs_seq_eq in Er. injection Er as <-. cbn [field_type] in Hsch, D. injection Hsch as <-.
    cbn [wire_of payload] in D |- *. rewrite D, pb_seq_eq. eexists; split; reflexivity.
  - rewrite recs_choice_eq in Er. injection Er as <-. cbn [field_type] in Hsch, D. injection Hsch as <-.
    cbn [wire_of payload] in D |- *. rewrite D, pb_choice_eq. eexists; split; reflexivity.
Qed.

Theorem decodes_flat (m : mode) b x oy :
  x < 256 -> (forall y, oy = Some y -> (-32 <= y < 32)%Z) ->
  let v := VSeq [VBool b; VInt (Z.of_N x); VOpt (option_map VInt oy)] in
  exists bs, pwrite_vec m flat_ty v = Ok bs /\
             pb_decode flat_schema bs = Some (flat_expected b x oy) /\
             pb_of_val flat_ty v = Some (flat_expected b x oy).
Proof.
  intros Hx Hy v.
  destruct (decodes_good m flat_ty v flat_schema eq_refl eq_refl (flat_wf b x oy Hx Hy) eq_refl) as (bs & W & D).
  destruct (flat_write m b x oy) as (bs' & W' & L). fold v in W'. unfold pwrite in W. rewrite W' in W. injection W as ->.
  destruct D as (vals & D1 & D2); [unfold nlen, two64, two32; lia|].
  assert (E : pb_of_val flat_ty v = Some (flat_expected b x oy)) by (destruct oy; reflexivity).
  rewrite E in D2. injection D2 as <-. exists bs. repeat split; assumption.
Qed.

(* the finding classes of C18 inside the type universe are those of C17 (a NULL or SEQUENCE OF alternative of a
   CHOICE, nested lists, lists of NULL, BitVec excess bytes); the SET numbering class lives at the declaration
   level ([decl]) *)
Definition Known_C18 (t : pty) (v : pval) : Prop := Known_C17 t v.
