(* The UPER writer and reader (Uper/Writer.v, Uper/Reader.v) against the scope-free reference encoder
   [enc] of Uper/Spec.v: the writer appends the bits of [enc] or fails where it fails ([write_enc3], by
   the three-way comparison [sim3]); the reader inverts [enc] outside [Known_C01] ([read_enc], an
   instance of [Rconv]: the reader of one type on the encoding of a value of another).  Hence the round
   trip (C01) and the SEQUENCE preamble (C03).
   Layout: general facts on lists; the notions and their algebra (writer, then reader); the
   codecs under the primitives; how each write_* / read_* method factors through the enclosing scope
   (with it the writer of the types without components); their reader; open types; one section per
   constructor with components, [W_*] before [R_*] (SEQUENCE: reference layout, writer walk, reader
   walk); the two inductions; C01; C03; witnesses. *)
From A1 Require Export Uper.Spec.
From A1 Require Export Uper.TyInd.
From A1 Require Import Base.ListFacts.
From A1 Require Import Bits.Proofs.
From A1 Require Import Uper.CompatProofs.
Local Open Scope N_scope.

(** * lists, rounding up to octets: general facts *)

(* the local [fix pick] of write_ty, read_ty, enc, wf_val and Known_C01 *)
Lemma fix_pick_nth {A B} (f : A -> B) (d : B) : forall l k,
  (fix pick (l : list A) (k : nat) : B :=
     match l, k with a :: _, O => f a | _ :: r, S k' => pick r k' | [], _ => d end) l k
  = match nth_error l k with Some a => f a | None => d end.
Proof. induction l as [|a l IH]; intros [|k]; cbn [nth_error]; auto. Qed.

Definition pad8 (n : nat) : nat := ((8 - n mod 8) mod 8)%nat.

Lemma pad8_spec n : exists q, (n + pad8 n = 8 * q)%nat /\ (pad8 n < 8)%nat.
Proof.
  unfold pad8. pose proof (Nat.div_mod n 8 ltac:(lia)) as D. pose proof (Nat.mod_upper_bound n 8 ltac:(lia)) as U.
  destruct (Nat.eq_dec (n mod 8) 0) as [Z|NZ].
  - exists (n / 8)%nat. rewrite Z in *. change ((8 - 0) mod 8)%nat with 0%nat. lia.
  - exists (S (n / 8)). rewrite (Nat.mod_small (8 - n mod 8)) by lia. lia.
Qed.

Lemma pad8_unique n k q : (n + k = 8 * q)%nat -> (k < 8)%nat -> pad8 n = k.
Proof. intros E Hk. destruct (pad8_spec n) as (q' & E' & U). lia. Qed.

Lemma ceil8_bounds n : (n <= 8 * ((n + 7) / 8) < n + 8)%N.
Proof. pose proof (N.div_mod (n + 7) 8 ltac:(lia)). pose proof (N.mod_lt (n + 7) 8 ltac:(lia)). lia. Qed.

(* on [frev] of Uper/Ty.v and [set_nth] of Uper/Writer.v *)
Lemma frev3 {A} (a b c : list A) : frev (rev c ++ rev b ++ rev a ++ []) = a ++ b ++ c.
Proof.
  unfold frev. rewrite rev_append_rev, !app_nil_r, !rev_app_distr, !rev_involutive, <- app_assoc. reflexivity.
Qed.

Lemma set_nth_app {A} (X : list A) a Y b : set_nth (X ++ a :: Y) (length X) b = X ++ b :: Y.
Proof. induction X as [|x X IH]; cbn [app length set_nth]; [reflexivity|]. rewrite IH. reflexivity. Qed.

Lemma set_nth_length {A} (l : list A) : forall i x, length (set_nth l i x) = length l.
Proof. induction l as [|a l IH]; intros [|i] x; cbn [set_nth length]; auto. Qed.


(** * the writer: sinks, and the comparison of a run with a reference encoding *)
Definition wst_wf (w : wst) : Prop := w_n w = N.of_nat (length (w_rbits w)).

Lemma w_append_app w a b : w_append (w_append w a) b = w_append w (a ++ b).
Proof.
  unfold w_append. cbn [w_rbits w_n w_scope]. rewrite rev_append_app, app_length. f_equal. lia.
Qed.

Lemma w_append_nil w : w_append w [] = w.
Proof. destruct w. unfold w_append. cbn. f_equal. lia. Qed.

Lemma w_bits_append w b : w_bits (w_append w b) = w_bits w ++ b.
Proof.
  unfold w_bits, w_append, frev. cbn [w_rbits]. rewrite !rev_append_rev, !app_nil_r, rev_app_distr, rev_involutive.
  reflexivity.
Qed.

Lemma w_append_wf w b : wst_wf w -> wst_wf (w_append w b).
Proof. unfold wst_wf, w_append. cbn [w_n w_rbits]. rewrite rev_append_rev, app_length, rev_length. lia. Qed.

Lemma w_append_scope w b : w_scope (w_append w b) = w_scope w.
Proof. reflexivity. Qed.

Lemma w_append_n w b : w_n (w_append w b) = w_n w + bl b.
Proof. reflexivity. Qed.

Lemma w_set_scope_wf w sc : wst_wf w -> wst_wf (w_set_scope w sc).
Proof. auto. Qed.

Lemma w_empty_wf : wst_wf w_empty. Proof. reflexivity. Qed.

Lemma w_set_scope_append w sc b : w_set_scope (w_append w b) sc = w_append (w_set_scope w sc) b.
Proof. reflexivity. Qed.

Lemma w_set_scope_set w a b : w_set_scope (w_set_scope w a) b = w_set_scope w b.
Proof. reflexivity. Qed.

Lemma w_bits_empty_append b : w_bits (w_append w_empty b) = b.
Proof. rewrite w_bits_append. reflexivity. Qed.

Lemma set_none_append w b : w_scope w = None -> w_set_scope (w_append w b) None = w_append w b.
Proof. destruct w as [rb n sc]. cbn [w_scope]. intros ->. reflexivity. Qed.

Lemma w_restore w1 b : w_set_scope (w_append (w_set_scope w1 None) b) (w_scope w1) = w_append w1 b.
Proof. destruct w1; reflexivity. Qed.

Lemma w_patch_wf w pos bit w1 : wst_wf w -> w_patch w pos bit = Ok w1 -> wst_wf w1.
Proof.
  unfold w_patch. intros Hw H. destruct (pos <? w_n w); [|discriminate H]. injection H as <-.
  unfold wst_wf in *. cbn [w_n w_rbits]. rewrite set_nth_length. exact Hw.
Qed.

Definition wsim (r : res wst) (w : wst) (e : res bits) : Prop :=
  match e with Ok b => r = Ok (w_append w b) | _ => is_ok r = false end.

Lemma w_put_ok w r b : r = Ok b -> w_put w r = Ok (w_append w b).
Proof. intros ->. reflexivity. Qed.

(* [wsim] as the induction needs it: an error of the reference computation is met by an error, not
   necessarily the same one (the writer interleaves headers and contents, [enc] computes every content
   first); a Panic of [enc] marks a value outside the model and is met by any failure *)
Definition sim3 {A} (r : res wst) (e : res A) (k : A -> res wst) : Prop :=
  match e with
  | Ok a => r = k a
  | Err _ => exists e', r = Err e'
  | Panic _ => is_ok r = false
  end.

Lemma sim3_bind_l {A} r (e : res A) k f : sim3 r e k -> sim3 (bind r f) e (fun a => bind (k a) f).
Proof.
  destruct e as [a|e0|p]; cbn [sim3].
  - intros ->. reflexivity.
  - intros [e' ->]. exists e'. reflexivity.
  - apply not_ok_bind.
Qed.

Lemma sim3_bind_r {A B} r (e : res A) k (g : A -> res B) k' :
  sim3 r e k -> (forall a, e = Ok a -> sim3 (k a) (g a) k') -> sim3 r (bind e g) k'.
Proof.
  destruct e as [a|e0|p]; cbn [sim3 bind].
  - intros -> H. apply H. reflexivity.
  - intros H _. exact H.
  - intros H _. exact H.
Qed.

Lemma sim3_bind {A B} r (e : res A) k f (g : A -> res B) k' :
  sim3 r e k -> (forall a, e = Ok a -> sim3 (bind (k a) f) (g a) k') ->
  sim3 (bind r f) (bind e g) k'.
Proof. intros H. apply sim3_bind_r, sim3_bind_l, H. Qed.

Lemma sim3_ext {A} r (e : res A) k k' : sim3 r e k -> (forall a, e = Ok a -> k a = k' a) -> sim3 r e k'.
Proof. destruct e as [a|e0|p]; cbn [sim3]; [intros -> H; apply H; reflexivity|auto|auto]. Qed.

Lemma sim3_err {A} e0 (e : res A) k : (forall a, e = Ok a -> k a = Err e0) -> sim3 (Err e0) e k.
Proof.
  destruct e as [a|e1|p]; cbn [sim3]; intros H; [symmetry; apply H; reflexivity|exists e0; reflexivity|reflexivity].
Qed.

Definition wsim3 (r : res wst) (w : wst) (e : res bits) : Prop :=
  sim3 r e (fun b => Ok (w_append w b)).

Lemma wsim3_wsim r w e : wsim3 r w e -> wsim r w e.
Proof. destruct e; cbn; [auto|intros [e' ->]; reflexivity|auto]. Qed.

Lemma wsim3_put w e : wsim3 (w_put w e) w e.
Proof. destruct e as [b|e0|p]; cbn; [reflexivity|exists e0; reflexivity|reflexivity]. Qed.

Lemma wsim3_app r w a e : wsim3 r (w_append w a) e -> wsim3 r w (let! b := e in Ok (a ++ b)).
Proof.
  intros H. apply (sim3_bind_r _ _ _ _ _ H). intros b _. cbn [sim3]. rewrite w_append_app. reflexivity.
Qed.

Lemma wsim3_bind r w e f g :
  wsim3 r w e -> (forall a, e = Ok a -> wsim3 (f (w_append w a)) (w_append w a) (g a)) ->
  wsim3 (bind r f) w (let! a := e in let! b := g a in Ok (a ++ b)).
Proof. intros H1 H2. apply (sim3_bind _ _ _ _ _ _ H1). intros a E. apply wsim3_app, H2, E. Qed.

(* the statement of the writer induction for one type, without hypothesis on [t] ([write_enc3] adds [wf_ty]) *)
Definition Wprop (m : mode) (t : ty) : Prop :=
  forall v w, wst_wf w -> w_scope w = None -> wsim (write_ty m t v w) w (enc m t v).

Definition Wprop3 (m : mode) (t : ty) : Prop :=
  forall v w, wst_wf w -> w_scope w = None -> wsim3 (write_ty m t v w) w (enc m t v).


(** * the reader: sources, and the reader of one type on the encoding of a value of another *)
(* the source keeps its whole buffer: absolute positions (presence bits, open-type ends) are
   meaningful; the declared length is a usize *)
Definition src_ok (s : src) : Prop :=
  s_rest s = skipn (N.to_nat (s_pos s)) (s_all s) /\ s_len s < two64.

Definition rsrc (s : src) (bs tail : bits) : Prop := at_src s bs tail /\ src_ok s.

Definition mk_r (s : src) (sc : scope) : rst := {| r_src := s; r_scope := Some sc |}.

Lemma r_get_of_src {A} s (f : src -> res (A * src)) :
  r_get (r_of_src s) f = let! (a, s') := f s in Ok (a, r_of_src s').
Proof. reflexivity. Qed.

Lemma src_adv_nil s tail : at_src s [] tail -> src_adv s 0 tail = s.
Proof. intros (E & _). cbn [app] in E. rewrite <- E. apply src_adv_0. Qed.

Lemma src_ok_adv s bs tail : src_ok s -> at_src s bs tail -> src_ok (src_adv s (bl bs) tail).
Proof.
  intros (E & L) (R & _). unfold src_ok, src_adv. cbn [s_rest s_pos s_all s_len]. split; [|exact L].
  replace (N.to_nat (s_pos s + bl bs)) with (N.to_nat (s_pos s) + length bs)%nat by (unfold bl; lia).
  rewrite <- skipn_add, <- E, R. symmetry. apply skipn_app_exact. reflexivity.
Qed.

Lemma rsrc_split s a b tail : rsrc s (a ++ b) tail ->
  rsrc s a (b ++ tail) /\ rsrc (src_adv s (bl a) (b ++ tail)) b tail.
Proof.
  intros [H O]. apply at_src_split in H. destruct H as [H1 H2].
  split; split; auto. apply src_ok_adv; assumption.
Qed.

Lemma rsrc_whole bs : bl bs < two64 -> rsrc (src_of_bits bs (bl bs)) bs [].
Proof.
  intros H. unfold rsrc, at_src, src_ok, src_of_bits. cbn [s_rest s_pos s_len s_total s_all].
  rewrite app_nil_r. unfold bl. cbn [skipn N.to_nat]. repeat split; try lia. exact H.
Qed.

Definition same_buf (s s' : src) : Prop :=
  s_all s = s_all s' /\ s_total s = s_total s' /\ s_len s = s_len s'.

Lemma same_buf_adv s n tl : same_buf s (src_adv s n tl).
Proof. repeat split. Qed.

Lemma same_buf_refl s : same_buf s s.
Proof. repeat split. Qed.

Lemma same_buf_sym a b : same_buf a b -> same_buf b a.
Proof. unfold same_buf. intuition congruence. Qed.

Lemma same_buf_trans a b c : same_buf a b -> same_buf b c -> same_buf a c.
Proof. unfold same_buf. intuition congruence. Qed.

Lemma src_set_pos_end s s' bs tail : rsrc s bs tail -> same_buf s s' ->
  src_set_pos s' (s_pos s + bl bs) = src_adv s (bl bs) tail.
Proof.
  intros [Ha Ho] (A & To & Le). destruct (src_ok_adv s bs tail Ho Ha) as [E _]. destruct Ha as (_ & L & _).
  unfold src_set_pos, src_adv in *. cbn [s_rest s_pos s_all] in E. rewrite <- A, <- To, <- Le, N.min_l, <- E by exact L.
  reflexivity.
Qed.

Lemma bit_at_spec s0 A b B tail : rsrc s0 (A ++ b :: B) tail -> r_bit_at s0 (s_pos s0 + bl A) = Ok b.
Proof.
  intros Hs. apply rsrc_split in Hs. destruct Hs as [H1 H2]. apply (rsrc_split _ [b]) in H2.
  unfold r_bit_at. rewrite (src_set_pos_end s0 s0 A _ H1 (same_buf_refl _)), (r_bit_ok _ _ _ (proj1 (proj1 H2))). reflexivity.
Qed.

(* [r_bit_at] looks at the buffer, not at the cursor: [bits_at s0 a F] is, by conversion, [bits_at] of
   every [src_adv s0 n tl] *)
Definition bits_at (s0 : src) (a : N) (F : bits) : Prop :=
  forall i, (i < length F)%nat -> r_bit_at s0 (a + N.of_nat i) = Ok (nth i F false).

Lemma bits_at_intro s0 A F B tail : rsrc s0 (A ++ F ++ B) tail -> bits_at s0 (s_pos s0 + bl A) F.
Proof.
  intros Hs i Hi.
  destruct (nth_split F false Hi) as (F1 & F2 & EF & L1).
  assert (EQ : A ++ (F1 ++ nth i F false :: F2) ++ B = (A ++ F1) ++ nth i F false :: (F2 ++ B))
    by (rewrite <- !app_assoc; reflexivity).
  rewrite EF, EQ in Hs.
  replace (s_pos s0 + bl A + N.of_nat i) with (s_pos s0 + bl (A ++ F1)) by (rewrite bl_app; unfold bl; lia).
  eapply bit_at_spec; eauto.
Qed.

Lemma bits_at_app s0 a F1 F2 : bits_at s0 a (F1 ++ F2) -> bits_at s0 a F1 /\ bits_at s0 (a + bl F1) F2.
Proof.
  intros H. split.
  - intros i Hi. rewrite (H i) by (rewrite app_length; lia). rewrite app_nth1 by exact Hi. reflexivity.
  - intros i Hi. specialize (H (length F1 + i)%nat ltac:(rewrite app_length; lia)).
    rewrite app_nth2_plus in H. replace (a + bl F1 + N.of_nat i) with (a + N.of_nat (length F1 + i)) by (unfold bl; lia).
    exact H.
Qed.

Lemma bits_at_cons s0 a f F : bits_at s0 a (f :: F) -> r_bit_at s0 a = Ok f /\ bits_at s0 (a + 1) F.
Proof.
  intros H. apply (bits_at_app s0 a [f] F) in H. destruct H as [H1 H2]. split; [|exact H2].
  specialize (H1 0%nat ltac:(cbn; lia)). rewrite N.add_0_r in H1. exact H1.
Qed.

Lemma bit_at_ok r p b : r_bit_at (r_src r) p = Ok b -> bit_at r p = Ok (inl b).
Proof. unfold bit_at. intros ->. reflexivity. Qed.

(** * the relation [reads] of Per/Proofs.v lifted to reader states *)
(* [rreads f w o]: outside any scope, on a source that begins with [w], [f] ends exactly after [w] and
   answers [o]; [None] stands for InvalidChoiceIndex, the one error the statements below speak of, and
   passes through [rreads_bind].
   [rreads_in]: [f] may end anywhere in the buffer, which is enough for the content of an open type, since
   the reader then jumps to the end of the window ([opened]; [framed]: in the window or in place) *)
Definition oret {A} (o : option A) (r : rst) : res (A * rst) :=
  match o with Some a => Ok (a, r) | None => Err E_INVALID_CHOICE end.

Definition rreads {A} (f : rst -> res (A * rst)) (w : bits) (o : option A) : Prop :=
  forall s tail, rsrc s w tail -> f (r_of_src s) = oret o (r_of_src (src_adv s (bl w) tail)).

Lemma rreads_ret {A} (a : A) : rreads (fun r => Ok (a, r)) [] (Some a).
Proof. intros s tail Hs. cbn [oret]. rewrite bl_nil, (src_adv_nil _ _ (proj1 Hs)). reflexivity. Qed.

Lemma rreads_get {A} (g : src -> res (A * src)) w a : reads g w a -> rreads (fun r => r_get r g) w (Some a).
Proof. intros H s tail Hs. rewrite r_get_of_src, (H s tail (proj1 Hs)). reflexivity. Qed.

Lemma rreads_bit b : rreads (fun r => r_get r r_bit) [b] (Some b).
Proof. apply rreads_get. intros s tl. apply r_bit_ok. Qed.

Lemma rreads_bind {A B} (f : rst -> res (A * rst)) (k : A -> rst -> res (B * rst)) w1 w2 oa ob :
  rreads f w1 oa ->
  match oa with Some a => rreads (k a) w2 ob | None => ob = None end ->
  rreads (fun r => let! (x, r') := f r in k x r') (w1 ++ w2) ob.
Proof.
  intros Hf Hk s tail Hs. apply rsrc_split in Hs. destruct Hs as [H1 H2]. rewrite (Hf _ _ H1).
  destruct oa as [a|]; cbn [oret bind]; [|subst ob; reflexivity].
  rewrite (Hk _ _ H2), src_adv_adv, bl_app. reflexivity.
Qed.

Lemma rreads_ext {A} (f g : rst -> res (A * rst)) w o :
  (forall r, r_scope r = None -> f r = g r) -> rreads g w o -> rreads f w o.
Proof. intros E H s tail Hs. rewrite E by reflexivity. exact (H s tail Hs). Qed.

Lemma rreads_map {A B} (f : rst -> res (A * rst)) (g : A -> B) w o :
  rreads f w o -> rreads (fun r => let! (x, r') := f r in Ok (g x, r')) w (option_map g o).
Proof. intros H s tail Hs. rewrite (H s tail Hs). destruct o; reflexivity. Qed.

Lemma rreads_stashed {A} (f : rst -> res (A * rst)) w o : rreads f w o -> rreads (fun r => rscope_stashed r f) w o.
Proof.
  intros H s tail Hs. unfold rscope_stashed. change (r_set_scope (r_of_src s) None) with (r_of_src s).
  rewrite (H s tail Hs). destruct o; reflexivity.
Qed.

Lemma rentry_none m r : r_scope r = None -> read_bit_field_entry_st m r false = Ok (f_ok None, r).
Proof. unfold read_bit_field_entry_st. intros ->. reflexivity. Qed.

Lemma rentry_none' m r : r_scope r = None -> read_bit_field_entry m r false = Ok (None, r).
Proof. unfold read_bit_field_entry. intros H. rewrite rentry_none by exact H. reflexivity. Qed.

Lemma rwith_buffer_none {A} m r (f : rst -> res (A * rst)) : r_scope r = None -> rwith_buffer m r f = f r.
Proof. unfold rwith_buffer. intros ->. reflexivity. Qed.

(* a read_* method outside any scope: its entry call answers nothing and rwith_buffer is transparent *)
Lemma rreads_entered {A} m (f : rst -> res (A * rst)) w o :
  rreads f w o -> rreads (fun r => let! (_, r) := read_bit_field_entry m r false in f r) w o.
Proof. intros H s tail Hs. rewrite rentry_none' by reflexivity. exact (H s tail Hs). Qed.

Lemma rreads_buffered {A} m (f : rst -> res (A * rst)) w o : rreads f w o -> rreads (fun r => rwith_buffer m r f) w o.
Proof. intros H s tail Hs. rewrite rwith_buffer_none by reflexivity. exact (H s tail Hs). Qed.

Definition rreads_in {A} (f : rst -> res (A * rst)) (w : bits) (o : option A) : Prop :=
  forall s tail, rsrc s w tail -> exists s2, same_buf s s2 /\ f (r_of_src s) = oret o (r_of_src s2).

Lemma rreads_in_of {A} (f : rst -> res (A * rst)) w o : rreads f w o -> rreads_in f w o.
Proof. intros H s tail Hs. eexists. split; [apply (same_buf_adv s (bl w) tail)|exact (H s tail Hs)]. Qed.

Definition opened {A} (m : mode) (f : rst -> res (A * rst)) (r : rst) : res (A * rst) :=
  let! (len, r2) := r_get r (r_length_determinant m None None) in read_whole_sub_slice m r2 len f.

Definition framed {A} (m : mode) (opn : bool) (f : rst -> res (A * rst)) : rst -> res (A * rst) :=
  if opn then opened m f else f.

(* the reader of type [R] on the reference encoding of a value of type [W] returns [f v], or fails with
   InvalidChoiceIndex where [f v = None]; [read_enc] is the case [W = R], [f = Some] *)
Definition Rconv (m : mode) (W R : ty) (f : val -> option val) : Prop :=
  forall v bs, enc m W v = Ok bs -> wf_val W v -> ~ Known_C01 m W v -> rreads (read_ty m R) bs (f v).

Lemma Rconv_ext m W R (f g : val -> option val) :
  (forall v, wf_val W v -> f v = g v) -> Rconv m W R f -> Rconv m W R g.
Proof. intros E H v bs He Hv Hk. rewrite <- (E v Hv). apply H; assumption. Qed.


(** * values, octets, integers, characters *)
Lemma list_eqb_N_eq a : forall b, list_eqb N.eqb a b = true -> a = b.
Proof.
  induction a as [|x a IH]; intros [|y b] H; cbn [list_eqb] in H; try discriminate; [reflexivity|].
  apply andb_true_iff in H. destruct H as [H1 H2]. apply N.eqb_eq in H1. f_equal; auto.
Qed.

Lemma val_eqb_eq : forall a b, val_eqb a b = true -> a = b.
Proof.
  fix IH 1. intros [x| |x|x|x|x n|xs|xs|i x|i] [y| |y|y|y|y k|ys|ys|j y|j] H; cbn [val_eqb] in H; try discriminate H.
  - apply Bool.eqb_prop in H. congruence.
  - reflexivity.
  - apply Z.eqb_eq in H. congruence.
  - apply list_eqb_N_eq in H. congruence.
  - apply list_eqb_N_eq in H. congruence.
  - apply andb_true_iff in H. destruct H as [H1 H2]. apply list_eqb_N_eq in H1. apply N.eqb_eq in H2. congruence.
  - f_equal. revert ys H. induction xs as [|x xs IHl]; intros [|y ys] H; try discriminate H; [reflexivity|].
    apply andb_true_iff in H. destruct H as [H1 H2]. f_equal; [apply IH; exact H1|apply IHl; exact H2].
  - f_equal. revert ys H. induction xs as [|x xs IHl]; intros [|y ys] H; try discriminate H; [reflexivity|].
    apply andb_true_iff in H. destruct H as [H1 H2]. f_equal; [|apply IHl; exact H2].
    destruct x as [x|], y as [y|]; try discriminate H1; [|reflexivity]. f_equal. apply IH. exact H1.
  - apply andb_true_iff in H. destruct H as [H1 H2]. apply N.eqb_eq in H1. apply IH in H2. congruence.
  - apply N.eqb_eq in H. congruence.
Qed.

Lemma byte_of_bits_pad l :
  byte_of_bits l = byte_of_bits (l ++ repeat false (8 - length l)).
Proof.
  unfold byte_of_bits.
  assert (E : forall i, nth i (l ++ repeat false (8 - length l)) false = nth i l false).
  { intros i. destruct (Nat.lt_ge_cases i (length l)) as [L|L].
    - apply app_nth1. exact L.
    - rewrite app_nth2 by exact L. rewrite (nth_overflow l) by exact L. apply nth_repeat. }
  rewrite !E. reflexivity.
Qed.

Lemma byte_bits_of_bits8 l : length l = 8%nat -> byte_bits (byte_of_bits l) = l /\ byte_of_bits l < 256.
Proof.
  intros H. destruct (list8 l H) as (a & b & c & d & e & f & g & h & ->).
  assert (E : byte_of_bits [a; b; c; d; e; f; g; h] = val_of_bits [a; b; c; d; e; f; g; h])
    by (unfold byte_of_bits, val_of_bits; cbn [nth fold_left]; lia).
  rewrite E. split; [exact (bov_vob [a; b; c; d; e; f; g; h])|exact (vob_lt [a; b; c; d; e; f; g; h])].
Qed.

Lemma bytes_of_bits_fuel_spec : forall fuel l, (length l < fuel)%nat ->
  bits_of_bytes (bytes_of_bits_fuel fuel l) = l ++ repeat false (pad8 (length l))
  /\ Forall (fun b => b < 256) (bytes_of_bits_fuel fuel l).
Proof.
  induction fuel as [|fuel IH]; intros l Hl; [lia|].
  cbn [bytes_of_bits_fuel]. destruct l as [|b0 l0] eqn:El; [split; [reflexivity|constructor]|].
  assert (Hne : (1 <= length l)%nat) by (rewrite El; cbn [length]; lia).
  rewrite <- El in *. clear El b0 l0.
  destruct (Nat.lt_ge_cases (length l) 8) as [Hs|Hs].
  - rewrite (skipn_all2 l), (firstn_all2 l) by lia.
    replace (bytes_of_bits_fuel fuel []) with (@nil N) by (destruct fuel; reflexivity).
    rewrite byte_of_bits_pad.
    destruct (byte_bits_of_bits8 (l ++ repeat false (8 - length l))) as [E1 E2];
      [rewrite app_length, repeat_length; lia|].
    split; [|constructor; [exact E2|constructor]].
    rewrite bits_cons, E1. cbn [bits_of_bytes flat_map]. rewrite app_nil_r. do 2 f_equal.
    symmetry. apply (pad8_unique _ _ 1); lia.
  - destruct (IH (skipn 8 l)) as [I1 I2]; [rewrite skipn_length; lia|].
    destruct (byte_bits_of_bits8 (firstn 8 l)) as [E1 E2]; [rewrite firstn_length; lia|].
    split; [|constructor; assumption].
    rewrite bits_cons, E1, I1, app_assoc, firstn_skipn. do 2 f_equal.
    rewrite skipn_length. destruct (pad8_spec (length l)) as (q & E & U). apply (pad8_unique _ _ (q - 1)); lia.
Qed.

Lemma bits_of_bytes_of_bits l :
  bits_of_bytes (bytes_of_bits l) = l ++ repeat false (pad8 (length l)).
Proof. apply bytes_of_bits_fuel_spec. lia. Qed.

Lemma bytes_of_bits_unique l bytes k : Forall (fun b => b < 256) bytes ->
  bits_of_bytes bytes = l ++ repeat false k -> (k < 8)%nat ->
  bytes_of_bits l = bytes.
Proof.
  intros Fb E Hk. apply bits_inj; [apply bytes_of_bits_fuel_spec; lia|exact Fb|].
  rewrite bits_of_bytes_of_bits, E. f_equal. f_equal.
  pose proof (f_equal (@length bool) E) as EL. rewrite bits_length, app_length, repeat_length in EL.
  apply (pad8_unique _ _ (length bytes)); lia.
Qed.

Lemma bytes_of_bits_of_bytes bytes : Forall (fun b => b < 256) bytes ->
  bytes_of_bits (bits_of_bytes bytes) = bytes.
Proof.
  intros F. apply (bytes_of_bits_unique _ _ 0%nat F); [|lia]. cbn [repeat]. rewrite app_nil_r. reflexivity.
Qed.

Lemma bytes_of_bits_len l : blen (bytes_of_bits l) = (bl l + 7) / 8.
Proof.
  pose proof (f_equal (@length bool) (bits_of_bytes_of_bits l)) as E.
  rewrite bits_length, app_length, repeat_length in E. unfold blen, bl.
  destruct (pad8_spec (length l)) as (q & Eq & U).
  apply N.div_unique with (r := 7 - N.of_nat (pad8 (length l))); lia.
Qed.

Lemma padded_len cb : bl (cb ++ repeat false (pad8 (length cb))) = 8 * ((bl cb + 7) / 8).
Proof. rewrite <- bits_of_bytes_of_bits, bits_len8, bytes_of_bits_len. reflexivity. Qed.

Lemma canonical_content bytes n : canonical_bits bytes n ->
  let content := firstn (N.to_nat n) (bits_of_bytes bytes) in
  bl content = n /\ bytes_of_bits content = bytes /\ n <= 8 * blen bytes.
Proof.
  intros (Fb & Hl & Hp) content.
  pose proof (ceil8_bounds n) as [Hle Hlt]. rewrite <- Hl in Hle, Hlt.
  split; [|split; [|exact Hle]].
  - unfold content, bl. rewrite firstn_length, bits_length. unfold blen in Hle. lia.
  - apply (bytes_of_bits_unique _ _ (N.to_nat (8 * blen bytes - n)) Fb); [|lia].
    unfold content. rewrite <- Hp. symmetry. apply firstn_skipn.
Qed.

Lemma from_to_i64 k z : ik_fitsb k z = true -> from_i64 k (to_i64 z) = z.
Proof.
  intros H. apply (narrow_fits (ik_bits k) (ik_signed k)); [destruct k; cbn [ik_bits]; lia| |apply cast64_cong].
  unfold ik_fitsb in H. destruct (ik_signed k); lia.
Qed.

(* the base-64 digits of a code point, as [utf8_char] takes them *)
Lemma base64_digits c : exists d0 d1 d2 d3, d0 < 64 /\ d1 < 64 /\ d2 < 64 /\
  c = d0 + 64 * d1 + 4096 * d2 + 262144 * d3 /\
  c mod 64 = d0 /\ (c / 64) mod 64 = d1 /\ (c / 4096) mod 64 = d2 /\
  c / 64 = d1 + 64 * d2 + 4096 * d3 /\ c / 4096 = d2 + 64 * d3 /\ c / 262144 = d3.
Proof.
  assert (E1 : c / 4096 = c / 64 / 64) by (rewrite N.div_div by discriminate; reflexivity).
  assert (E2 : c / 262144 = c / 64 / 64 / 64) by (rewrite !N.div_div by discriminate; reflexivity).
  rewrite E1, E2.
  pose proof (N.div_mod' c 64) as D0. pose proof (N.mod_lt c 64 ltac:(discriminate)) as B0.
  pose proof (N.div_mod' (c / 64) 64) as D1. pose proof (N.mod_lt (c / 64) 64 ltac:(discriminate)) as B1.
  pose proof (N.div_mod' (c / 64 / 64) 64) as D2. pose proof (N.mod_lt (c / 64 / 64) 64 ltac:(discriminate)) as B2.
  exists (c mod 64), ((c / 64) mod 64), ((c / 64 / 64) mod 64), (c / 64 / 64 / 64).
  generalize dependent (c / 64 / 64 / 64). generalize dependent ((c / 64 / 64) mod 64).
  generalize dependent (c / 64 / 64). generalize dependent ((c / 64) mod 64).
  generalize dependent (c / 64). generalize dependent (c mod 64). intros. lia.
Qed.

(* with the digits named, every test of the decoder is linear arithmetic *)
Lemma utf8_char_decode fuel c rest : scalar c ->
  utf8_decode_fuel (S fuel) (utf8_char c ++ rest) = option_map (cons c) (utf8_decode_fuel fuel rest).
Proof.
  intros Hc. unfold scalar in Hc. unfold utf8_char.
  destruct (base64_digits c) as (d0 & d1 & d2 & d3 & B0 & B1 & B2 & E & -> & -> & -> & -> & -> & ->).
  destruct (N.ltb_spec c 128) as [H1|H1].
  { cbn [app utf8_decode_fuel]. destruct (N.ltb_spec c 128); [reflexivity|lia]. }
  destruct (N.ltb_spec c 2048) as [H2|H2].
  { cbn [app utf8_decode_fuel]. unfold is_cont.
    assert (192 + (d1 + 64 * d2 + 4096 * d3) <? 128 = false) as -> by lia.
    assert ((194 <=? 192 + (d1 + 64 * d2 + 4096 * d3)) && (192 + (d1 + 64 * d2 + 4096 * d3) <? 224) = true) as -> by lia.
    assert ((128 <=? 128 + d0) && (128 + d0 <? 192) = true) as -> by lia.
    do 2 f_equal. lia. }
  destruct (N.ltb_spec c 65536) as [H3|H3].
  { cbn [app utf8_decode_fuel]. unfold is_cont.
    assert (224 + (d2 + 64 * d3) <? 128 = false) as -> by lia.
    assert ((194 <=? 224 + (d2 + 64 * d3)) && (224 + (d2 + 64 * d3) <? 224) = false) as -> by lia.
    assert ((224 <=? 224 + (d2 + 64 * d3)) && (224 + (d2 + 64 * d3) <? 240) = true) as -> by lia.
    assert ((224 + (d2 + 64 * d3) - 224) * 4096 + (128 + d1 - 128) * 64 + (128 + d0 - 128) = c) as -> by lia.
    assert ((128 <=? 128 + d1) && (128 + d1 <? 192) && ((128 <=? 128 + d0) && (128 + d0 <? 192)) && (2048 <=? c)
            && negb ((55296 <=? c) && (c <? 57344)) = true) as -> by lia.
    reflexivity. }
  cbn [app utf8_decode_fuel]. unfold is_cont.
  assert (240 + d3 <? 128 = false) as -> by lia.
  assert ((194 <=? 240 + d3) && (240 + d3 <? 224) = false) as -> by lia.
  assert ((224 <=? 240 + d3) && (240 + d3 <? 240) = false) as -> by lia.
  assert ((240 <=? 240 + d3) && (240 + d3 <? 245) = true) as -> by lia.
  assert ((240 + d3 - 240) * 262144 + (128 + d2 - 128) * 4096 + (128 + d1 - 128) * 64 + (128 + d0 - 128) = c) as -> by lia.
  assert ((128 <=? 128 + d2) && (128 + d2 <? 192) && ((128 <=? 128 + d1) && (128 + d1 <? 192))
          && ((128 <=? 128 + d0) && (128 + d0 <? 192)) && (65536 <=? c) && (c <? 1114112) = true) as -> by lia.
  reflexivity.
Qed.

Lemma utf8_roundtrip_fuel : forall cs fuel, (length cs < fuel)%nat -> Forall scalar cs ->
  utf8_decode_fuel fuel (utf8_encode cs) = Some cs.
Proof.
  induction cs as [|c cs IH]; intros fuel Hf F.
  - destruct fuel; [lia|reflexivity].
  - destruct fuel as [|fuel]; [lia|]. apply Forall_cons_iff in F. destruct F as [Hc F].
    unfold utf8_encode. cbn [flat_map]. rewrite utf8_char_decode by exact Hc.
    fold (utf8_encode cs). rewrite IH by (cbn [length] in Hf; try lia; exact F). reflexivity.
Qed.

Lemma utf8_char_len c : (1 <= length (utf8_char c))%nat.
Proof. unfold utf8_char. destruct (c <? 128), (c <? 2048), (c <? 65536); cbn [length]; lia. Qed.

Lemma utf8_encode_len cs : (length cs <= length (utf8_encode cs))%nat.
Proof.
  induction cs as [|c cs IH]; [cbn; lia|]. unfold utf8_encode. cbn [flat_map length].
  rewrite app_length. fold (utf8_encode cs). pose proof (utf8_char_len c). lia.
Qed.

Lemma utf8_roundtrip cs : Forall scalar cs -> utf8_decode (utf8_encode cs) = Some cs.
Proof.
  intros F. unfold utf8_decode. apply utf8_roundtrip_fuel; [|exact F].
  pose proof (utf8_encode_len cs). lia.
Qed.

Lemma utf8_char_bytes c : scalar c -> Forall (fun b => b < 256) (utf8_char c).
Proof.
  intros Hc. unfold scalar in Hc. unfold utf8_char.
  destruct (base64_digits c) as (d0 & d1 & d2 & d3 & B0 & B1 & B2 & E & -> & -> & -> & -> & -> & ->).
  destruct (N.ltb_spec c 128); [repeat constructor; lia|].
  destruct (N.ltb_spec c 2048); [repeat constructor; lia|].
  destruct (N.ltb_spec c 65536); repeat constructor; lia.
Qed.

Lemma utf8_encode_bytes cs : Forall scalar cs -> Forall (fun b => b < 256) (utf8_encode cs).
Proof.
  induction 1 as [|c cs Hc _ IH]; [constructor|]. unfold utf8_encode. cbn [flat_map].
  apply Forall_app. split; [apply utf8_char_bytes; exact Hc|exact IH].
Qed.

Lemma utf8_ascii cs : Forall (fun c => c < 128) cs -> utf8_encode cs = cs.
Proof.
  induction 1 as [|c cs Hc _ IH]; [reflexivity|]. unfold utf8_encode. cbn [flat_map]. fold (utf8_encode cs).
  rewrite IH. unfold utf8_char. destruct (N.ltb_spec c 128); [reflexivity|lia].
Qed.

Lemma from_utf8_ascii cs : Forall (fun c => c < 128) cs -> from_utf8 cs = Ok (VStr cs).
Proof.
  intros F. unfold from_utf8. rewrite <- (utf8_ascii cs F) at 1. rewrite utf8_roundtrip; [reflexivity|].
  eapply Forall_impl; [|exact F]. intros c Hc. left. cbv beta in Hc. lia.
Qed.

Lemma is_Utf8_dec c : {c = Utf8} + {c <> Utf8}.
Proof. destruct c; [left; reflexivity|right; discriminate..]. Qed.

Definition cwidth (c : cset) : N := match c with Numeric => 4 | _ => 7 end.

Definition cdecode (c : cset) (x : N) : N :=
  match c with Numeric => if x =? 0 then 32 else 32 + 15 + x | _ => x end.
Definition cdecodes (c : cset) (codes : list N) : list N :=
  match c with Numeric => map (cdecode c) codes | _ => codes end.

(* the body of the restricted-string readers, which differ in the character width and the decoding only
   (the reader twin of [enc_str_eq]) *)
Definition rstr (m : mode) (ext : bool) (lo hi : option N) (w : N) (dcd : list N -> list N) (r : rst) :
  res (val * rst) :=
  let! (len, r) := read_len_ext m r ext lo hi in
  let! _ := alloc len in
  let rem := s_len (r_src r) - s_pos (r_src r) in
  let iters := N.min len (rem / w + 1) in
  let! (codes, r) := read_chars (N.to_nat iters) w r [] in
  if iters <? len then Panic P_OTHER else
  let! v := from_utf8 (dcd codes) in Ok (v, r).

Lemma read_ty_str_eq m c lo hi ext : c <> Utf8 -> forall r,
  read_ty m (TStr c lo hi ext) r =
  let! (_, r) := read_bit_field_entry m r false in rwith_buffer m r (rstr m ext lo hi (cwidth c) (cdecodes c)).
Proof. intros Hc r. destruct c; [congruence|reflexivity..]. Qed.

Lemma find_invalid_forallb c cs : find_invalid c cs = negb (forallb (cs_valid c) cs).
Proof.
  induction cs as [|ch cs IH]; [reflexivity|]. cbn [find_invalid forallb]. rewrite IH.
  destruct (cs_valid c ch), (forallb (cs_valid c) cs); reflexivity.
Qed.

Lemma find_invalid_false c cs : find_invalid c cs = false -> Forall (fun ch => cs_valid c ch = true) cs.
Proof. rewrite find_invalid_forallb, negb_false_iff, forallb_forall. apply Forall_forall. Qed.

Lemma cs_valid_ascii c ch : c <> Utf8 -> cs_valid c ch = true -> ch < 128.
Proof.
  intros Hc H. destruct c; try congruence; cbn [cs_valid] in H; lia.
Qed.

Lemma byte_bits_bov b : byte_bits b = bits_of_val 8 b.
Proof. reflexivity. Qed.

Lemma char_bits_spec c ch : c <> Utf8 -> cs_valid c ch = true ->
  bl (char_bits c ch) = cwidth c /\ cdecode c (val_of_bits (char_bits c ch)) = ch.
Proof.
  intros Hc Hv. pose proof (cs_valid_ascii c ch Hc Hv) as Ha.
  assert (Em : ch mod 256 = ch) by (apply N.mod_small; lia).
  destruct c; try congruence; unfold char_bits; rewrite Em; cbn [cwidth cdecode].
  1,3,4: rewrite byte_bits_bov; change 8%nat with (1 + 7)%nat; rewrite bov_skipn;
         split; [unfold bl; rewrite bov_length; reflexivity|apply vob_bov_small; cbn; lia].
  cbn [cs_valid] in Hv.
  rewrite byte_bits_bov. change 8%nat with (4 + 4)%nat. rewrite bov_skipn.
  split; [unfold bl; rewrite bov_length; reflexivity|].
  destruct (N.eqb_spec (ch - 32) 0) as [E|E].
  - assert (ch = 32) by lia. subst ch. reflexivity.
  - assert (E2 : (ch - 32 - 15) mod 256 = ch - 47) by (rewrite N.mod_small; lia).
    rewrite E2. rewrite vob_bov_small by (cbn; lia).
    destruct (N.eqb_spec (ch - 47) 0); lia.
Qed.

Lemma char_bits_total c : c <> Utf8 -> forall cs, Forall (fun ch => cs_valid c ch = true) cs ->
  bl (flat_map (char_bits c) cs) = N.of_nat (length cs) * cwidth c.
Proof.
  intros Hc. induction 1 as [|ch cs Hv _ IH]; [reflexivity|].
  cbn [flat_map length]. rewrite bl_app, IH. destruct (char_bits_spec c ch Hc Hv) as [-> _]. lia.
Qed.


(** * scopes, writer side *)
(* every write_* method runs the bit-field entry of the enclosing scope, then (CHOICE excepted, which has
   no with_buffer) writes its content in place and restores the scope or, in an extension-addition scope,
   writes it into a fresh buffer that is appended as an open type: [write_ty_factor] *)
Definition wopen (w : wst) : bool :=
  match w_scope w with Some s => encode_as_open_type_field s | None => false end.

Definition shape (t : ty) (v : val) : bool :=
  match t, v with
  | TBool, VBool _ | TNull, VNull | TInt _ _ _ _, VInt _ | TStr _ _ _ _, VStr _
  | TOctets _ _ _, VOctets _ | TBitStr _ _ _, VBits _ _ | TListOf _ _ _ _, VList _
  | TSeq _ _ _ _, VSeq _ | TChoice _ _ _, VChoice _ _ | TEnum _ _ _, VEnum _ => true
  | _, _ => false
  end.

Lemma write_ty_shape m t v w : shape t v = false ->
  write_ty m t v w = Panic P_OTHER /\ enc m t v = Panic P_OTHER.
Proof. destruct t as [| | | c | | | | | |], v; try discriminate; try destruct c; split; reflexivity. Qed.

Lemma entry_none m w p : w_scope w = None -> write_bit_field_entry m w false p = Ok w.
Proof. unfold write_bit_field_entry. intros ->. reflexivity. Qed.

Lemma with_buffer_none m w f : w_scope w = None -> with_buffer m w f = f w.
Proof. unfold with_buffer. intros ->. reflexivity. Qed.

(* [scope_nat f] is [forall w, f w = scope_stashed w f]: [f] does not look at the scope and leaves the one it
   found; [rscope_nat] below says the same of a reader, with [rscope_stashed] *)
Definition scope_nat (f : wst -> res wst) : Prop :=
  forall w, f w = let! w2 := f (w_set_scope w None) in Ok (w_set_scope w2 (w_scope w)).

Lemma with_buffer_factor m w1 f : scope_nat f ->
  with_buffer m w1 f =
  if wopen w1 then
    let! sub := with_buffer m w_empty f in w_put w1 (wrap_open m (w_bits sub))
  else
    let! w2 := with_buffer m (w_set_scope w1 None) f in Ok (w_set_scope w2 (w_scope w1)).
Proof.
  intros Hf. unfold with_buffer at 2 3. cbn [w_scope w_empty w_set_scope].
  unfold with_buffer, wopen. destruct (w_scope w1) as [sc|] eqn:E.
  - destruct (encode_as_open_type_field sc); [reflexivity|]. rewrite (Hf w1), E. reflexivity.
  - rewrite (Hf w1), E. reflexivity.
Qed.

Lemma scope_nat_put r : scope_nat (fun w => w_put w r).
Proof. intros w. destruct r, w; reflexivity. Qed.

Lemma scope_nat_stashed g : scope_nat (fun w => scope_stashed w g).
Proof.
  intros w. unfold scope_stashed. cbn [w_scope w_set_scope].
  change (w_set_scope (w_set_scope w None) None) with (w_set_scope w None).
  destruct (g (w_set_scope w None)); reflexivity.
Qed.

Lemma scope_stashed_none w f : w_scope w = None ->
  scope_stashed w f = let! w' := f w in Ok (w_set_scope w' None).
Proof. destruct w as [rb n sc]. cbn [w_scope]. intros ->. reflexivity. Qed.

Lemma wsim3_stashed w f e : w_scope w = None -> wsim3 (f w) w e -> wsim3 (scope_stashed w f) w e.
Proof.
  intros Hs H. rewrite scope_stashed_none by exact Hs. apply (sim3_ext _ _ _ _ (sim3_bind_l _ _ _ _ H)).
  intros b _. cbn [bind]. rewrite set_none_append by exact Hs. reflexivity.
Qed.

Lemma write_ext_bit_and_length_eq m w ext lo hi up len :
  write_ext_bit_and_length m w ext lo hi up len = w_put w (len_hdr m ext lo hi up len).
Proof.
  unfold write_ext_bit_and_length, len_hdr.
  destruct ((len <? opt_or lo 0) || (opt_or hi up <? len)), ext; cbn [negb];
    try reflexivity;
    match goal with |- context [w_length_determinant ?a ?b ?c ?d] => destruct (w_length_determinant a b c d) as [[b0 fs0]| |] end;
    cbn [bind w_put app]; rewrite ?w_append_app; reflexivity.
Qed.

Lemma entry_ok_wf m w o p w1 : wst_wf w -> write_bit_field_entry m w o p = Ok w1 -> wst_wf w1.
Proof.
  intros Hw H. unfold write_bit_field_entry in H. destruct (w_scope w) as [sc|].
  2:{ destruct o; injection H as <-; [apply w_append_wf|]; exact Hw. }
  assert (Hp : forall pos k, (let! w' := w_patch w pos p in k w') = Ok w1 -> exists w', wst_wf w' /\ k w' = Ok w1).
  { intros pos k E. destruct (w_patch w pos p) as [w'| |] eqn:Ep; try discriminate E.
    exists w'. split; [eapply w_patch_wf; eassumption|exact E]. }
  destruct sc as [a b|a b|bp opt calls nx|]; cbn [write_into_field] in H.
  - destruct o; [|injection H as <-; exact Hw]. destruct (Hp _ _ H) as (w' & Hw' & E). injection E as <-. exact Hw'.
  - destruct (Hp _ _ H) as (w' & Hw' & E). injection E as <-. exact Hw'.
  - destruct (calls =? 0).
    + destruct (Hp _ _ H) as (w' & Hw' & E). destruct p; [|injection E as <-; exact Hw'].
      destruct (usub m nx 1); cbn [bind] in E; try discriminate E.
      destruct (w_normally_small m _); cbn [w_put bind] in E; try discriminate E. injection E as <-.
      apply w_set_scope_wf, w_append_wf, w_append_wf, Hw'.
    + destruct opt as [[a b]|]; [destruct o|]; try (injection H as <-; exact Hw).
      destruct (Hp _ _ H) as (w' & Hw' & E). injection E as <-. exact Hw'.
  - destruct p; [discriminate H|]. injection H as <-. exact Hw.
Qed.

(* the types without components: after the entry call, L1 writers alone, through with_buffer *)
Definition flat (t : ty) : bool :=
  match t with TListOf _ _ _ _ | TSeq _ _ _ _ | TChoice _ _ _ => false | _ => true end.

Lemma entry_buffer_ext m w f g : (forall w', f w' = g w') ->
  (let! w1 := write_bit_field_entry m w false true in with_buffer m w1 f)
  = (let! w1 := write_bit_field_entry m w false true in with_buffer m w1 g).
Proof.
  intros H. destruct (write_bit_field_entry m w false true); cbn [bind]; try reflexivity.
  unfold with_buffer. rewrite !H. reflexivity.
Qed.

Lemma write_flat_in_scope m t v w : flat t = true -> shape t v = true ->
  write_ty m t v w =
  let! w1 := write_bit_field_entry m w false true in with_buffer m w1 (fun w => w_put w (enc m t v)).
Proof.
  intros Hf Hs.
  destruct t as [| |k lo hi ext|c lo hi ext|lo hi ext|lo hi ext|e lo hi ext|fs so fc ea|alts std ext|vc std ext], v;
    try discriminate Hf; try discriminate Hs; try destruct c; cbn [write_ty enc]; apply entry_buffer_ext; intros w'.
  (* the four restricted alphabets *)
  5-8: (destruct (find_invalid _ _); [reflexivity|]; rewrite write_ext_bit_and_length_eq;
        destruct (len_hdr _ _ _ _ _ _); cbn [w_put bind]; rewrite ?w_append_app; reflexivity).
  - (* BOOLEAN *) reflexivity.
  - (* NULL *) cbn [w_put bind]. rewrite w_append_nil. reflexivity.
  - (* INTEGER *) unfold int_enc. destruct ext;
      match goal with |- context [if ?c then _ else _] => destruct c end;
      match goal with |- context [w_put _ ?r] => destruct r end; cbn [w_put bind app]; rewrite ?w_append_app; reflexivity.
  - (* UTF8String *) destruct (negb ext && _); reflexivity.
  - (* OCTET STRING *) reflexivity.
  - (* BIT STRING *) reflexivity.
  - (* ENUMERATED *) reflexivity.
Qed.

Lemma write_flat_eq m t v w : flat t = true -> w_scope w = None -> write_ty m t v w = w_put w (enc m t v).
Proof.
  intros Hf Hs. destruct (shape t v) eqn:Esh.
  - rewrite write_flat_in_scope, entry_none by assumption. apply with_buffer_none, Hs.
  - destruct (write_ty_shape m t v w Esh) as [-> ->]. reflexivity.
Qed.

(* what a write_* method does after the bit-field entry left the writer in [w1] *)
Definition wbody (m : mode) (t : ty) (v : val) (wrapped : bool) (w1 : wst) : res wst :=
  if wopen w1 && wrapped then
    let! sub := write_ty m t v w_empty in w_put w1 (wrap_open m (w_bits sub))
  else
    let! w2 := write_ty m t v (w_set_scope w1 None) in Ok (w_set_scope w2 (w_scope w1)).

Lemma write_ty_factor m t v w : shape t v = true ->
  write_ty m t v w =
  let! w1 := write_bit_field_entry m w false true in wbody m t v (negb (is_choice t)) w1.
Proof.
  intros Hs. unfold wbody. destruct (flat t) eqn:Hf.
  - replace (is_choice t) with false by (destruct t; try discriminate Hf; reflexivity).
    rewrite (write_flat_in_scope m t v w Hf Hs).
    destruct (write_bit_field_entry m w false true) as [w1| |]; cbn [bind]; try reflexivity.
    rewrite andb_true_r, !write_flat_in_scope, !entry_none by (assumption || reflexivity). cbn [bind].
    apply with_buffer_factor, scope_nat_put.
  - destruct t as [| | | | | |e lo hi ext|fs so fc ea|alts std ext|], v; try discriminate Hf; try discriminate Hs;
      cbn [write_ty is_choice negb];
      (destruct (write_bit_field_entry m w false true) as [w1| |]; cbn [bind]; try reflexivity);
      rewrite ?andb_true_r, ?andb_false_r, !entry_none by reflexivity; cbn [bind].
    + apply with_buffer_factor, scope_nat_stashed.
    + (* scope_pushed restores the scope it found, and what precedes it only appends *)
      apply with_buffer_factor. intros [rb n s0]. unfold scope_pushed.
      destruct ea as [e|]; [destruct (usub m fc (e + 1)) as [nx| |]; cbn [bind]; try reflexivity|];
        cbn [w_scope w_set_scope w_append w_n w_rbits];
        (destruct (_ fs fields _) as [w'| |]; cbn [bind]; try reflexivity);
        destruct (debug_asserts m && _); reflexivity.
    + apply (scope_nat_stashed _ w1).
Qed.

(* [wbody] for a value that encodes to [b] *)
Definition wcontent (m : mode) (wrapped : bool) (w1 : wst) (b : bits) : res wst :=
  if wopen w1 && wrapped then w_put w1 (wrap_open m b) else Ok (w_append w1 b).

Lemma wcontent_absent m w1 : wcontent m false w1 [] = Ok w1.
Proof. unfold wcontent. rewrite andb_false_r, w_append_nil. reflexivity. Qed.

Lemma wbody_sim m ft x wr w1 : Wprop3 m ft -> wst_wf w1 ->
  sim3 (wbody m ft x wr w1) (enc m ft x) (wcontent m wr w1).
Proof.
  intros IH Hw. unfold wbody, wcontent. destruct (wopen w1 && wr).
  - apply (sim3_ext _ _ _ _ (sim3_bind_l _ _ _ _ (IH x w_empty w_empty_wf eq_refl))). intros b _.
    cbn [bind]. rewrite w_bits_empty_append. reflexivity.
  - apply (sim3_ext _ _ _ _ (sim3_bind_l _ _ _ _ (IH x (w_set_scope w1 None) Hw eq_refl))). intros b _.
    cbn [bind]. rewrite w_restore. reflexivity.
Qed.

Lemma stashed_content m ft x w1 :
  with_buffer m w1 (fun w => scope_stashed w (fun w => write_ty m ft x w)) = wbody m ft x true w1.
Proof.
  unfold wbody. rewrite andb_true_r, (with_buffer_factor m w1 _ (scope_nat_stashed _)).
  rewrite !with_buffer_none by reflexivity. rewrite !scope_stashed_none by reflexivity.
  destruct (wopen w1).
  - destruct (write_ty m ft x w_empty) as [sub| |]; reflexivity.
  - destruct (write_ty m ft x (w_set_scope w1 None)) as [w2| |]; reflexivity.
Qed.


(** * scopes, reader side *)
(* likewise a read_* method, after its entry call left [r1], runs outside the scope and comes back to it,
   which is what [rscope_stashed r1] does: in place or inside the window of an open type ([read_ty_factor]) *)
Definition ropen (r : rst) : bool :=
  match r_scope r with Some s => encode_as_open_type_field s | None => false end.

Definition rscope_nat {A} (f : rst -> res (A * rst)) : Prop :=
  forall r, f r = let! (x, r2) := f (r_set_scope r None) in Ok (x, r_set_scope r2 (r_scope r)).

Lemma rsn_get {A} (g : src -> res (A * src)) : rscope_nat (fun r => r_get r g).
Proof.
  intros r. unfold r_get. cbn [r_src r_set_scope]. destruct (g (r_src r)) as [[a s]| |]; reflexivity.
Qed.

Lemma rsn_bind {A B} (g : rst -> res (A * rst)) (k : A -> rst -> res (B * rst)) :
  rscope_nat g -> (forall a, rscope_nat (k a)) ->
  rscope_nat (fun r => let! (a, r') := g r in k a r').
Proof.
  intros Hg Hk r. rewrite (Hg r). destruct (g (r_set_scope r None)) as [[a r2]| |]; cbn [bind]; try reflexivity.
  rewrite (Hk a (r_set_scope r2 (r_scope r))), (Hk a r2). cbn [r_set_scope r_scope r_src].
  change (r_set_scope (r_set_scope r2 (r_scope r)) None) with (r_set_scope r2 None).
  destruct (k a (r_set_scope r2 None)) as [[x r3]| |]; reflexivity.
Qed.

Lemma rsn_bind0 {A B} (c : res A) (k : A -> rst -> res (B * rst)) :
  (forall a, rscope_nat (k a)) -> rscope_nat (fun r => let! a := c in k a r).
Proof. intros Hk r. destruct c as [a| |]; cbn [bind]; try reflexivity. apply Hk. Qed.

Lemma rsn_ret {A} (a : A) : rscope_nat (fun r => Ok (a, r)).
Proof. intros [s sc]; reflexivity. Qed.

Lemma rsn_err {A} e : rscope_nat (fun r => @Err (A * rst) e).
Proof. intros r; reflexivity. Qed.

Lemma rsn_panic {A} e : rscope_nat (fun r => @Panic (A * rst) e).
Proof. intros r; reflexivity. Qed.

Lemma rsn_if {A} (c : bool) (f g : rst -> res (A * rst)) :
  rscope_nat f -> rscope_nat g -> rscope_nat (fun r => if c then f r else g r).
Proof. destruct c; auto. Qed.

Lemma rscope_nat_get {A B} (g : src -> res (A * src)) (k : A -> B) :
  rscope_nat (fun r => let! (a, r) := r_get r g in Ok (k a, r)).
Proof. apply rsn_bind; [apply rsn_get|]. intros a. apply rsn_ret. Qed.

Lemma rsn_stashed {A} (g : rst -> res (A * rst)) : rscope_nat (fun r => rscope_stashed r g).
Proof.
  intros r. unfold rscope_stashed. cbn [r_scope r_set_scope r_src].
  change (r_set_scope (r_set_scope r None) None) with (r_set_scope r None).
  destruct (g (r_set_scope r None)) as [[a r']| |]; reflexivity.
Qed.

Lemma rsn_len_ext m ext lo hi : rscope_nat (fun r => read_len_ext m r ext lo hi).
Proof.
  unfold read_len_ext. destruct ext; [|apply rsn_get].
  apply rsn_bind; [apply rsn_get|]. intros [|]; apply rsn_get.
Qed.

Lemma rsn_read_chars n w : forall acc, rscope_nat (fun r => read_chars n w r acc).
Proof.
  induction n as [|n IH]; intros acc; cbn [read_chars]; [apply rsn_ret|].
  apply rsn_bind; [apply rsn_get|]. intros a. apply IH.
Qed.

(* [rscope_nat] of a body put together from the pieces above *)
Ltac rsn :=
  repeat first
    [ apply rsn_get | apply rsn_ret | apply rsn_err | apply rsn_panic | apply rsn_len_ext
    | apply rsn_read_chars | apply rsn_stashed
    | apply rsn_if
    | apply rsn_bind0; intros ?
    | apply rsn_bind; [|intros ?] ].

Lemma rsn_src_dep {A} (F : src -> rst -> res (A * rst)) :
  (forall s, rscope_nat (fun r => F s r)) -> rscope_nat (fun r => F (r_src r) r).
Proof. intros H r. rewrite (H (r_src r) r). reflexivity. Qed.

Lemma rsn_rstr m ext lo hi w dcd : rscope_nat (rstr m ext lo hi w dcd).
Proof.
  apply rsn_bind; [rsn|intros len]. apply rsn_bind0; intros u.
  (* the iteration count depends on the source, not on the scope *)
  intros r. cbv zeta. cbn [r_src r_set_scope]. set (n := N.min len _). clearbody n. revert r. rsn.
Qed.

Lemma r_set_scope_id r : r_set_scope r (r_scope r) = r.
Proof. destruct r; reflexivity. Qed.

Lemma rsn_pushed {A} m (pre : rst -> rst) (sc : rst -> scope) (g : rst -> res (A * rst)) :
  (forall r s, pre (r_set_scope r s) = r_set_scope (pre r) s) ->
  (forall r s, sc (r_set_scope r s) = sc r) ->
  rscope_nat (fun r => rscope_pushed m (pre r) (sc r) g).
Proof.
  intros Hp Hs r. unfold rscope_pushed. rewrite Hp, Hs. cbn [r_scope r_set_scope r_src].
  assert (E : r_scope (pre r) = r_scope r).
  { rewrite <- (r_set_scope_id r) at 1. rewrite Hp. reflexivity. }
  rewrite E.
  change (r_set_scope (r_set_scope (pre r) None) (Some (sc r))) with (r_set_scope (pre r) (Some (sc r))).
  destruct (g (r_set_scope (pre r) (Some (sc r)))) as [[a r']| |]; cbn [bind]; try reflexivity.
  destruct (debug_asserts m && _); cbn [bind]; reflexivity.
Qed.

Lemma rsn_pushed_at {A} m s sc0 scp (g : rst -> res (A * rst)) :
  rscope_pushed m {| r_src := s; r_scope := sc0 |} scp g =
  let! (x, r2) := rscope_pushed m {| r_src := s; r_scope := None |} scp g in Ok (x, r_set_scope r2 sc0).
Proof.
  exact (rsn_pushed m (fun r => r) (fun _ => scp) g (fun _ _ => eq_refl) (fun _ _ => eq_refl)
           {| r_src := s; r_scope := sc0 |}).
Qed.

Lemma rsn_sub_slice {A} m len (f : rst -> res (A * rst)) :
  rscope_nat f -> rscope_nat (fun r => read_whole_sub_slice m r len f).
Proof.
  intros Hf. unfold read_whole_sub_slice.
  apply rsn_bind0; intros lb. apply (rsn_src_dep (fun s r => let! wp := uadd m (s_pos s) lb in _)). intros s.
  apply rsn_bind0; intros wp. apply rsn_bind; [exact Hf|]. intros a [s' sc]. reflexivity.
Qed.

Lemma rsn_opened {A} m (f : rst -> res (A * rst)) : rscope_nat f -> rscope_nat (opened m f).
Proof. intros Hf. apply rsn_bind; [apply rsn_get|]. intros len. apply rsn_sub_slice, Hf. Qed.

Lemma rwith_buffer_eq {A} m r (f : rst -> res (A * rst)) : rwith_buffer m r f = framed m (ropen r) f r.
Proof. unfold rwith_buffer, framed, ropen. destruct (match r_scope r with Some s => _ | None => _ end); reflexivity. Qed.

(* [rscope_nat f] is [forall r, f r = rscope_stashed r f] *)
Lemma rwith_buffer_factor {A} m r (f : rst -> res (A * rst)) : rscope_nat f ->
  rwith_buffer m r f = rscope_stashed r (framed m (ropen r) f).
Proof.
  intros Hf. rewrite rwith_buffer_eq. unfold framed. destruct (ropen r); [apply (rsn_opened m f Hf)|apply Hf].
Qed.

Lemma framed_ext {A} m o (f g : rst -> res (A * rst)) r :
  (forall r', r_scope r' = None -> f r' = g r') -> r_scope r = None -> framed m o f r = framed m o g r.
Proof.
  intros E Hr. destruct o; [|exact (E r Hr)]. unfold framed, opened, r_get, read_whole_sub_slice.
  destruct (r_length_determinant m None None (r_src r)) as [[len s]| |]; cbn [bind]; try reflexivity.
  rewrite (E (r_set_src r s)) by exact Hr. reflexivity.
Qed.

(* for a read_* method that is its entry call, which leaves [r1], then rwith_buffer of [f] *)
Lemma read_factor_via m t f r r1 :
  rscope_nat f -> (forall r', r_scope r' = None -> read_ty m t r' = f r') ->
  read_ty m t r = rwith_buffer m r1 f ->
  read_ty m t r = rscope_stashed r1 (framed m (ropen r1) (read_ty m t)).
Proof.
  intros Hf Hn ->. rewrite (rwith_buffer_factor m r1 f Hf). unfold rscope_stashed.
  rewrite (framed_ext m _ f (read_ty m t)); [reflexivity| |reflexivity]. intros r' Hr'. symmetry. apply Hn, Hr'.
Qed.

(* the same for a method that is its entry call, then a scope-natural [F] *)
Lemma read_factor_plain m t F r r1 :
  rscope_nat F -> (forall r', r_scope r' = None -> read_ty m t r' = F r') -> read_ty m t r = F r1 ->
  read_ty m t r = rscope_stashed r1 (read_ty m t).
Proof. intros HF Hn ->. rewrite (HF r1). unfold rscope_stashed. rewrite Hn by reflexivity. reflexivity. Qed.

(* SEQUENCE drops the outcome of its own entry call: it goes on whatever [x] is *)
Lemma read_ty_factor_seq m fs so fc ea r x r1 :
  read_bit_field_entry_st m r false = Ok (x, r1) ->
  read_ty m (TSeq fs so fc ea) r = rscope_stashed r1 (framed m (ropen r1) (read_ty m (TSeq fs so fc ea))).
Proof.
  intros He. eapply read_factor_via; [| |cbn [read_ty]; rewrite He; reflexivity].
  2:{ intros r' Hr'. cbn [read_ty]. rewrite rentry_none by exact Hr'. exact (rwith_buffer_none m r' _ Hr'). }
  (* rscope_pushed restores the scope it found, and what precedes it does not look at the scope *)
  intros [s sc]. cbn [r_set_scope r_src r_scope].
  destruct ea as [e|]; unfold r_get; cbn [r_src r_set_src r_set_scope bind].
  - destruct (r_bit s) as [[b s']| |]; cbn [bind r_src r_set_src r_set_scope r_scope]; try reflexivity.
    destruct (src_remaining m s') as [rem| |]; cbn [bind]; try reflexivity.
    destruct (rem <? so); try reflexivity.
    destruct (uadd m (s_pos s') so) as [stop| |]; cbn [bind]; try reflexivity.
    destruct b; [destruct (usub m fc (e + 1)) as [nx| |]; cbn [bind]; try reflexivity|]; apply rsn_pushed_at.
  - destruct (src_remaining m s) as [rem| |]; cbn [bind]; try reflexivity.
    destruct (rem <? so); try reflexivity.
    destruct (uadd m (s_pos s) so) as [stop| |]; cbn [bind]; try reflexivity.
    apply rsn_pushed_at.
Qed.

Lemma read_ty_factor m t r ob r1 :
  read_bit_field_entry_st m r false = Ok (inl ob, r1) ->
  read_ty m t r = rscope_stashed r1 (framed m (ropen r1 && negb (is_choice t)) (read_ty m t)).
Proof.
  intros He.
  destruct t as [| |k lo hi ext|c lo hi ext|lo hi ext|lo hi ext|e lo hi ext|fs so fc ea|alts std ext|vc std ext];
    try destruct (is_Utf8_dec c) as [->|Hc].
  all: cbn [is_choice negb]; rewrite ?andb_true_r, ?andb_false_r.
  (* the types whose method is its entry call, then rwith_buffer of a body *)
  all: try (eapply read_factor_via;
            [|intros r' Hr'; cbn [read_ty]; rewrite (rentry_none' m r' Hr'); exact (rwith_buffer_none m r' _ Hr')
             |cbn [read_ty]; unfold read_bit_field_entry; rewrite He; reflexivity]).
  all: try solve [rsn].
  - (* the restricted character strings *)
    eapply read_factor_via;
      [apply rsn_rstr| |rewrite read_ty_str_eq by exact Hc; unfold read_bit_field_entry; rewrite He; reflexivity].
    intros r' Hr'. rewrite read_ty_str_eq, (rentry_none' m r' Hr') by exact Hc. exact (rwith_buffer_none m r' _ Hr').
  - (* BIT STRING: what is left is that its body is scope-natural *)
    apply (rsn_bind (fun r => r_get r (r_bitstring m lo hi ext))
             (fun a r0 => let '(bs, bl, buflen) := a in
                Ok (VBits (bytes_of_bits bs ++ repeat 0 (N.to_nat buflen - length (bytes_of_bits bs))) bl, r0))); [rsn|].
    intros [[bs bl] bf]. rsn.
  - (* SEQUENCE *) exact (read_ty_factor_seq m fs so fc ea r _ r1 He).
  - (* CHOICE: no rwith_buffer, its body is rscope_stashed of something *)
    refine (read_factor_plain m _ (fun r => rscope_stashed r _) r r1 (rsn_stashed _) _ _).
    + intros r' Hr'. cbn [read_ty]. rewrite (rentry_none' m r' Hr'). reflexivity.
    + cbn [read_ty]. unfold read_bit_field_entry. rewrite He. reflexivity.
  - (* ENUMERATED checks the index after rwith_buffer *)
    eapply (read_factor_via m _ (fun r => let! (index, r) := r_get r (r_enumeration_index m std ext) in
                                          if index <? vc then Ok (VEnum index, r) else Err E_INVALID_CHOICE)).
    + apply rsn_bind; [rsn|]. intros a. rsn.
    + intros r' Hr'. cbn [read_ty]. rewrite (rentry_none' m r' Hr'). cbn [bind]. rewrite rwith_buffer_none by exact Hr'.
      reflexivity.
    + cbn [read_ty]. unfold read_bit_field_entry. rewrite He. cbn [bind].
      rewrite !rwith_buffer_eq. unfold framed. destruct (ropen r1); [|reflexivity].
      unfold opened. destruct (r_get r1 (r_length_determinant m None None)) as [[len r2]| |]; cbn [bind]; try reflexivity.
      unfold read_whole_sub_slice.
      destruct (umul m len BYTE_LEN) as [lb| |]; cbn [bind]; try reflexivity.
      destruct (uadd m (s_pos (r_src r2)) lb) as [wp| |]; cbn [bind]; try reflexivity.
      destruct (r_get r2 (r_enumeration_index m std ext)) as [[i r3]| |]; cbn [bind]; try reflexivity.
      destruct (i <? vc); reflexivity.
Qed.

Lemma stashed_read m ft r1 :
  rwith_buffer m r1 (fun r => rscope_stashed r (read_ty m ft)) = rscope_stashed r1 (framed m (ropen r1) (read_ty m ft)).
Proof.
  rewrite rwith_buffer_eq. unfold framed. destruct (ropen r1); [|reflexivity].
  unfold opened, rscope_stashed, r_get, read_whole_sub_slice. cbn [r_src r_set_scope r_scope].
  destruct (r_length_determinant m None None (r_src r1)) as [[len s]| |]; cbn [bind r_src r_set_src r_scope]; try reflexivity.
  destruct (umul m len BYTE_LEN) as [lb| |]; cbn [bind]; try reflexivity.
  destruct (uadd m (s_pos s) lb) as [wp| |]; cbn [bind]; try reflexivity.
  destruct (read_ty m ft _) as [[y r']| |]; reflexivity.
Qed.

Lemma read_ty_entry_eq m t r r' :
  read_bit_field_entry_st m r false = read_bit_field_entry_st m r' false -> read_ty m t r = read_ty m t r'.
Proof.
  intros E. destruct t as [| | |c| | | | | |]; try destruct c; cbn [read_ty]; unfold read_bit_field_entry; rewrite E; reflexivity.
Qed.


(** * the types without components, reader side *)
(* [n]: the number of alternatives (CHOICE) or items (ENUMERATED) *)
Lemma index_roundtrip m std ext i n ib : std <= n -> i < n -> n < SIZE_LIMIT ->
  w_enumeration_index m std ext i = Ok ib -> reads (r_enumeration_index m std ext) ib i.
Proof.
  intros Hs Hi Hn E.
  assert (Hstd : std < two64) by (unfold SIZE_LIMIT in Hn; unfold two64; lia).
  assert (Hix : i < two64) by (unfold SIZE_LIMIT in Hn; unfold two64; lia).
  exact (codec_inv (index_codec m std ext i Hstd Hix) E).
Qed.

Definition conv_enum (vcR : N) (v : val) : option val :=
  match v with VEnum i => if i <? vcR then Some v else None | _ => Some v end.

Lemma R_enum m vcW vcR std ext : wf_ty (TEnum vcW std ext) ->
  Rconv m (TEnum vcW std ext) (TEnum vcR std ext) (conv_enum vcR).
Proof.
  intros (H1 & H2 & H3 & H4) v bs He Hv Hk. destruct v as [| | | | | | | | |index]; try contradiction Hv.
  cbn [wf_val] in Hv. cbn [enc] in He. rewrite <- (app_nil_r bs).
  apply rreads_entered, (rreads_bind _ _ bs [] (Some index)).
  - apply rreads_buffered, rreads_get, (index_roundtrip m std ext index vcW bs H2 Hv H3 He).
  - cbn [conv_enum]. destruct (index <? vcR); [apply rreads_ret|intros s tail _; reflexivity].
Qed.

Lemma R_enum_same m vc std ext : wf_ty (TEnum vc std ext) -> Rconv m (TEnum vc std ext) (TEnum vc std ext) Some.
Proof.
  intros Hty. apply (Rconv_ext m _ _ (conv_enum vc)); [|exact (R_enum m vc vc std ext Hty)].
  intros v Hv. destruct v as [| | | | | | | | |i]; try reflexivity. cbn [wf_val] in Hv. cbn [conv_enum].
  destruct (N.ltb_spec i vc); [reflexivity|lia].
Qed.

Lemma length_read_short m n s tl : n < 16384 -> at_src s (x_len_first n) tl ->
  r_length_determinant m None None s = Ok (n, src_adv s (bl (x_len_first n)) tl).
Proof.
  intros Hn Hs. rewrite r_len_unc_eq, (r_len_unc_first n s tl Hs).
  unfold len_result, len_frag. rewrite frag_of_short by exact Hn. reflexivity.
Qed.

Lemma len_hdr_reads m ext lo hi up n h :
  len_hdr m ext lo hi up n = Ok h -> ~ Known_C01_len lo hi up n ->
  n < 65536 /\ rreads (fun r => read_len_ext m r ext lo hi) h (Some n).
Proof.
  unfold len_hdr, read_len_ext. intros He Hk.
  (* the unconstrained form is used for short counts only: no fragmentation *)
  assert (H16 : ~ count_in_range lo hi up n \/ (lo = None /\ hi = None) -> n < 16384).
  { intros C. destruct (N.lt_ge_cases n 16384) as [L|L]; [exact L|]. exfalso. apply Hk. right. split; assumption. }
  destruct ((n <? opt_or lo 0) || (opt_or hi up <? n)) eqn:Eo.
  - destruct ext; cbn [negb] in He; [|discriminate He].
    rewrite w_len_unc in He. injection He as <-.
    assert (Hn : n < 16384) by (apply H16; left; unfold count_in_range; lia).
    split; [lia|]. apply (rreads_bind _ _ [true] _ (Some true) _ (rreads_bit true)), rreads_get.
    intros s tl. apply length_read_short, Hn.
  - assert (Hin : count_in_range lo hi up n) by (unfold count_in_range; lia).
    assert (Hnk : ~ Known_C10_length_semi_or_large_bound lo hi) by (intros C; apply Hk; left; split; assumption).
    destruct (x_length lo hi n) as [xb|] eqn:Ex.
    2:{ rewrite (length_reject m lo hi n Hnk Ex) in He. discriminate He. }
    rewrite (length_write m lo hi n xb Hnk Ex) in He. injection He as <-.
    assert (Hres : len_result hi n = n /\ n < 65536).
    { destruct (not_known_cases lo hi Hnk) as [(u & -> & Hu)|[-> ->]].
      - split; [reflexivity|]. destruct Hin as [_ Hin]. cbn [opt_or] in Hin. lia.
      - assert (Hn : n < 16384) by (apply H16; right; split; reflexivity).
        unfold len_result, len_frag. rewrite frag_of_short by exact Hn. split; [reflexivity|lia]. }
    destruct Hres as [Hres Hlt]. split; [exact Hlt|]. rewrite <- Hres.
    destruct ext; [apply (rreads_bind _ _ [false] _ (Some false) _ (rreads_bit false))|];
      apply rreads_get; intros s tl; apply length_read; assumption.
Qed.

Lemma read_chars_spec c : c <> Utf8 -> forall cs acc,
  Forall (fun ch => cs_valid c ch = true) cs ->
  exists codes, map (cdecode c) codes = cs /\
    rreads (fun r => read_chars (length cs) (cwidth c) r acc) (flat_map (char_bits c) cs) (Some (rev acc ++ codes)).
Proof.
  intros Hc. induction cs as [|ch cs IH]; intros acc F.
  - exists []. split; [reflexivity|]. cbn [length read_chars flat_map]. unfold frev.
    rewrite rev_append_rev, !app_nil_r. apply rreads_ret.
  - apply Forall_cons_iff in F. destruct F as [Hv F]. destruct (char_bits_spec c ch Hc Hv) as [Hl Hd].
    destruct (IH (val_of_bits (char_bits c ch) :: acc) F) as (codes & M & E).
    exists (val_of_bits (char_bits c ch) :: codes). split; [cbn [map]; rewrite Hd, M; reflexivity|].
    cbn [length read_chars flat_map]. eapply rreads_bind.
    { apply rreads_get. intros s tl Hs. rewrite Hl.
      apply (r_bits_into_ok _ _ _ 8 (8 - cwidth c) (cwidth c) Hs); rewrite ?Hl; destruct c; cbn [cwidth]; lia. }
    cbv beta. cbn [rev] in E. rewrite <- app_assoc in E. exact E.
Qed.

Lemma octets_read m lo hi ext bytes bs : blen bytes < SIZE_LIMIT -> ~ Known_C10_sized_length lo hi (blen bytes) ->
  w_octetstring m lo hi ext bytes = Ok bs -> reads (r_octetstring m lo hi ext) bs (bits_of_bytes bytes).
Proof.
  unfold SIZE_LIMIT. intros Hl Hk H s tl. rewrite octetstring_write in H by (exact Hk || unfold two63; lia).
  destruct (x_octetstring lo hi ext bytes) as [xb|] eqn:Ex; [injection H as <-|discriminate H].
  apply (octetstring_read m lo hi ext bytes xb s tl); [unfold ALLOC_LIMIT; lia|exact Hk|exact Ex].
Qed.

Lemma enc_str_eq m c lo hi ext cs : c <> Utf8 ->
  enc m (TStr c lo hi ext) (VStr cs) =
  if find_invalid c cs then Err E_INVALID_STRING else
  let! h := len_hdr m ext lo hi U64_MAX (N.of_nat (length cs)) in Ok (h ++ flat_map (char_bits c) cs).
Proof. intros Hc. destruct c; [congruence|reflexivity..]. Qed.

Lemma str_read m c lo hi ext chars h :
  c <> Utf8 -> find_invalid c chars = false ->
  len_hdr m ext lo hi U64_MAX (N.of_nat (length chars)) = Ok h ->
  ~ Known_C01_len lo hi U64_MAX (N.of_nat (length chars)) ->
  rreads (rstr m ext lo hi (cwidth c) (cdecodes c)) (h ++ flat_map (char_bits c) chars) (Some (VStr chars)).
Proof.
  intros Hc Hf Hh Hk. destruct (len_hdr_reads m ext lo hi U64_MAX _ h Hh Hk) as [Hn Hr].
  pose proof (find_invalid_false c chars Hf) as Fv.
  destruct (read_chars_spec c Hc chars [] Fv) as (codes & Em & Er).
  eapply rreads_bind; [exact Hr|].
  cbv beta iota. rewrite alloc_ok by (unfold ALLOC_LIMIT; lia). cbn [bind]. cbv zeta.
  (* the iteration count depends on the source *)
  intros s1 tail Hs. cbn [r_src r_of_src].
  assert (Hit : N.min (N.of_nat (length chars)) ((s_len s1 - s_pos s1) / cwidth c + 1) = N.of_nat (length chars)).
  { destruct Hs as [(_ & L & _) _]. rewrite (char_bits_total c Hc chars Fv) in L.
    assert (W : 0 < cwidth c) by (destruct c; cbn; lia).
    pose proof (N.div_le_lower_bound (s_len s1 - s_pos s1) (cwidth c) (N.of_nat (length chars)) ltac:(lia) ltac:(lia)).
    lia. }
  rewrite Hit, Nat2N.id, (Er s1 tail Hs). cbn [oret bind rev app]. rewrite N.ltb_irrefl.
  assert (Ed : cdecodes c codes = chars).
  { rewrite <- Em. destruct c; try reflexivity; cbn [cdecode cdecodes]; rewrite map_id; reflexivity. }
  rewrite Ed, from_utf8_ascii; [reflexivity|].
  eapply Forall_impl; [|exact Fv]. intros ch Hv. apply (cs_valid_ascii c ch Hc Hv).
Qed.

Lemma R_flat m t : flat t = true -> wf_ty t -> Rconv m t t Some.
Proof.
  intros Hf.
  destruct t as [| |k lo hi ext|c lo hi ext|lo hi ext|lo hi ext|e lo hi ext|fs so fc ea|alts std ext|vc std ext];
    try discriminate Hf; try apply R_enum_same; intros Hty v bs He Hv Hk; destruct v; try discriminate He; try contradiction Hv;
    cbn [enc] in He; cbn [read_ty]; try apply rreads_entered, rreads_buffered.
  - (* BOOLEAN *) injection He as <-. apply (rreads_map _ VBool [b] (Some b)), rreads_bit.
  - (* NULL *) injection He as <-. apply rreads_ret.
  - (* INTEGER *)
    cbn [wf_val] in Hv. destruct Hty as (Hlo & Hhi & _). unfold int_enc in He.
    assert (Hi : is_i64 (to_i64 z)) by (apply i64_of_u64_range, u64_of_i64_lt).
    assert (Hl : is_i64 (opt_or lo 0%Z)) by (destruct lo; [exact Hlo|unfold is_i64; cbn; lia]).
    assert (Hh : is_i64 (opt_or hi I64_MAXz)) by (destruct hi; [exact Hhi|unfold is_i64, I64_MAXz; cbn; lia]).
    set (mx := if ext then ((to_i64 z <? opt_or lo 0) || (opt_or hi I64_MAXz <? to_i64 z))%Z
               else negb (is_some lo) && negb (is_some hi)) in *.
    apply bind_ok in He. destruct He as (b & Eb & He). injection He as <-.
    apply (rreads_bind _ _ _ _ (Some mx)).
    + destruct ext; [apply rreads_bit|apply rreads_ret].
    + cbv beta iota. rewrite <- (from_to_i64 k z Hv).
      apply (rreads_map _ (fun z => VInt (from_i64 k z)) b (Some (to_i64 z))).
      destruct mx; apply rreads_get; [|exact (codec_inv (constrained_codec m _ _ _ Hl Hh) Eb)].
      rewrite unconstrained_write in Eb by exact Hi. injection Eb as <-. intros s tl. apply unconstrained_read, Hi.
  - (* character strings *)
    cbn [wf_val] in Hv. destruct Hv as [Hsc Hlen].
    destruct c; cbn [enc] in He; cbn [read_ty]; apply rreads_entered, rreads_buffered.
    (* the restricted alphabets are read alike; UTF8String is left *)
    2-5: destruct (find_invalid _ chars) eqn:Ef; [discriminate He|].
    2-5: apply bind_ok in He; destruct He as (h & Eh & He); injection He as <-.
    2-5: apply (fun Hc => str_read m _ lo hi ext chars h Hc Ef Eh Hk); discriminate.
    destruct (negb ext && _); [discriminate He|].
    assert (Hnk : ~ Known_C10_sized_length None None (blen (utf8_encode chars))).
    { intros [C _]. apply C. reflexivity. }
    rewrite <- (app_nil_r bs).
    eapply rreads_bind; [apply rreads_get, (octets_read m None None false _ _ Hlen Hnk He)|].
    cbv beta iota. rewrite bytes_of_bits_of_bytes by (apply utf8_encode_bytes; exact Hsc).
    unfold from_utf8. rewrite utf8_roundtrip by exact Hsc. apply rreads_ret.
  - (* OCTET STRING *)
    cbn [wf_val] in Hv. destruct Hv as [Fb Hlen]. cbn [Known_C01] in Hk.
    rewrite <- (bytes_of_bits_of_bytes bytes Fb).
    apply (rreads_map _ (fun bs => VOctets (bytes_of_bits bs)) bs (Some (bits_of_bytes bytes))), rreads_get.
    exact (octets_read m lo hi ext bytes bs Hlen Hk He).
  - (* BIT STRING *)
    cbn [wf_val] in Hv. destruct Hv as [Hc Hlen]. cbn [Known_C01] in Hk.
    destruct (canonical_content bytes bit_len Hc) as (Hbl & Hby & Hle). cbv zeta in Hbl, Hby.
    set (content := firstn (N.to_nat bit_len) (bits_of_bytes bytes)) in *.
    assert (Hk1 : ~ Known_C10_sized_length lo hi bit_len) by tauto.
    assert (Hk2 : ~ Known_C10_bitstring_16k lo hi bit_len) by tauto.
    rewrite bitstring_write in He; [|lia|unfold SIZE_LIMIT in Hlen; unfold two63; lia|exact Hk1|exact Hk2].
    change (N.to_nat 0) with 0%nat in He. cbn [skipn] in He. fold content in He.
    destruct (x_bitstring lo hi ext content) as [xb|] eqn:Ex; [|discriminate He]. injection He as <-.
    rewrite <- Hbl in Hk1, Hk2.
    assert (Ha : bl content <= ALLOC_LIMIT) by (rewrite Hbl; unfold ALLOC_LIMIT, SIZE_LIMIT in *; lia).
    rewrite <- (app_nil_r xb).
    eapply rreads_bind; [apply rreads_get; intros s tl; apply (bitstring_read m lo hi ext content xb s tl Ha Hk1 Hk2 Ex)|].
    cbv beta iota. rewrite Hby, Hbl. destruct Hc as (_ & Hl & _). unfold blen in Hl.
    replace (N.to_nat ((bit_len + 7) / 8) - length bytes)%nat with 0%nat by lia.
    cbn [repeat]. rewrite app_nil_r. apply rreads_ret.
Qed.


(** * open types *)
Lemma wrap_open_np m b : np (wrap_open m b).
Proof. apply w_octetstring_np. Qed.

Lemma wrap_open_x m cb : bl cb < two63 ->
  wrap_open m cb = Ok (x_unconstrained_length_run 8 ((bl cb + 7) / 8) (cb ++ repeat false (pad8 (length cb)))).
Proof.
  intros Hb. unfold wrap_open.
  assert (Hn : blen (bytes_of_bits cb) < two63).
  { rewrite bytes_of_bits_len. pose proof (ceil8_bounds (bl cb)). unfold two63 in *. lia. }
  rewrite octetstring_write; [|exact Hn|intros [C _]; apply C; reflexivity].
  unfold x_octetstring, x_sized_run. fold (blen (bytes_of_bits cb)). rewrite bytes_of_bits_len, bits_of_bytes_of_bits.
  destruct (N.leb_spec 0 ((bl cb + 7) / 8)); [|lia]. reflexivity.
Qed.

Lemma wrap_open_small m cb wb : wrap_open m cb = Ok wb -> (bl cb + 7) / 8 < 16384 ->
  wb = x_len_short ((bl cb + 7) / 8) ++ cb ++ repeat false (pad8 (length cb)).
Proof.
  intros H Hn. rewrite wrap_open_x in H.
  - rewrite x_run_short in H by exact Hn. congruence.
  - pose proof (ceil8_bounds (bl cb)). unfold two63. lia.
Qed.

Lemma open_small m t x b : enc m t x = Ok b -> ~ Known_C01_open_type_16k m t x -> (bl b + 7) / 8 < 16384.
Proof.
  intros He Hk. destruct (N.lt_ge_cases ((bl b + 7) / 8) 16384) as [L|L]; [exact L|].
  exfalso. apply Hk. exists b. split; assumption.
Qed.

(* the window of an open type: its length determinant, its content, and the jump to its end *)
Lemma open_window m cb wb s tail :
  wrap_open m cb = Ok wb -> (bl cb + 7) / 8 < 16384 -> rsrc s wb tail ->
  exists s1 tl1,
    r_length_determinant m None None s = Ok ((bl cb + 7) / 8, s1) /\ same_buf s s1 /\ rsrc s1 cb tl1 /\
    (bl cb + 7) / 8 * 8 < two64 /\ s_pos s1 + (bl cb + 7) / 8 * 8 = s_pos s + bl wb /\
    s_pos s + bl wb < two64 /\ s_pos s + bl wb <= s_len s /\
    forall s', same_buf s s' -> src_set_pos s' (s_pos s + bl wb) = src_adv s (bl wb) tail.
Proof.
  intros Hw Hn Hs. pose proof (wrap_open_small m cb wb Hw Hn) as E.
  set (n := (bl cb + 7) / 8) in *. set (pad := repeat false (pad8 (length cb))) in *.
  assert (Hpad : bl cb + bl pad = 8 * n) by (rewrite <- bl_app; apply padded_len).
  assert (Hwb : bl wb = bl (x_len_first n) + 8 * n) by (rewrite E, (x_len_first_short n Hn), !bl_app; lia).
  pose proof Hs as [(_ & HL & _) (_ & H64)].
  pose proof Hs as Hs'. rewrite E, <- (x_len_first_short n Hn) in Hs'. apply rsrc_split in Hs'. destruct Hs' as [H1 H2].
  apply rsrc_split in H2. destruct H2 as [H2 _].
  exists (src_adv s (bl (x_len_first n)) ((cb ++ pad) ++ tail)), (pad ++ tail).
  split; [|split; [apply same_buf_adv|split; [exact H2|]]].
  - apply (length_read_short m n s _ Hn (proj1 H1)).
  - cbn [s_pos src_adv]. unfold two64 in *. repeat split; try lia.
    intros s' Hb. apply src_set_pos_end; assumption.
Qed.

(* an open type is read as its length, its content by a reader that may stop anywhere in the window
   ([rreads_in]), and the jump to the end of the window; the content reader's InvalidChoiceIndex is passed on *)
Lemma rreads_open {A} m cb wb (f : rst -> res (A * rst)) o :
  wrap_open m cb = Ok wb -> (bl cb + 7) / 8 < 16384 -> rreads_in f cb o -> rreads (opened m f) wb o.
Proof.
  intros Hw Hn Hf s tail Hs.
  destruct (open_window m cb wb s tail Hw Hn Hs) as (s1 & tl1 & Hlen & Hsb & Hs1 & Hmul & Hpos & H64 & _ & Hend).
  destruct (Hf s1 tl1 Hs1) as (s2 & Hsb2 & Ef).
  unfold opened. rewrite r_get_of_src, Hlen. cbn [bind]. unfold read_whole_sub_slice, umul, BYTE_LEN. cbn [r_src r_of_src].
  destruct (N.ltb_spec ((bl cb + 7) / 8 * 8) two64); [|lia]. cbn [bind].
  rewrite uadd_ok by lia. cbn [bind]. rewrite Ef. destruct o as [x|]; [|reflexivity].
  cbn [oret bind]. unfold r_set_src. cbn [r_src r_scope r_of_src].
  rewrite Hpos, (Hend s2) by (eapply same_buf_trans; eassumption). reflexivity.
Qed.

(* F01-3: the reader takes the first length determinant of an open type for the length of the whole, so
   behind an open type of 16K octets or more, which is fragmented, it resumes before the end *)
Lemma opened_short {A} m n body (f : rst -> res (A * rst)) r tail :
  16384 <= n -> bl body = 8 * n -> rsrc (r_src r) (x_unconstrained_length_run 8 n body) tail ->
  match opened m f r with
  | Ok (_, r') => s_pos (r_src r') < s_pos (r_src r) + bl (x_unconstrained_length_run 8 n body)
  | _ => True
  end.
Proof.
  intros Hn Hb Hs. pose proof (x_run_first 8 n body Hb Hn) as Hlt.
  destruct (len_result_bounds n) as (Hc & _). set (cnt := len_result None n) in *.
  pose proof Hs as [(_ & L & _) (_ & H64)].
  rewrite x_run_step in Hs by exact Hb. apply rsrc_split in Hs. destruct Hs as [[H1 _] _].
  unfold opened, r_get. rewrite r_len_unc_eq, (r_len_unc_first n _ _ H1). cbn [bind].
  unfold read_whole_sub_slice, BYTE_LEN. cbn [r_src r_set_src s_pos src_adv]. fold cnt.
  rewrite umul_ok by lia. cbn [bind]. rewrite uadd_ok by lia. cbn [bind].
  destruct (f _) as [[y r']| |]; cbn [bind]; try exact I.
  cbn [r_src r_set_src src_set_pos s_pos]. lia.
Qed.

Lemma stashed_restore {A} (G : rst -> res (A * rst)) w o s1 sc1 tl : rreads G w o -> rsrc s1 w tl ->
  rscope_stashed (mk_r s1 sc1) G = oret o (mk_r (src_adv s1 (bl w) tl) sc1).
Proof.
  intros H Hs. unfold rscope_stashed. change (r_set_scope (mk_r s1 sc1) None) with (r_of_src s1).
  rewrite (H s1 tl Hs). destruct o; reflexivity.
Qed.


(** * SEQUENCE OF *)
(* here and for CHOICE and SEQUENCE: the local [fix]es of write_ty, enc, read_ty, wf_val and Known_C01
   under names; the bodies repeat the originals, so that each name is convertible with its [fix] *)
Definition welems (m : mode) (e : ty) :=
  fix elems (vs : list val) (w : wst) : res wst :=
    match vs with
    | [] => Ok w
    | x :: vs' => let! w := write_ty m e x w in elems vs' w
    end.

Definition enc_elems (m : mode) (e : ty) :=
  fix elems (vs : list val) : res bits :=
    match vs with
    | [] => Ok []
    | x :: r => let! a := enc m e x in let! b := elems r in Ok (a ++ b)
    end.

Definition relems (m : mode) (e : ty) (big : bool) :=
  fix elems (n : nat) (r : rst) (acc : list val) : res (val * rst) :=
    match n with
    | O => if big then Panic P_UNBOUNDED else Ok (VList (frev acc), r)
    | S n' =>
        let! (x, r') := read_ty m e r in
        if big && (s_pos (r_src r') =? s_pos (r_src r)) then Panic P_UNBOUNDED
        else elems n' r' (x :: acc)
    end.

Definition all_wf_val (e : ty) :=
  fix all (vs : list val) : Prop := match vs with [] => True | x :: r => wf_val e x /\ all r end.

Definition any_known (m : mode) (e : ty) :=
  fix any (vs : list val) : Prop := match vs with [] => False | x :: r => Known_C01 m e x \/ any r end.

Lemma write_ty_list_eq m e lo hi ext vs w :
  write_ty m (TListOf e lo hi ext) (VList vs) w =
  let! w := write_bit_field_entry m w false true in
  with_buffer m w (fun w => scope_stashed w (fun w =>
    let! w := write_ext_bit_and_length m w ext lo hi I64_MAX (N.of_nat (length vs)) in
    scope_stashed w (welems m e vs))).
Proof. reflexivity. Qed.

Lemma enc_list_eq m e lo hi ext vs :
  enc m (TListOf e lo hi ext) (VList vs) =
  let! h := len_hdr m ext lo hi I64_MAX (N.of_nat (length vs)) in
  let! body := enc_elems m e vs in Ok (h ++ body).
Proof. reflexivity. Qed.

Lemma welems_sim m e : Wprop3 m e ->
  forall vs w, wst_wf w -> w_scope w = None -> wsim3 (welems m e vs w) w (enc_elems m e vs).
Proof.
  intros IH. induction vs as [|x vs IHl]; intros w Hw Hs; cbn [welems enc_elems].
  - cbn. rewrite w_append_nil. reflexivity.
  - apply wsim3_bind; [apply IH; assumption|]. intros a _. apply IHl; [apply w_append_wf, Hw|exact Hs].
Qed.

Lemma W_list m e lo hi ext : Wprop3 m e -> Wprop3 m (TListOf e lo hi ext).
Proof.
  intros IH v w Hw Hs. destruct v; try reflexivity.
  rewrite write_ty_list_eq, enc_list_eq, entry_none by exact Hs. cbn [bind]. rewrite with_buffer_none by exact Hs.
  apply wsim3_stashed; [exact Hs|]. rewrite write_ext_bit_and_length_eq. apply wsim3_bind; [apply wsim3_put|].
  intros h _. apply wsim3_stashed; [exact Hs|]. apply welems_sim; [exact IH|apply w_append_wf, Hw|exact Hs].
Qed.

Fixpoint conv_elems (f : val -> option val) (vs : list val) : option (list val) :=
  match vs with
  | [] => Some []
  | x :: r => match f x with None => None | Some y => option_map (cons y) (conv_elems f r) end
  end.

Definition conv_list (f : val -> option val) (v : val) : option val :=
  match v with VList vs => option_map VList (conv_elems f vs) | _ => Some v end.

Lemma relems_spec m eW eR f : Rconv m eW eR f ->
  forall vs body acc, enc_elems m eW vs = Ok body -> all_wf_val eW vs -> ~ any_known m eW vs ->
  rreads (fun r => relems m eR false (length vs) r acc) body
         (option_map (fun vs' => VList (rev acc ++ vs')) (conv_elems f vs)).
Proof.
  intros IH. induction vs as [|x vs IHl]; intros body acc He Hv Hk.
  - injection He as <-. cbn [length relems conv_elems option_map]. unfold frev.
    rewrite rev_append_rev, app_nil_r. apply rreads_ret.
  - cbn [enc_elems] in He. apply bind_ok in He. destruct He as (a & Ea & He).
    apply bind_ok in He. destruct He as (b & Eb & He). injection He as <-.
    destruct Hv as [Hx Hv]. cbn [any_known] in Hk.
    cbn [length relems conv_elems andb].
    apply (rreads_bind _ (fun x r' => relems m eR false (length vs) r' (x :: acc)) a b (f x));
      [exact (IH x a Ea Hx (fun C => Hk (or_introl C)))|].
    destruct (f x) as [y|]; [|reflexivity].
    specialize (IHl b (y :: acc) Eb Hv (fun C => Hk (or_intror C))).
    destruct (conv_elems f vs); cbn [option_map rev] in *; [rewrite <- app_assoc in IHl|]; exact IHl.
Qed.

Lemma R_list m eW eR f lo hi ext : Rconv m eW eR f ->
  Rconv m (TListOf eW lo hi ext) (TListOf eR lo hi ext) (conv_list f).
Proof.
  intros IH v bs He Hv Hk. destruct v; try discriminate He; try contradiction Hv.
  rewrite enc_list_eq in He. apply bind_ok in He. destruct He as (h & Eh & He).
  apply bind_ok in He. destruct He as (body & Eb & He). injection He as <-.
  destruct Hv as [Hlen Hv]. cbn [Known_C01] in Hk.
  destruct (len_hdr_reads m ext lo hi I64_MAX _ h Eh (fun C => Hk (or_introl C))) as [Hn Hh].
  apply rreads_entered, rreads_buffered. eapply rreads_bind; [exact Hh|].
  cbv beta. cbn [conv_list].
  destruct (N.ltb_spec 0 (N.of_nat (length vs))) as [L|L].
  - apply rreads_stashed. rewrite alloc_ok by (unfold ALLOC_LIMIT; lia). cbn [bind]. cbv zeta.
    destruct (N.ltb_spec LOOP_LIMIT (N.of_nat (length vs))) as [L2|L2]; [unfold LOOP_LIMIT in L2; lia|].
    rewrite Nat2N.id.
    exact (relems_spec m eW eR f IH vs body [] Eb Hv (fun C => Hk (or_intror C))).
  - destruct vs; [|cbn [length] in L; lia]. injection Eb as <-. apply rreads_ret.
Qed.

Lemma conv_elems_id vs : conv_elems Some vs = Some vs.
Proof. induction vs as [|x vs IH]; cbn [conv_elems]; [|rewrite IH]; reflexivity. Qed.

Lemma R_list_same m e lo hi ext : Rconv m e e Some -> Rconv m (TListOf e lo hi ext) (TListOf e lo hi ext) Some.
Proof.
  intros IH. apply (Rconv_ext m _ _ (conv_list Some)); [|apply R_list, IH].
  intros v _. destruct v; try reflexivity. cbn [conv_list]. rewrite conv_elems_id. reflexivity.
Qed.


(** * CHOICE *)
Definition wpick (m : mode) (x : val) (w : wst) :=
  fix pick (alts : list ty) (i : nat) : res wst :=
    match alts, i with
    | a :: _, O => write_ty m a x w
    | _ :: r, S i' => pick r i'
    | [], _ => Panic P_OTHER
    end.

Definition enc_pick (m : mode) (x : val) :=
  fix pick (alts : list ty) (i : nat) : res bits :=
    match alts, i with
    | a :: _, O => enc m a x
    | _ :: r, S i' => pick r i'
    | [], _ => Panic P_OTHER
    end.

Definition rpick (m : mode) (index : N) (r : rst) :=
  fix pick (alts : list ty) (i : nat) : res (option val * rst) :=
    match alts, i with
    | a :: _, O => let! (x, r) := read_ty m a r in Ok (Some (VChoice index x), r)
    | _ :: rest, S i' => pick rest i'
    | [], _ => Ok (None, r)
    end.

Definition all_wf_ty := fix all (alts : list ty) : Prop := match alts with [] => True | a :: r => wf_ty a /\ all r end.

Definition pick_wf (x : val) :=
  fix pick (alts : list ty) (n : nat) : Prop :=
    match alts, n with a :: _, O => wf_val a x | _ :: r, S n' => pick r n' | [], _ => False end.

Definition pick_known (m : mode) (std i : N) (x : val) :=
  fix pick (alts : list ty) (n : nat) : Prop :=
    match alts, n with
    | a :: _, O => Known_C01 m a x \/ (std <= i /\ Known_C01_open_type_16k m a x)
    | _ :: r, S n' => pick r n'
    | [], _ => False
    end.

Lemma all_wf_ty_Forall alts : all_wf_ty alts -> Forall wf_ty alts.
Proof.
  induction alts as [|a alts IH]; intros H; [constructor|]. cbn [all_wf_ty] in H. destruct H as (H1 & H2).
  constructor; [exact H1|apply IH; exact H2].
Qed.

Lemma all_wf_ty_nth alts : all_wf_ty alts -> forall n t, nth_error alts n = Some t -> wf_ty t.
Proof. intros H n t E. exact (proj1 (Forall_forall _ _) (all_wf_ty_Forall _ H) t (nth_error_In _ _ E)). Qed.

Lemma pick_wf_lt x : forall alts n, pick_wf x alts n -> (n < length alts)%nat.
Proof.
  intros alts n. unfold pick_wf. rewrite fix_pick_nth.
  destruct (nth_error alts n) eqn:E; [|contradiction]. intros _. apply nth_error_Some. congruence.
Qed.

Lemma write_ty_choice_eq m alts std ext index x w :
  write_ty m (TChoice alts std ext) (VChoice index x) w =
  let! w := write_bit_field_entry m w false true in
  scope_stashed w (fun w =>
    let! w := w_put w (w_enumeration_index m std ext index) in
    let content (w : wst) : res wst :=
      if N.of_nat (length alts) <=? index then Panic P_OTHER else wpick m x w alts (N.to_nat index) in
    if std <=? index then
      let! sub := content w_empty in w_put w (wrap_open m (w_bits sub))
    else content w).
Proof. reflexivity. Qed.

Lemma enc_choice_eq m alts std ext index x :
  enc m (TChoice alts std ext) (VChoice index x) =
  let! ib := w_enumeration_index m std ext index in
  let! cb := enc_pick m x alts (N.to_nat index) in
  if std <=? index then let! wb := wrap_open m cb in Ok (ib ++ wb) else Ok (ib ++ cb).
Proof. reflexivity. Qed.

Lemma wpick_sim m x alts : Forall (Wprop3 m) alts ->
  forall i w, wst_wf w -> w_scope w = None -> wsim3 (wpick m x w alts i) w (enc_pick m x alts i).
Proof.
  intros F i w Hw Hs. unfold wpick, enc_pick. rewrite !fix_pick_nth.
  destruct (nth_error alts i) as [a|] eqn:E; [|reflexivity].
  exact (proj1 (Forall_forall _ _) F a (nth_error_In _ _ E) x w Hw Hs).
Qed.

Lemma wpick_guarded m x w alts index :
  (if N.of_nat (length alts) <=? index then Panic P_OTHER else wpick m x w alts (N.to_nat index))
  = wpick m x w alts (N.to_nat index).
Proof.
  destruct (N.leb_spec (N.of_nat (length alts)) index); [|reflexivity].
  unfold wpick. rewrite fix_pick_nth, (proj2 (nth_error_None alts _)) by lia. reflexivity.
Qed.

Lemma W_choice m alts std ext : Forall (Wprop3 m) alts -> Wprop3 m (TChoice alts std ext).
Proof.
  intros F v w Hw Hs. destruct v; try reflexivity.
  rewrite write_ty_choice_eq, enc_choice_eq, entry_none by exact Hs. cbn [bind]. cbv zeta.
  apply wsim3_stashed; [exact Hs|]. apply (sim3_bind _ _ _ _ _ _ (wsim3_put _ _)). intros ib _. cbn [bind].
  rewrite !wpick_guarded. destruct (std <=? index).
  - apply (sim3_bind _ _ _ _ _ _ (wpick_sim m v alts F _ w_empty w_empty_wf eq_refl)). intros cb _.
    cbn [bind]. rewrite w_bits_empty_append. apply wsim3_app, wsim3_put.
  - apply wsim3_app, wpick_sim; [exact F|apply w_append_wf, Hw|exact Hs].
Qed.

(* [tr tW tR]: for the types at one position of writer and reader, what the reader of [tR] returns for a
   value written under [tW]; [None] is InvalidChoiceIndex *)
Definition conv_pick (tr : ty -> ty -> val -> option val) (x : val) :=
  fix pick (aW aR : list ty) (n : nat) {struct aW} : option val :=
    match aW, aR, n with
    | tW :: _, tR :: _, O => tr tW tR x
    | _ :: rW, _ :: rR, S n' => pick rW rR n'
    | _, _, _ => None
    end.

Lemma conv_pick_nth tr x : forall aW aR n,
  conv_pick tr x aW aR n =
  match nth_error aW n, nth_error aR n with Some tW, Some tR => tr tW tR x | _, _ => None end.
Proof.
  induction aW as [|tW aW IH]; intros [|tR aR] [|n]; cbn [conv_pick nth_error]; try reflexivity;
    [destruct (nth_error aW n); reflexivity|apply IH].
Qed.

Lemma conv_pick_beyond tr x aW aR n : (length aR <= n)%nat -> conv_pick tr x aW aR n = None.
Proof.
  intros H. rewrite conv_pick_nth, (proj2 (nth_error_None aR n) H). destruct (nth_error aW n); reflexivity.
Qed.

(* [more]: the alternatives the writer has beyond [alts] *)
Lemma conv_pick_id tr alts :
  Forall (fun a => forall x, wf_val a x -> tr a a x = Some x) alts ->
  forall more x n, (n < length alts)%nat -> pick_wf x (alts ++ more) n ->
  conv_pick tr x (alts ++ more) alts n = Some x.
Proof.
  intros F more x n Hn Hv. unfold pick_wf in Hv. rewrite fix_pick_nth, nth_error_app1 in Hv by exact Hn.
  rewrite conv_pick_nth, nth_error_app1 by exact Hn.
  destruct (nth_error alts n) as [a|] eqn:E; [|contradiction Hv].
  exact (proj1 (Forall_forall _ _) F a (nth_error_In _ _ E) x Hv).
Qed.

Definition conv_choice (tr : ty -> ty -> val -> option val) (aW aR : list ty) (v : val) : option val :=
  match v with
  | VChoice i x => option_map (VChoice i) (conv_pick tr x aW aR (N.to_nat i))
  | _ => Some v
  end.

Lemma enc_pick_small m index std x alts i cb :
  enc_pick m x alts i = Ok cb -> ~ pick_known m std index x alts i -> std <= index -> (bl cb + 7) / 8 < 16384.
Proof.
  unfold enc_pick, pick_known. rewrite !fix_pick_nth.
  destruct (nth_error alts i) as [a|]; [|discriminate]. intros He Hk Hs.
  apply (open_small m a x cb He). intros C. apply Hk. right. split; assumption.
Qed.

Definition alts_ok (m : mode) (tr : ty -> ty -> val -> option val) (aW aR : list ty) : Prop :=
  forall n tW tR, nth_error aW n = Some tW -> nth_error aR n = Some tR -> Rconv m tW tR (tr tW tR).

Lemma rpick_spec m tr index std x aW aR : alts_ok m tr aW aR ->
  forall i cb, enc_pick m x aW i = Ok cb -> pick_wf x aW i -> ~ pick_known m std index x aW i ->
  (i < length aR)%nat ->
  rreads (fun r => rpick m index r aR i) cb (option_map (fun x' => Some (VChoice index x')) (conv_pick tr x aW aR i)).
Proof.
  intros HC i cb He Hv Hk Hi. unfold enc_pick, pick_wf, pick_known, rpick in *.
  rewrite fix_pick_nth in He. rewrite fix_pick_nth in Hv. rewrite fix_pick_nth in Hk.
  rewrite conv_pick_nth.
  destruct (nth_error aW i) as [tW|] eqn:EW; [|discriminate He].
  destruct (nth_error aR i) as [tR|] eqn:ER; [|apply nth_error_None in ER; lia].
  eapply rreads_ext; [intros r _; apply fix_pick_nth|]. rewrite ER.
  apply (rreads_map (read_ty m tR)). exact (HC i tW tR EW ER x cb He Hv ltac:(tauto)).
Qed.

(* the content of a CHOICE, read in place or out of an open type *)
Definition rcontent (m : mode) (alts : list ty) (index : N) (r : rst) : res (option val * rst) :=
  if N.of_nat (length alts) <=? index then Ok (None, r) else rpick m index r alts (N.to_nat index).

Lemma R_choice m tr aW aR std ext :
  wf_ty (TChoice aW std ext) -> wf_ty (TChoice aR std ext) -> alts_ok m tr aW aR ->
  Rconv m (TChoice aW std ext) (TChoice aR std ext) (conv_choice tr aW aR).
Proof.
  intros (H1 & H2 & H3 & H4 & _) (R1 & R2 & R3 & R4 & _) HC v bs He Hv Hk.
  destruct v as [| | | | | | | |index x|]; try discriminate He; try contradiction Hv.
  rewrite enc_choice_eq in He. apply bind_ok in He. destruct He as (ib & Ei & He).
  apply bind_ok in He. destruct He as (cb & Ec & He).
  change (pick_wf x aW (N.to_nat index)) in Hv.
  change (~ pick_known m std index x aW (N.to_nat index)) in Hk.
  pose proof (pick_wf_lt x aW _ Hv) as Hlt. pose proof (enc_pick_small m index std x aW _ cb Ec Hk) as Hsmall.
  pose proof (index_roundtrip m std ext index _ ib H2 ltac:(lia) H3 Ei) as Hidx.
  apply rreads_entered, rreads_stashed. cbn [conv_choice].
  (* an alternative the reader does not have is [None], which becomes the error only after the window has
     been skipped: the error is the missing alternative, not a short read *)
  set (og := if N.of_nat (length aR) <=? index then Some None
             else option_map (fun x' => Some (VChoice index x')) (conv_pick tr x aW aR (N.to_nat index))).
  pose proof (fun Hi => rpick_spec m tr index std x aW aR HC _ cb Ec Hv Hk Hi) as Hpick.
  assert (Hend : match og with
                 | Some ov => rreads (fun r => match ov with Some v => Ok (v, r) | None => Err E_INVALID_CHOICE end) []
                                (option_map (VChoice index) (conv_pick tr x aW aR (N.to_nat index)))
                 | None => option_map (VChoice index) (conv_pick tr x aW aR (N.to_nat index)) = None
                 end).
  { unfold og. destruct (N.leb_spec (N.of_nat (length aR)) index) as [LR|LR].
    - rewrite conv_pick_beyond by lia. intros s tail _. reflexivity.
    - destruct (conv_pick tr x aW aR (N.to_nat index)); [apply rreads_ret|reflexivity]. }
  destruct (N.leb_spec std index) as [L|L].
  - apply bind_ok in He. destruct He as (wb & Ew & He). injection He as <-.
    eapply rreads_bind; [apply rreads_get, Hidx|]. cbv beta iota zeta.
    rewrite (proj2 (N.leb_le std index) L), <- (app_nil_r wb).
    eapply rreads_bind; [|exact Hend]. apply (rreads_open m cb wb (rcontent m aR index) og Ew (Hsmall L)).
    unfold rcontent, og. destruct (N.leb_spec (N.of_nat (length aR)) index) as [LR|LR]; [|apply rreads_in_of, Hpick; lia].
    intros s tail _. exists s. split; [apply same_buf_refl|reflexivity].
  - injection He as <-.
    eapply rreads_bind; [apply rreads_get, Hidx|]. cbv beta iota zeta.
    rewrite (proj2 (N.leb_gt std index) L), <- (app_nil_r cb).
    eapply rreads_bind; [|exact Hend]. unfold og. rewrite (proj2 (N.leb_gt (N.of_nat (length aR)) index)) by lia.
    apply Hpick. lia.
Qed.

Lemma R_choice_same m alts std ext : Forall (fun a => wf_ty a -> Rconv m a a Some) alts ->
  wf_ty (TChoice alts std ext) -> Rconv m (TChoice alts std ext) (TChoice alts std ext) Some.
Proof.
  intros IH Hty. apply (Rconv_ext m _ _ (conv_choice (fun _ _ y => Some y) alts alts)).
  - intros v Hv. destruct v as [| | | | | | | |i x|]; try reflexivity. cbn [conv_choice].
    change (pick_wf x alts (N.to_nat i)) in Hv. unfold pick_wf in Hv. rewrite fix_pick_nth in Hv. rewrite conv_pick_nth.
    destruct (nth_error alts (N.to_nat i)); [reflexivity|contradiction Hv].
  - apply (R_choice m _ alts alts std ext Hty Hty). intros n tW tR HW HR.
    assert (tR = tW) by congruence. subst tR.
    cbn [wf_ty] in Hty. destruct Hty as (_ & _ & _ & _ & Hta). fold all_wf_ty in Hta.
    rewrite Forall_forall in IH. exact (IH tW (nth_error_In _ _ HW) (all_wf_ty_nth _ Hta n tW HW)).
Qed.


(** * SEQUENCE: the reference layout *)
Definition enc_field (m : mode) (f : fkind * ty) (ov : option val) : res fenc :=
  match f, ov with
  | (FReq, ft), Some x => let! b := enc m ft x in Ok (true, b)
  | (FOpt, ft), None => Ok (false, [])
  | (FOpt, ft), Some x => let! b := enc m ft x in Ok (true, b)
  | (FDef d, ft), Some x => if val_eqb d x then Ok (false, []) else let! b := enc m ft x in Ok (true, b)
  | _, _ => Panic P_OTHER
  end.

Definition enc_fields (m : mode) :=
  fix go (fs : list (fkind * ty)) (vals : list (option val)) : res (list fenc) :=
    match fs, vals with
    | [], _ => Ok []
    | (FReq, ft) :: fs', Some x :: vals' =>
        let! b := enc m ft x in let! r := go fs' vals' in Ok ((true, b) :: r)
    | (FOpt, ft) :: fs', None :: vals' =>
        let! r := go fs' vals' in Ok ((false, []) :: r)
    | (FOpt, ft) :: fs', Some x :: vals' =>
        let! b := enc m ft x in let! r := go fs' vals' in Ok ((true, b) :: r)
    | (FDef d, ft) :: fs', Some x :: vals' =>
        if val_eqb d x then let! r := go fs' vals' in Ok ((false, []) :: r)
        else let! b := enc m ft x in let! r := go fs' vals' in Ok ((true, b) :: r)
    | _, _ => Panic P_OTHER
    end.

Lemma enc_seq_eq m fs so fc ea vals :
  enc m (TSeq fs so fc ea) (VSeq vals) = let! fes := enc_fields m fs vals in seq_assemble m fs fes ea.
Proof. reflexivity. Qed.

Lemma enc_fields_cons m f fs ov vals :
  enc_fields m (f :: fs) (ov :: vals) =
  let! fe := enc_field m f ov in let! r := enc_fields m fs vals in Ok (fe :: r).
Proof.
  destruct f as [[| |d] ft], ov as [x|]; cbn [enc_fields enc_field]; try reflexivity.
  - destruct (enc m ft x); reflexivity.
  - destruct (enc m ft x); reflexivity.
  - destruct (val_eqb d x); [reflexivity|]. destruct (enc m ft x); reflexivity.
Qed.

Lemma enc_fields_nil_vals m f fs : enc_fields m (f :: fs) [] = Panic P_OTHER.
Proof. destruct f as [[| |d] ft]; reflexivity. Qed.

Lemma enc_fields_app m a : forall b vals,
  enc_fields m (a ++ b) vals =
  let! x := enc_fields m a vals in let! y := enc_fields m b (skipn (length a) vals) in Ok (x ++ y).
Proof.
  induction a as [|f a IH]; intros b vals.
  - cbn [app length skipn enc_fields bind]. destruct (enc_fields m b vals); reflexivity.
  - destruct vals as [|ov vals]; cbn [app length skipn].
    + rewrite !enc_fields_nil_vals. reflexivity.
    + rewrite !enc_fields_cons, IH. destruct (enc_field m f ov); cbn [bind]; try reflexivity.
      destruct (enc_fields m a vals); cbn [bind]; try reflexivity.
      destruct (enc_fields m b (skipn (length a) vals)); reflexivity.
Qed.

(* on [Some x] the boolean of [encoded k x] of Uper/Spec.v *)
Definition presence (k : fkind) (ov : option val) : bool :=
  match k, ov with
  | FReq, _ => true
  | FOpt, o => is_some o
  | FDef d, Some x => negb (val_eqb d x)
  | FDef _, None => false
  end.

Fixpoint presences (fs : list (fkind * ty)) (vals : list (option val)) : list bool :=
  match fs, vals with
  | (k, _) :: fs', ov :: vals' => presence k ov :: presences fs' vals'
  | _, _ => []
  end.

Lemma enc_field_eq m k ft ov : enc_field m (k, ft) ov =
  match ov with
  | Some x => if presence k ov then let! b := enc m ft x in Ok (true, b) else Ok (false, [])
  | None => match k with FOpt => Ok (false, []) | _ => Panic P_OTHER end
  end.
Proof.
  destruct k as [| |d], ov as [x|]; cbn [enc_field presence is_some]; try reflexivity.
  destruct (val_eqb d x); reflexivity.
Qed.

Lemma enc_field_ok m k ft ov p b : enc_field m (k, ft) ov = Ok (p, b) ->
  p = presence k ov /\ (p = false -> b = []).
Proof.
  rewrite enc_field_eq. destruct ov as [x|].
  - destruct (presence k (Some x)).
    + destruct (enc m ft x); cbn [bind]; try discriminate. intros H. injection H as <- _. split; [reflexivity|discriminate].
    + intros H. injection H as <- <-. split; reflexivity.
  - destruct k; try discriminate. intros H. injection H as <- <-. split; reflexivity.
Qed.

Lemma enc_field_absent m f ov b : enc_field m f ov = Ok (false, b) -> b = [].
Proof. destruct f as [k ft]. intros H. apply (enc_field_ok _ _ _ _ _ _ H). reflexivity. Qed.

(* what the reader returns for a component that is not transmitted *)
Definition absent_val (k : fkind) : option val := match k with FDef d => Some d | _ => None end.

Lemma enc_field_inv m k ft ov p b : enc_field m (k, ft) ov = Ok (p, b) ->
  if p then exists x, ov = Some x /\ enc m ft x = Ok b /\ encoded k x
  else is_optk k = true /\ ov = absent_val k /\ b = [].
Proof.
  assert (Hpres : forall x, encoded k x -> (let! b := enc m ft x in Ok (true, b)) = Ok (p, b) ->
            if p then exists y, Some x = Some y /\ enc m ft y = Ok b /\ encoded k y
            else is_optk k = true /\ Some x = absent_val k /\ b = []).
  { intros x Hen H. apply bind_ok in H. destruct H as (b' & E & H). injection H as <- <-. exists x. auto. }
  destruct k as [| |d], ov as [x|]; cbn [enc_field]; try discriminate; try (apply Hpres; exact I).
  - intros H. injection H as <- <-. auto.
  - destruct (val_eqb d x) eqn:Ed; [|apply Hpres; exact Ed].
    intros H. injection H as <- <-. apply val_eqb_eq in Ed. subst x. auto.
Qed.

Lemma enc_fields_cons_ok m f fs vals fes : enc_fields m (f :: fs) vals = Ok fes ->
  exists ov vals' p b fes', vals = ov :: vals' /\ fes = (p, b) :: fes' /\
    enc_field m f ov = Ok (p, b) /\ enc_fields m fs vals' = Ok fes' /\ (p = false -> b = []).
Proof.
  destruct vals as [|ov vals']; [rewrite enc_fields_nil_vals; discriminate|]. rewrite enc_fields_cons.
  destruct (enc_field m f ov) as [[p b]| |] eqn:Ef; cbn [bind]; try discriminate.
  destruct (enc_fields m fs vals') as [fes'| |] eqn:Er; cbn [bind]; try discriminate.
  intros H. injection H as <-. exists ov, vals', p, b, fes'. repeat split; try reflexivity; try assumption.
  intros ->. apply (enc_field_absent m f ov b Ef).
Qed.

Lemma enc_fields_ok_ind m (P : list (fkind * ty) -> list (option val) -> list fenc -> Prop) :
  (forall vals, P [] vals []) ->
  (forall f fs ov vals p b fes, enc_field m f ov = Ok (p, b) -> (p = false -> b = []) ->
     enc_fields m fs vals = Ok fes -> P fs vals fes -> P (f :: fs) (ov :: vals) ((p, b) :: fes)) ->
  forall fs vals fes, enc_fields m fs vals = Ok fes -> P fs vals fes.
Proof.
  intros H0 HS. induction fs as [|f fs IH]; intros vals fes H.
  - cbn in H. injection H as <-. apply H0.
  - destruct (enc_fields_cons_ok m _ _ _ _ H) as (ov & vals' & p & b & fes' & -> & -> & Ef & Er & Hb). auto.
Qed.

Lemma enc_fields_length m fs vals fes : enc_fields m fs vals = Ok fes -> length fes = length fs.
Proof.
  apply (enc_fields_ok_ind m (fun fs _ fes => length fes = length fs)); [reflexivity|].
  intros; cbn [length]; congruence.
Qed.

Lemma enc_fields_presence m : forall fs vals fes, enc_fields m fs vals = Ok fes ->
  map fst fes = presences fs vals /\
  Forall (fun fe => fst fe = false -> snd fe = []) fes.
Proof.
  apply enc_fields_ok_ind; [split; [reflexivity|constructor]|].
  intros [k ft] fs ov vals p b fes Ef Hb _ [I1 I2]. destruct (enc_field_ok _ _ _ _ _ _ Ef) as [Hp _].
  cbn [map fst presences]. split; [f_equal; assumption|constructor; assumption].
Qed.

Lemma flags_of_length : forall fs fes, length fes = length fs -> length (flags_of fs fes) = nopt fs.
Proof.
  induction fs as [|[k ft] fs IH]; intros [|[p b] fes] H; try discriminate H; [reflexivity|].
  cbn [flags_of]. unfold nopt. cbn [filter fst]. rewrite app_length, IH by (cbn [length] in H; lia).
  unfold nopt. destruct (is_optk k); cbn [length]; lia.
Qed.

Lemma seq_assemble_some m fs fes e kr : kr = S (N.to_nat e) ->
  seq_assemble m fs fes (Some e) =
  let! (eb, xp) := ext_part m (skipn kr fs) (skipn kr fes) in
  Ok (eb :: flags_of (firstn kr fs) (firstn kr fes) ++ payload_of (firstn kr fes) ++ xp).
Proof. intros ->. reflexivity. Qed.

Lemma ext_part_cons m afs p b fes nx : N.of_nat (S (length fes)) = nx ->
  ext_part m afs ((p, b) :: fes) =
  if p then
    let! ns := w_normally_small m (nx - 1) in
    let! ap := add_payloads m afs ((p, b) :: fes) in Ok (true, ns ++ p :: map fst fes ++ ap)
  else if existsb fst fes then Err E_EXT_INCONSISTENT else Ok (false, []).
Proof. intros <-. reflexivity. Qed.

Lemma ext_part_true m afs afe xp : ext_part m afs afe = Ok (true, xp) ->
  exists b1 rest ns ap, afe = (true, b1) :: rest /\
    w_normally_small m (N.of_nat (length afe) - 1) = Ok ns /\
    add_payloads m afs afe = Ok ap /\ xp = ns ++ map fst afe ++ ap.
Proof.
  unfold ext_part. destruct afe as [|[p1 b1] rest]; [discriminate|].
  destruct p1; [|destruct (existsb fst rest); discriminate].
  destruct (w_normally_small m _) as [ns| |] eqn:Ens; cbn [bind]; try discriminate.
  destruct (add_payloads m afs _) as [ap| |] eqn:Eap; cbn [bind]; try discriminate.
  intros H. injection H as <-. exists b1, rest, ns, ap. repeat split; assumption || reflexivity.
Qed.

Lemma ext_part_bit m afs afe eb xp : ext_part m afs afe = Ok (eb, xp) ->
  eb = existsb fst afe /\ (eb = false -> xp = []).
Proof.
  unfold ext_part. destruct afe as [|[p1 b1] rest]; [intros H; injection H as <- <-; split; reflexivity|].
  destruct p1.
  - destruct (w_normally_small m _); cbn [bind]; try discriminate.
    destruct (add_payloads m afs _); cbn [bind]; try discriminate.
    intros H. injection H as <- <-. split; [reflexivity|discriminate].
  - cbn [existsb fst orb]. destruct (existsb fst rest); [discriminate|].
    intros H. injection H as <- <-. split; reflexivity.
Qed.

Lemma ext_part_refusal m afs afe e : ext_part m afs afe = Err e ->
  Forall (fun fe => bl (snd fe) < two63) afe -> N.of_nat (length afe) < two64 ->
  e = E_EXT_INCONSISTENT /\ exists b rest, afe = (false, b) :: rest /\ existsb fst rest = true.
Proof.
  unfold ext_part. destruct afe as [|[p1 b1] rest]; [discriminate|]. intros H Hb Hl.
  destruct p1.
  - exfalso. rewrite normally_small_write in H by (cbn [length] in *; lia). cbn [bind] in H.
    assert (Hap : forall fs fes, Forall (fun fe => bl (snd fe) < two63) fes -> exists ap, add_payloads m fs fes = Ok ap).
    { clear. induction fs as [|[k ft] fs IH]; intros [|[p b] fes] F; try (eexists; reflexivity).
      apply Forall_cons_iff in F. destruct F as [Hb F]. cbn [snd] in Hb. cbn [add_payloads].
      destruct (IH fes F) as [r ->].
      destruct (p && wraps k ft); [rewrite wrap_open_x by exact Hb|]; cbn [bind]; eexists; reflexivity. }
    destruct (Hap afs _ Hb) as [ap Eap]. rewrite Eap in H. discriminate H.
  - destruct (existsb fst rest) eqn:Ee; [|discriminate H]. injection H as <-.
    split; [reflexivity|]. exists b1, rest. split; [reflexivity|exact Ee].
Qed.

Lemma add_payloads_app m : forall a b fa fb, length fa = length a ->
  add_payloads m (a ++ b) (fa ++ fb) =
  let! x := add_payloads m a fa in let! y := add_payloads m b fb in Ok (x ++ y).
Proof.
  induction a as [|[k ft] a IH]; intros b [|[p bb] fa] fb H; try discriminate H.
  - cbn [app add_payloads bind]. destruct (add_payloads m b fb); reflexivity.
  - cbn [app add_payloads]. cbn [length] in H. rewrite IH by lia.
    destruct (if p && wraps k ft then wrap_open m bb else Ok bb) as [x| |]; cbn [bind]; try reflexivity.
    destruct (add_payloads m a fa) as [y| |]; cbn [bind]; try reflexivity.
    destruct (add_payloads m b fb) as [z| |]; cbn [bind]; try reflexivity.
    rewrite app_assoc. reflexivity.
Qed.

(* the descriptor constants of a SEQUENCE, as derived by the compiler *)
Definition seq_consts_ok (fs : list (fkind * ty)) (so fc : N) (ea : option N) : Prop :=
  fc = N.of_nat (length fs) /\ fc < SIZE_LIMIT /\
  match ea with Some e => e < fc | None => True end /\
  so = N.of_nat (nopt (firstn (root_len fs ea) fs)).

Definition all_wf_fields :=
  fix all (fs : list (fkind * ty)) : Prop :=
    match fs with
    | [] => True
    | (k, ft) :: fs' => wf_ty ft /\ match k with FDef d => wf_val ft d | _ => True end /\ all fs'
    end.

Lemma all_wf_fields_Forall fs : all_wf_fields fs -> Forall (fun f => wf_ty (snd f)) fs.
Proof.
  induction fs as [|[k ft] fs IH]; intros H; [constructor|]. cbn [all_wf_fields] in H. destruct H as (H1 & _ & H3).
  constructor; [exact H1|apply IH; exact H3].
Qed.

Lemma all_wf_fields_app a : forall b, all_wf_fields (a ++ b) -> all_wf_fields a /\ all_wf_fields b.
Proof.
  induction a as [|[k ft] a IH]; intros b H; cbn [app all_wf_fields] in *; [tauto|].
  destruct H as (H1 & H2 & H3). destruct (IH b H3). tauto.
Qed.

Lemma wf_ty_seq fs so fc ea : wf_ty (TSeq fs so fc ea) <-> seq_consts_ok fs so fc ea /\ all_wf_fields fs.
Proof. unfold seq_consts_ok. cbn [wf_ty]. fold all_wf_fields. tauto. Qed.

Definition all_wf_vals :=
  fix all (fs : list (fkind * ty)) (vals : list (option val)) : Prop :=
    match fs, vals with
    | [], [] => True
    | (k, ft) :: fs', ov :: vals' =>
        match ov with Some x => wf_val ft x | None => k = FOpt end /\ all fs' vals'
    | _, _ => False
    end.

Definition any_known_f (m : mode) (ea : option N) :=
  fix any (fs : list (fkind * ty)) (vals : list (option val)) (i : nat) : Prop :=
    match fs, vals with
    | (k, ft) :: fs', ov :: vals' =>
        match ov with
        | Some x => encoded k x /\
                    (Known_C01 m ft x \/
                     (is_addition ea i /\ wraps k ft = true /\ Known_C01_open_type_16k m ft x))
        | None => False
        end \/ any fs' vals' (S i)
    | _, _ => False
    end.

Lemma all_wf_vals_length : forall fs vals, all_wf_vals fs vals -> length vals = length fs.
Proof.
  induction fs as [|[k ft] fs IH]; intros [|ov vals] H; try contradiction H; [reflexivity|].
  cbn [all_wf_vals] in H. cbn [length]. f_equal. apply IH, H.
Qed.

(* the scope while the root components are walked, by the writer and by the reader, is
   [root_scope x a b]: [a, b) are the presence bits still to come; [x] is [None] without extension marker
   (OptBitField) and otherwise holds what else ExtSeq carries: the position of the extension bit, the
   calls left before the first addition, the number of additions *)
Definition xinfo := option (N * N * N).

Definition root_scope (x : xinfo) (a b : N) : scope :=
  match x with None => OptBitField a b | Some (bp, c, nx) => ExtSeq bp (Some (a, b)) c nx end.

Definition xsub (x : xinfo) (n : nat) : xinfo :=
  match x with None => None | Some (bp, c, nx) => Some (bp, c - N.of_nat n, nx) end.

Definition xge (x : xinfo) (n : nat) : Prop :=
  match x with None => True | Some (_, c, _) => N.of_nat n <= c end.

Lemma xge_step x n : xge x (S n) -> xge x 1 /\ xge (xsub x 1) n.
Proof. destruct x as [[[bp c] nx]|]; cbn [xge xsub]; lia. Qed.

Lemma xsub_xsub x a b : xsub (xsub x a) b = xsub x (a + b).
Proof. destruct x as [[[bp c] nx]|]; cbn [xsub]; [|reflexivity]. do 3 f_equal. lia. Qed.


(** * SEQUENCE, writer side *)
Definition wfield (m : mode) (f : fkind * ty) (ov : option val) (w : wst) : res wst :=
  match f, ov with
  | (FReq, ft), Some x => write_ty m ft x w
  | (FOpt, ft), ov =>
      let! w := write_bit_field_entry m w true (is_some ov) in
      match ov with
      | Some x => with_buffer m w (fun w => scope_stashed w (fun w => write_ty m ft x w))
      | None => Ok w
      end
  | (FDef d, ft), Some x =>
      let present := negb (val_eqb d x) in
      let! w := write_bit_field_entry m w true present in
      if present then with_buffer m w (fun w => scope_stashed w (fun w => write_ty m ft x w)) else Ok w
  | _, _ => Panic P_OTHER
  end.

Definition wfields (m : mode) :=
  fix fields (fs : list (fkind * ty)) (vals : list (option val)) (w : wst) : res wst :=
    match fs, vals with
    | [], _ => Ok w
    | (FReq, ft) :: fs', Some x :: vals' =>
        let! w := write_ty m ft x w in fields fs' vals' w
    | (FOpt, ft) :: fs', ov :: vals' =>
        let! w := write_bit_field_entry m w true (is_some ov) in
        let! w := (match ov with
                   | Some x => with_buffer m w (fun w => scope_stashed w (fun w => write_ty m ft x w))
                   | None => Ok w
                   end) in
        fields fs' vals' w
    | (FDef d, ft) :: fs', Some x :: vals' =>
        let present := negb (val_eqb d x) in
        let! w := write_bit_field_entry m w true present in
        let! w := (if present then with_buffer m w (fun w => scope_stashed w (fun w => write_ty m ft x w)) else Ok w) in
        fields fs' vals' w
    | _, _ => Panic P_OTHER
    end.

Lemma write_ty_seq_eq m fs so fc ea vals w :
  write_ty m (TSeq fs so fc ea) (VSeq vals) w =
  let! w := write_bit_field_entry m w false true in
  with_buffer m w (fun w =>
    let bit_pos := w_n w in
    let w := match ea with Some _ => w_append w [false] | None => w end in
    let write_pos := w_n w in
    let w := w_append w (repeat false (N.to_nat so)) in
    match ea with
    | Some e =>
        let! nx := usub m fc (e + 1) in
        scope_pushed m w (ExtSeq bit_pos (Some (write_pos, write_pos + so)) (e + 1) nx) (wfields m fs vals)
    | None => scope_pushed m w (OptBitField write_pos (write_pos + so)) (wfields m fs vals)
    end).
Proof. reflexivity. Qed.

Lemma wfields_cons m f fs ov vals w :
  wfields m (f :: fs) (ov :: vals) w = let! w := wfield m f ov w in wfields m fs vals w.
Proof.
  destruct f as [[| |d] ft]; cbn [wfields wfield].
  - destruct ov; reflexivity.
  - rewrite bind_assoc. reflexivity.
  - destruct ov; [|reflexivity]. cbv zeta. rewrite bind_assoc. reflexivity.
Qed.

Lemma wfields_nil_vals m f fs w : wfields m (f :: fs) [] w = Panic P_OTHER.
Proof. destruct f as [[| |d] ft]; reflexivity. Qed.

Lemma wfields_app m a : forall b vals w,
  wfields m (a ++ b) vals w = let! w1 := wfields m a vals w in wfields m b (skipn (length a) vals) w1.
Proof.
  induction a as [|f a IH]; intros b vals w; [reflexivity|].
  destruct vals as [|ov vals]; cbn [app length skipn].
  - rewrite !wfields_nil_vals. reflexivity.
  - rewrite !wfields_cons, bind_assoc. destruct (wfield m f ov w); cbn [bind]; try reflexivity. apply IH.
Qed.

(* one component against [enc_field]; [ent p] is what the bit-field entry of the enclosing scope
   answers for presence [p]: for a present component it must not panic *)
Lemma wfield_sim m k ft ov w (ent : bool -> res wst) : Wprop3 m ft -> wst_wf w ->
  (forall p, write_bit_field_entry m w (is_optk k) p = ent p) -> np (ent true) ->
  sim3 (wfield m (k, ft) ov w) (enc_field m (k, ft) ov)
       (fun fe => let! w1 := ent (fst fe) in wcontent m (fst fe && wraps k ft) w1 (snd fe)).
Proof.
  intros IH Hw Hent Hnp. set (K := fun fe : fenc => _).
  assert (Hpres : forall x c, (forall w1, c w1 = wbody m ft x (wraps k ft) w1) ->
    sim3 (let! w1 := ent true in c w1) (let! b := enc m ft x in Ok (true, b)) K).
  { intros x c Hc. subst K. destruct (ent true) as [w1|e0|p] eqn:E; cbn [bind].
    - assert (Hw1 : wst_wf w1) by (apply (entry_ok_wf m w (is_optk k) true); [exact Hw|rewrite Hent; exact E]).
      rewrite Hc. apply (sim3_bind_r _ _ _ _ _ (wbody_sim m ft x (wraps k ft) w1 IH Hw1)).
      intros b _. cbn [sim3 fst snd andb]. rewrite E. reflexivity.
    - apply sim3_err. intros [p b] Eb. destruct (enc m ft x); try discriminate Eb. injection Eb as <- _.
      cbn [fst]. rewrite E. reflexivity.
    - discriminate Hnp. }
  assert (Habs : sim3 (let! w1 := ent false in Ok w1) (Ok (false, [])) K).
  { subst K. cbn [sim3 fst snd andb]. destruct (ent false) as [w1| |]; cbn [bind]; try reflexivity.
    symmetry. apply wcontent_absent. }
  destruct k as [| |d], ov as [x|]; cbn [enc_field wfield is_optk] in *; try reflexivity.
  - destruct (shape ft x) eqn:Esh.
    2:{ destruct (write_ty_shape m ft x w Esh) as [-> ->]. reflexivity. }
    rewrite (write_ty_factor m ft x w Esh), Hent. apply Hpres. reflexivity.
  - rewrite Hent. apply Hpres. intros w1. apply stashed_content.
  - rewrite Hent. exact Habs.
  - cbv zeta. rewrite Hent. destruct (val_eqb d x); [exact Habs|]. apply Hpres. intros w1. apply stashed_content.
Qed.

Lemma wfields_step m k ft fs vals w ent K : Forall (fun f => Wprop3 m (snd f)) ((k, ft) :: fs) -> wst_wf w ->
  (forall p, write_bit_field_entry m w (is_optk k) p = ent p) -> np (ent true) ->
  (forall ov vals' p b, vals = ov :: vals' -> enc_field m (k, ft) ov = Ok (p, b) ->
     sim3 (let! w' := (let! w1 := ent p in wcontent m (p && wraps k ft) w1 b) in wfields m fs vals' w')
          (enc_fields m fs vals') (fun fes => K ((p, b) :: fes))) ->
  sim3 (wfields m ((k, ft) :: fs) vals w) (enc_fields m ((k, ft) :: fs) vals) K.
Proof.
  intros F Hw Hent Hnp Hrest. destruct vals as [|ov vals]; [rewrite enc_fields_nil_vals, wfields_nil_vals; reflexivity|].
  rewrite wfields_cons, enc_fields_cons.
  apply (sim3_bind _ _ _ _ _ _ (wfield_sim m k ft ov w ent (Forall_inv F) Hw Hent Hnp)).
  intros [p b] Ef. apply (sim3_bind_r _ _ _ _ _ (Hrest ov vals p b eq_refl Ef)). intros fes _. reflexivity.
Qed.

(* the writer during the component walk, relative to the sink [w0] before the SEQUENCE: [wstate w0 X sc] has
   appended [X] and stands in scope [sc].  Among the root components ([rstate]) [X] is the bits [Pre] up to
   the next presence bit, the [k] placeholders still to be patched, and the payload [P]; among the
   additions ([astate]) the same, the placeholders being [true] *)
Definition wstate (w0 : wst) (X : bits) (sc : scope) : wst := w_set_scope (w_append w0 X) (Some sc).

Lemma wstate_wf w0 X sc : wst_wf w0 -> wst_wf (wstate w0 X sc).
Proof. intros H. apply w_set_scope_wf, w_append_wf, H. Qed.

Lemma wstate_scope w0 X sc : w_scope (wstate w0 X sc) = Some sc.
Proof. reflexivity. Qed.

Lemma wstate_append w0 X sc b : w_append (wstate w0 X sc) b = wstate w0 (X ++ b) sc.
Proof. unfold wstate. rewrite <- w_set_scope_append, w_append_app. reflexivity. Qed.

Lemma wstate_patch w0 A old B sc bit :
  w_patch (wstate w0 (A ++ old :: B) sc) (w_n w0 + bl A) bit = Ok (wstate w0 (A ++ bit :: B) sc).
Proof.
  unfold w_patch, wstate, w_set_scope, w_append. cbn [w_rbits w_n w_scope].
  rewrite !app_length. cbn [length]. unfold bl.
  destruct (N.ltb_spec (w_n w0 + N.of_nat (length A)) (w_n w0 + N.of_nat (length A + S (length B)))); [|lia].
  f_equal. f_equal.
  rewrite !rev_append_rev, !rev_app_distr. cbn [rev]. rewrite <- !app_assoc. cbn [app].
  replace (N.to_nat (w_n w0 + N.of_nat (length A + S (length B)) - 1 - (w_n w0 + N.of_nat (length A))))
    with (length (rev B)) by (rewrite rev_length; lia).
  apply set_nth_app.
Qed.

Definition rstate (w0 : wst) (Pre : bits) (k : nat) (P : bits) (x : xinfo) : wst :=
  wstate w0 (Pre ++ repeat false k ++ P)
    (root_scope x (w_n w0 + bl Pre) (w_n w0 + bl Pre + N.of_nat k)).

Lemma entry_root m w0 Pre k P x (o p : bool) : (o = true -> (1 <= k)%nat) -> xge x 1 ->
  write_bit_field_entry m (rstate w0 Pre k P x) o p =
  Ok (rstate w0 (Pre ++ (if o then [p] else [])) (k - (if o then 1 else 0)) P (xsub x 1)).
Proof.
  intros Hk Hx. unfold write_bit_field_entry, rstate. rewrite wstate_scope.
  destruct o.
  2:{ rewrite app_nil_r, Nat.sub_0_r.
      destruct x as [[[bp c] nx]|]; cbn [root_scope xsub xge write_into_field] in *; [|reflexivity].
      destruct (N.eqb_spec c 0); [lia|reflexivity]. }
  specialize (Hk eq_refl). destruct k as [|k]; [lia|]. replace (S k - 1)%nat with k by lia.
  assert (Hpatch : forall sc, w_patch (wstate w0 (Pre ++ repeat false (S k) ++ P) sc) (w_n w0 + bl Pre) p
                              = Ok (wstate w0 ((Pre ++ [p]) ++ repeat false k ++ P) sc)).
  { intros sc. cbn [repeat app]. rewrite wstate_patch, <- app_assoc. reflexivity. }
  rewrite bl_app. change (bl [p]) with 1.
  replace (w_n w0 + (bl Pre + 1) + N.of_nat k) with (w_n w0 + bl Pre + N.of_nat (S k)) by lia.
  replace (w_n w0 + (bl Pre + 1)) with (w_n w0 + bl Pre + 1) by lia.
  destruct x as [[[bp c] nx]|]; cbn [root_scope xsub xge write_into_field] in *.
  - destruct (N.eqb_spec c 0); [lia|]. rewrite Hpatch. reflexivity.
  - rewrite Hpatch. reflexivity.
Qed.

Lemma rstate_append w0 Pre k P x b : w_append (rstate w0 Pre k P x) b = rstate w0 Pre k (P ++ b) x.
Proof. unfold rstate. rewrite wstate_append, <- !app_assoc. reflexivity. Qed.

Lemma wcontent_rstate m wr w0 Pre k P x b :
  wcontent m wr (rstate w0 Pre k P x) b = Ok (rstate w0 Pre k (P ++ b) x).
Proof.
  unfold wcontent. replace (wopen (rstate w0 Pre k P x)) with false by (destruct x as [[[bp c] nx]|]; reflexivity).
  cbn [andb]. rewrite rstate_append. reflexivity.
Qed.

Lemma root_walk m w0 : wst_wf w0 -> forall rfs vals Pre k P x,
  Forall (fun f => Wprop3 m (snd f)) rfs -> (nopt rfs <= k)%nat -> xge x (length rfs) ->
  sim3 (wfields m rfs vals (rstate w0 Pre k P x)) (enc_fields m rfs vals)
    (fun fes => Ok (rstate w0 (Pre ++ flags_of rfs fes) (k - nopt rfs) (P ++ payload_of fes)
                           (xsub x (length rfs)))).
Proof.
  intros Hw. induction rfs as [|[kd ft] rfs IHl]; intros vals Pre k P x F Hk Hx.
  - cbn [wfields enc_fields sim3 flags_of payload_of concat map nopt filter length].
    rewrite !app_nil_r, Nat.sub_0_r. destruct x as [[[bp c] nx]|]; cbn [xsub]; rewrite ?N.sub_0_r; reflexivity.
  - unfold nopt in Hk. cbn [filter fst] in Hk. cbn [length] in Hx. apply xge_step in Hx. destruct Hx as [Hx1 Hx].
    eapply (wfields_step m kd ft rfs vals _ _ _ F (wstate_wf _ _ _ Hw)).
    + intros p. apply entry_root; [|exact Hx1].
      intros Ho. rewrite Ho in Hk. cbn [length] in Hk. lia.
    + reflexivity.
    + intros ov vals' p b _ _. cbn [bind]. rewrite wcontent_rstate. cbn [bind].
      eapply sim3_ext.
      * apply IHl; [exact (Forall_inv_tail F)|unfold nopt; destruct (is_optk kd); cbn [length] in Hk; lia|exact Hx].
      * intros fes _. cbn [flags_of payload_of map concat snd length]. unfold nopt. cbn [filter fst].
        rewrite xsub_xsub, <- !app_assoc. f_equal. f_equal.
        destruct (is_optk kd); cbn [length]; lia.
Qed.

Definition astate (w0 : wst) (Pre : bits) (k : nat) (P : bits) : wst :=
  wstate w0 (Pre ++ repeat true k ++ P) (AllBitField (w_n w0 + bl Pre) (w_n w0 + bl Pre + N.of_nat k)).

Lemma entry_all m w0 Pre k P (o p : bool) : (1 <= k)%nat ->
  write_bit_field_entry m (astate w0 Pre k P) o p = Ok (astate w0 (Pre ++ [p]) (k - 1) P).
Proof.
  intros Hk. unfold write_bit_field_entry, astate. rewrite wstate_scope. cbn [write_into_field].
  destruct k as [|k]; [lia|]. cbn [repeat app]. rewrite wstate_patch. cbn [bind].
  f_equal. unfold wstate. rewrite w_set_scope_set, <- app_assoc. cbn [app]. replace (S k - 1)%nat with k by lia.
  rewrite bl_app. change (bl [p]) with 1.
  replace (w_n w0 + (bl Pre + 1)) with (w_n w0 + bl Pre + 1) by lia.
  replace (w_n w0 + bl Pre + 1 + N.of_nat k) with (w_n w0 + bl Pre + N.of_nat (S k)) by lia. reflexivity.
Qed.

Lemma astate_append w0 Pre k P b : w_append (astate w0 Pre k P) b = astate w0 Pre k (P ++ b).
Proof. unfold astate. rewrite wstate_append, <- !app_assoc. reflexivity. Qed.

Lemma wcontent_astate m wr w0 Pre k P b :
  wcontent m wr (astate w0 Pre k P) b =
  let! y := (if wr then wrap_open m b else Ok b) in Ok (astate w0 Pre k (P ++ y)).
Proof.
  unfold wcontent. change (wopen (astate w0 Pre k P)) with true. cbn [andb].
  destruct wr; [destruct (wrap_open m b)|]; cbn [w_put bind]; rewrite ?astate_append; reflexivity.
Qed.

Lemma all_walk m w0 : wst_wf w0 -> forall afs vals Pre k P,
  Forall (fun f => Wprop3 m (snd f)) afs -> (length afs <= k)%nat ->
  sim3 (wfields m afs vals (astate w0 Pre k P)) (enc_fields m afs vals)
    (fun fes => let! ap := add_payloads m afs fes in
                Ok (astate w0 (Pre ++ map fst fes) (k - length afs) (P ++ ap))).
Proof.
  intros Hw. induction afs as [|[kd ft] afs IHl]; intros vals Pre k P F Hk.
  - cbn [wfields enc_fields sim3 add_payloads bind map length]. rewrite !app_nil_r, Nat.sub_0_r. reflexivity.
  - cbn [length] in Hk. eapply (wfields_step m kd ft afs vals _ _ _ F (wstate_wf _ _ _ Hw)).
    + intros p. apply entry_all. lia.
    + reflexivity.
    + intros ov vals' p b _ _. cbn [bind add_payloads]. rewrite wcontent_astate.
      assert (Hy : np (if p && wraps kd ft then wrap_open m b else Ok b))
        by (destruct (p && wraps kd ft); [apply wrap_open_np|reflexivity]).
      destruct (if p && wraps kd ft then wrap_open m b else Ok b) as [y|e0|pp]; cbn [bind].
      * eapply sim3_ext; [apply IHl; [exact (Forall_inv_tail F)|lia]|]. intros fes _. cbv beta.
        destruct (add_payloads m afs fes) as [r| |]; cbn [bind]; try reflexivity.
        cbn [map fst length]. rewrite <- !app_assoc. cbn [app]. do 2 f_equal. lia.
      * apply sim3_err. reflexivity.
      * discriminate Hy.
Qed.

Lemma empty_walk m w0 X : wst_wf w0 -> forall afs vals,
  Forall (fun f => Wprop3 m (snd f)) afs ->
  sim3 (wfields m afs vals (wstate w0 X ExtSeqEmpty)) (enc_fields m afs vals)
    (fun fes => if existsb fst fes then Err E_EXT_INCONSISTENT else Ok (wstate w0 X ExtSeqEmpty)).
Proof.
  intros Hw. induction afs as [|[kd ft] afs IHl]; intros vals F; [reflexivity|].
  apply (wfields_step m kd ft afs vals _
           (fun p => if p then Err E_EXT_INCONSISTENT else Ok (wstate w0 X ExtSeqEmpty)) _ F (wstate_wf _ _ _ Hw)).
  - intros p. reflexivity.
  - reflexivity.
  - intros ov vals' [|] b _ Ef; cbn [bind existsb fst orb andb].
    + apply sim3_err. reflexivity.
    + rewrite (enc_field_absent _ _ _ _ Ef), wcontent_absent. apply IHl, (Forall_inv_tail F).
Qed.

Lemma entry_trans m w0 R opt nx (o p : bool) : 1 <= nx ->
  write_bit_field_entry m (wstate w0 (false :: R) (ExtSeq (w_n w0) opt 0 nx)) o p =
  if p then
    let! ns := w_normally_small m (nx - 1) in
    Ok (astate w0 (true :: R ++ ns ++ [true]) (N.to_nat nx - 1) [])
  else Ok (wstate w0 (false :: R) ExtSeqEmpty).
Proof.
  intros Hnx. unfold write_bit_field_entry. rewrite wstate_scope. cbn [write_into_field].
  change (0 =? 0) with true. cbv iota.
  pose proof (wstate_patch w0 [] false R (ExtSeq (w_n w0) opt 0 nx) p) as Hp.
  cbn [app] in Hp. rewrite bl_nil, N.add_0_r in Hp. rewrite Hp. cbn [bind].
  destruct p; [|reflexivity].
  rewrite usub_ok by exact Hnx. cbn [bind].
  destruct (w_normally_small m (nx - 1)) as [ns| |]; cbn [w_put bind]; try reflexivity.
  rewrite !wstate_append. remember (N.to_nat nx - 1)%nat as k eqn:Ek. replace (N.to_nat nx) with (S k) by lia.
  unfold astate, wstate. rewrite w_set_scope_set. cbn [w_n w_set_scope w_append repeat].
  do 2 f_equal.
  - f_equal. cbn [app]. rewrite app_nil_r, <- !app_assoc. reflexivity.
  - unfold bl. cbn [app length]. repeat (rewrite ?app_length, ?repeat_length; cbn [length]). do 2 f_equal; lia.
Qed.

(* the end of scope_pushed: the debug assertion, then the enclosing scope (None) is restored *)
Definition pushed_end (m : mode) (w' : wst) : res wst :=
  if debug_asserts m && negb (match w_scope w' with Some s => scope_exhausted s | None => false end)
  then Panic P_ASSERT else Ok (w_set_scope w' None).

Lemma scope_pushed_eq m w sc f : w_scope w = None ->
  scope_pushed m w sc f = let! w' := f (w_set_scope w (Some sc)) in pushed_end m w'.
Proof. intros H. unfold scope_pushed. rewrite H. reflexivity. Qed.

Lemma pushed_tail m w X sc : w_scope w = None -> scope_exhausted sc = true ->
  pushed_end m (wstate w X sc) = Ok (w_append w X).
Proof.
  intros Hs He. unfold pushed_end. rewrite wstate_scope, He. cbn [negb]. rewrite andb_false_r.
  unfold wstate. rewrite w_set_scope_set, set_none_append by exact Hs. reflexivity.
Qed.

Lemma exh_all a : scope_exhausted (AllBitField a (a + N.of_nat 0)) = true.
Proof. cbn [scope_exhausted]. change (N.of_nat 0) with 0. rewrite N.add_0_r. apply N.eqb_refl. Qed.

Lemma exh_root x a : scope_exhausted (root_scope x a (a + N.of_nat 0)) = true.
Proof.
  change (N.of_nat 0) with 0. rewrite N.add_0_r.
  destruct x as [[[bp c] nx]|]; cbn [root_scope scope_exhausted]; apply N.eqb_refl.
Qed.

(* the additions, entered from the exhausted root scope, up to the end of the pushed scope: the
   first one fixes the extension bit, writes the count and turns the scope into AllBitField, or
   leaves ExtSeqEmpty, which refuses every later present addition *)
Lemma ext_walk m w0 R opt : wst_wf w0 -> w_scope w0 = None ->
  forall afs vals, Forall (fun f => Wprop3 m (snd f)) afs ->
  scope_exhausted (ExtSeq (w_n w0) opt 0 (N.of_nat (length afs))) = true ->
  sim3 (let! w' := wfields m afs vals (wstate w0 (false :: R) (ExtSeq (w_n w0) opt 0 (N.of_nat (length afs))))
        in pushed_end m w')
       (enc_fields m afs vals)
       (fun afe => let! (eb, xp) := ext_part m afs afe in Ok (w_append w0 (eb :: R ++ xp))).
Proof.
  intros Hw Hs afs vals F Hex. destruct afs as [|[k1 ft1] afs].
  - cbn [wfields enc_fields bind sim3 ext_part]. rewrite pushed_tail by assumption. rewrite app_nil_r. reflexivity.
  - destruct vals as [|ov vals]; [rewrite enc_fields_nil_vals, wfields_nil_vals; reflexivity|].
    apply Forall_cons_iff in F. destruct F as [Hf F]. cbn [snd] in Hf.
    set (nx := N.of_nat (length ((k1, ft1) :: afs))) in *.
    assert (Hnx : N.of_nat (S (length afs)) = nx) by reflexivity.
    assert (Hns : np (w_normally_small m (nx - 1))) by apply w_normally_small_np.
    rewrite wfields_cons, enc_fields_cons, bind_assoc.
    eapply sim3_bind.
    { eapply (wfield_sim m k1 ft1 ov _ _ Hf (wstate_wf _ _ _ Hw)).
      - intros p. apply entry_trans. lia.
      - apply np_bind'; [exact Hns|reflexivity]. }
    intros [p b] Ef. cbn [fst snd]. eapply sim3_bind_r with (k := fun fes => _).
    2:{ (* the reference encoder counts the component encodings, the writer the additions of the type *)
        intros fes Er. cbn [sim3].
        rewrite (ext_part_cons _ _ _ _ _ nx) by (rewrite <- Hnx; do 2 f_equal; exact (enc_fields_length _ _ _ _ Er)).
        reflexivity. }
    destruct p; cbn [andb add_payloads].
    + assert (Hy : np (if wraps k1 ft1 then wrap_open m b else Ok b))
        by (destruct (wraps k1 ft1); [apply wrap_open_np|reflexivity]).
      destruct (w_normally_small m (nx - 1)) as [ns|e0|pp]; cbn [bind];
        [|apply sim3_err; reflexivity|discriminate Hns].
      rewrite wcontent_astate.
      destruct (if wraps k1 ft1 then wrap_open m b else Ok b) as [y|e0|pp]; cbn [bind];
        [|apply sim3_err; reflexivity|discriminate Hy].
      eapply sim3_ext; [apply sim3_bind_l, all_walk; [exact Hw|exact F|lia]|].
      intros fes _. cbv beta. destruct (add_payloads m afs fes) as [ap| |]; cbn [bind]; try reflexivity.
      replace (N.to_nat nx - 1 - length afs)%nat with 0%nat by lia.
      unfold astate. rewrite pushed_tail by (exact Hs || apply exh_all).
      cbn [repeat app]. do 3 f_equal. rewrite <- !app_assoc. reflexivity.
    + rewrite (enc_field_absent _ _ _ _ Ef). cbn [bind]. rewrite wcontent_absent. cbn [bind].
      eapply sim3_ext; [apply sim3_bind_l, empty_walk; [exact Hw|exact F]|].
      intros fes _. cbv beta. destruct (existsb fst fes); cbn [bind]; [reflexivity|].
      rewrite pushed_tail by (exact Hs || reflexivity). rewrite app_nil_r. reflexivity.
Qed.

Lemma init_none w so :
  w_set_scope (w_append w (repeat false so)) (Some (OptBitField (w_n w) (w_n w + N.of_nat so)))
  = rstate w [] so [] None.
Proof. unfold rstate, wstate. cbn [root_scope app]. rewrite app_nil_r, bl_nil, N.add_0_r. reflexivity. Qed.

Lemma init_ext w so e nx :
  w_set_scope (w_append (w_append w [false]) (repeat false so))
    (Some (ExtSeq (w_n w) (Some (w_n (w_append w [false]), w_n (w_append w [false]) + N.of_nat so)) e nx))
  = rstate w [false] so [] (Some (w_n w, e, nx)).
Proof. unfold rstate, wstate. cbn [root_scope]. rewrite w_append_app, app_nil_r. reflexivity. Qed.

Lemma seq_sim m fs so fc ea vals w :
  Forall (fun f => Wprop3 m (snd f)) fs -> seq_consts_ok fs so fc ea -> wst_wf w -> w_scope w = None ->
  sim3 (write_ty m (TSeq fs so fc ea) (VSeq vals) w) (enc_fields m fs vals)
       (fun fes => w_put w (seq_assemble m fs fes ea)).
Proof.
  intros F (Hfc & Hlim & Hea & Hso) Hw Hs.
  rewrite write_ty_seq_eq, entry_none by exact Hs. cbn [bind]. rewrite with_buffer_none by exact Hs. cbv zeta.
  destruct ea as [e|]; cbn [root_len] in Hso.
  - rewrite usub_ok by lia. cbn [bind]. rewrite scope_pushed_eq by exact Hs.
    destruct (split_at_len fs (S (N.to_nat e)) ltac:(lia)) as (rfs & afs & -> & Hkr).
    apply Forall_app in F. destruct F as [Fr Fa]. rewrite app_length in Hfc.
    rewrite firstn_app_exact in Hso by (symmetry; exact Hkr).
    rewrite Hso, Nat2N.id. replace (e + 1) with (N.of_nat (length rfs)) by lia.
    rewrite init_ext, wfields_app, enc_fields_app, bind_assoc.
    eapply sim3_bind.
    { apply root_walk; [exact Hw|exact Fr|lia|cbn [xge]; lia]. }
    intros rfe Er. cbn [bind]. rewrite Nat.sub_diag. cbn [xsub]. rewrite N.sub_diag.
    unfold rstate. cbn [root_scope app repeat].
    replace (fc - N.of_nat (length rfs)) with (N.of_nat (length afs)) by lia.
    eapply sim3_bind_r.
    { apply ext_walk; [exact Hw|exact Hs|exact Fa|apply (exh_root (Some (w_n w, 0, _)))]. }
    intros afe _. cbn [sim3]. apply enc_fields_length in Er. unfold seq_assemble.
    rewrite !firstn_app_exact, !skipn_app_exact by congruence.
    destruct (ext_part m afs afe) as [[eb xp]| |]; cbn [bind w_put]; try reflexivity.
    rewrite <- !app_assoc. reflexivity.
  - rewrite scope_pushed_eq by exact Hs. rewrite firstn_all in Hso.
    rewrite Hso, Nat2N.id, init_none.
    eapply sim3_ext.
    { apply sim3_bind_l, root_walk; [exact Hw|exact F|lia|exact I]. }
    intros fes _. cbn [bind xsub]. rewrite Nat.sub_diag.
    unfold rstate. rewrite pushed_tail by (exact Hs || apply exh_root).
    cbn [repeat app seq_assemble w_put bind]. reflexivity.
Qed.

Lemma W_seq m fs so fc ea :
  Forall (fun f => Wprop3 m (snd f)) fs -> seq_consts_ok fs so fc ea -> Wprop3 m (TSeq fs so fc ea).
Proof.
  intros F Hc v w Hw Hs. destruct v; try reflexivity. rewrite enc_seq_eq.
  apply (sim3_bind_r _ _ _ _ _ (seq_sim m fs so fc ea fields w F Hc Hw Hs)). intros fes _. apply wsim3_put.
Qed.


(** * SEQUENCE, reader side *)
Definition rfield (m : mode) (f : fkind * ty) (r : rst) : res (option val * rst) :=
  let (k, ft) := f in
  if is_optk k then
    let! (ob, r) := read_bit_field_entry m r true in
    match ob with
    | None => Panic P_UNWRAP
    | Some true => let! (x, r) := rwith_buffer m r (fun r => rscope_stashed r (read_ty m ft)) in Ok (Some x, r)
    | Some false => Ok (absent_val k, r)
    end
  else let! (x, r) := read_ty m ft r in Ok (Some x, r).

Definition rfields (m : mode) :=
  fix fields (fs : list (fkind * ty)) (r : rst) (acc : list (option val)) : res (val * rst) :=
    match fs with
    | [] => Ok (VSeq (frev acc), r)
    | (FReq, ft) :: fs' =>
        let! (x, r) := read_ty m ft r in fields fs' r (Some x :: acc)
    | (FOpt, ft) :: fs' =>
        let! (ob, r) := read_bit_field_entry m r true in
        match ob with
        | None => Panic P_UNWRAP
        | Some true =>
            let! (x, r) := rwith_buffer m r (fun r => rscope_stashed r (fun r => read_ty m ft r)) in
            fields fs' r (Some x :: acc)
        | Some false => fields fs' r (None :: acc)
        end
    | (FDef d, ft) :: fs' =>
        let! (ob, r) := read_bit_field_entry m r true in
        match ob with
        | None => Panic P_UNWRAP
        | Some true =>
            let! (x, r) := rwith_buffer m r (fun r => rscope_stashed r (fun r => read_ty m ft r)) in
            fields fs' r (Some x :: acc)
        | Some false => fields fs' r (Some d :: acc)
        end
    end.

Lemma rfields_cons m f fs r acc :
  rfields m (f :: fs) r acc = let! (ov, r) := rfield m f r in rfields m fs r (ov :: acc).
Proof.
  destruct f as [[| |d] ft]; cbn [rfields rfield is_optk absent_val].
  - destruct (read_ty m ft r) as [[x r1]| |]; reflexivity.
  - destruct (read_bit_field_entry m r true) as [[[[|]|] r1]| |]; cbn [bind]; try reflexivity.
    destruct (rwith_buffer m r1 _) as [[x r2]| |]; reflexivity.
  - destruct (read_bit_field_entry m r true) as [[[[|]|] r1]| |]; cbn [bind]; try reflexivity.
    destruct (rwith_buffer m r1 _) as [[x r2]| |]; reflexivity.
Qed.

Lemma read_ty_seq_eq m fs so fc ea r :
  read_ty m (TSeq fs so fc ea) r =
  let! (_, r) := read_bit_field_entry_st m r false in
  rwith_buffer m r (fun r =>
    let bit_pos := s_pos (r_src r) in
    let! (ext, r) := (match ea with Some _ => r_get r r_bit | None => Ok (false, r) end) in
    let! rem := src_remaining m (r_src r) in
    if rem <? so then Err E_END_OF_STREAM else
    let start := s_pos (r_src r) in
    let! stop := uadd m start so in
    let r := r_set_src r (src_set_pos (r_src r) stop) in
    match ea, ext with
    | Some e, true =>
        let! nx := usub m fc (e + 1) in
        rscope_pushed m r (ExtSeq bit_pos (Some (start, stop)) (e + 1) nx)
          (fun r => let! (v, r) := rfields m fs r [] in
                    let! r := skip_unknown_extension_additions m r in Ok (v, r))
    | _, _ => rscope_pushed m r (OptBitField start stop) (fun r => rfields m fs r [])
    end).
Proof. reflexivity. Qed.

Lemma rpushed_eq {A} m s sc (f : rst -> res (A * rst)) :
  rscope_pushed m (r_of_src s) sc f =
  let! (a, r') := f (mk_r s sc) in
  if debug_asserts m && negb (match r_scope r' with Some s => scope_exhausted s | None => false end)
  then Panic P_ASSERT else Ok (a, r_set_scope r' None).
Proof. reflexivity. Qed.

(* the preamble: the extension bit [pre] of a type with extension marker, the remaining-length check, then
   the cursor jumps over the presence bits *)
Lemma seq_read_header m fsR so fcR ea (eb : bool) pre flags rest s tail :
  pre = match ea with Some _ => [eb] | None => [] end ->
  bl flags = so -> rsrc s (pre ++ flags ++ rest) tail ->
  read_ty m (TSeq fsR so fcR ea) (r_of_src s) =
  let r := r_of_src (src_adv s (bl pre + so) (rest ++ tail)) in
  let a := s_pos s + bl pre in
  match eb, ea with
  | true, Some e =>
      let! nx := usub m fcR (e + 1) in
      rscope_pushed m r (ExtSeq (s_pos s) (Some (a, a + so)) (e + 1) nx)
        (fun r => let! (v, r) := rfields m fsR r [] in
                  let! r := skip_unknown_extension_additions m r in Ok (v, r))
  | _, _ => rscope_pushed m r (OptBitField a (a + so)) (fun r => rfields m fsR r [])
  end.
Proof.
  intros Hpre <- Hs.
  rewrite read_ty_seq_eq, rentry_none by reflexivity. cbn [bind]. rewrite rwith_buffer_none by reflexivity. cbv zeta.
  apply rsrc_split in Hs. destruct Hs as [Hs1 Hs2].
  set (s1 := src_adv s (bl pre) ((flags ++ rest) ++ tail)) in *.
  assert (E : match ea with Some _ => r_get (r_of_src s) r_bit | None => Ok (false, r_of_src s) end
              = Ok (match ea with Some _ => eb | None => false end, r_of_src s1)).
  { unfold s1. subst pre. destruct ea; [rewrite r_get_of_src, (r_bit_ok _ _ _ (proj1 Hs1)); reflexivity|].
    rewrite bl_nil, (src_adv_nil _ _ (proj1 Hs1)). reflexivity. }
  rewrite E. cbn [bind r_src r_of_src r_set_src r_scope].
  pose proof Hs2 as [(_ & L & _) (_ & H64)]. rewrite bl_app in L.
  unfold src_remaining. rewrite usub_ok by lia. cbn [bind]. destruct (N.ltb_spec (s_len s1 - s_pos s1) (bl flags)); [lia|].
  rewrite uadd_ok by lia. cbn [bind]. apply rsrc_split in Hs2.
  rewrite (src_set_pos_end s1 s1 flags (rest ++ tail) (proj1 Hs2) (same_buf_refl _)).
  unfold s1. rewrite src_adv_adv. cbn [s_pos src_adv].
  destruct ea, eb; reflexivity.
Qed.

(* what [wf_val] and [~ Known_C01] of a SEQUENCE value say of one component; with [opn], that it is
   outside [Known_C01_open_type_16k] as well, which from the first addition on the value guarantees *)
Definition fld_ok (m : mode) (opn : bool) (k : fkind) (ft : ty) (ov : option val) : Prop :=
  match ov with
  | Some x => wf_val ft x /\
              (encoded k x -> ~ Known_C01 m ft x /\
                 (opn = true -> wraps k ft = true -> ~ Known_C01_open_type_16k m ft x))
  | None => k = FOpt
  end.

(* like [enc_fields] and [conv_vals], it ignores values beyond the components: a segment of the component
   list goes with the rest of the value list from its first value on, not with a slice of it *)
Fixpoint flds_ok (m : mode) (opn : bool) (fs : list (fkind * ty)) (vals : list (option val)) : Prop :=
  match fs, vals with
  | [], _ => True
  | (k, ft) :: fs', ov :: vals' => fld_ok m opn k ft ov /\ flds_ok m opn fs' vals'
  | _, _ => False
  end.

Lemma flds_ok_intro m ea : forall fs vals i,
  all_wf_vals fs vals -> ~ any_known_f m ea fs vals i ->
  flds_ok m false fs vals /\
  forall n, is_addition ea (i + n) -> flds_ok m true (skipn n fs) (skipn n vals).
Proof.
  induction fs as [|[k ft] fs IH]; intros [|ov vals] i Hv Hk; try contradiction Hv.
  - split; [exact I|]. intros [|n] _; exact I.
  - cbn [all_wf_vals] in Hv. destruct Hv as [Hv1 Hv].
    cbn [any_known_f] in Hk.
    destruct (IH vals (S i) Hv ltac:(tauto)) as [I1 I2].
    assert (Hfld : forall opn, (opn = true -> is_addition ea i) -> fld_ok m opn k ft ov).
    { intros opn Ho. unfold fld_ok. destruct ov as [x|]; [|exact Hv1]. split; [exact Hv1|].
      intros He. split; [tauto|]. intros Eo Hw C. apply Hk. left. specialize (Ho Eo). tauto. }
    split.
    + cbn [flds_ok]. split; [apply Hfld; discriminate|exact I1].
    + intros [|n] Ha; cbn [skipn].
      * rewrite Nat.add_0_r in Ha. cbn [flds_ok]. split; [apply Hfld; intros _; exact Ha|].
        apply (I2 0%nat). rewrite Nat.add_0_r. destruct ea; cbn [is_addition] in *; [lia|exact Ha].
      * apply (I2 n). replace (S i + n)%nat with (i + S n)%nat by lia. exact Ha.
Qed.

Lemma flds_ok_app m o : forall a b vals, flds_ok m o (a ++ b) vals ->
  flds_ok m o a vals /\ flds_ok m o b (skipn (length a) vals).
Proof.
  induction a as [|[k ft] a IH]; intros b vals H; cbn [app length skipn] in *.
  - split; [exact I|exact H].
  - destruct vals as [|ov vals]; [contradiction H|]. cbn [flds_ok] in H. destruct H as [H1 H2].
    destruct (IH b vals H2) as [I1 I2]. cbn [flds_ok]. tauto.
Qed.

(* the position moves by the flag [flags_of] has for the component ([return list bool]: its very term) *)
Lemma entry_root_r m s' x a b (o : bool) p :
  (o = true -> r_bit_at s' a = Ok p /\ a < b) -> xge x 1 ->
  exists ob, read_from_field m (mk_r s' (root_scope x a b)) (root_scope x a b) o
     = Ok (inl ob, mk_r s' (root_scope (xsub x 1) (a + bl (if o return list bool then [p] else [])) b)) /\ (o = true -> ob = Some p).
Proof.
  intros Ho Hx. replace (a + bl (if o return list bool then [p] else [])) with (if o then a + 1 else a) by (destruct o; cbn; lia).
  destruct x as [[[bp c] nx]|]; cbn [root_scope read_from_field read_from_field_simple xsub xge] in *.
  - destruct (N.eqb_spec c 0); [lia|]. change (N.of_nat 1) with 1. destruct o.
    + destruct (Ho eq_refl) as [Hb _]. rewrite (bit_at_ok (mk_r s' _) a p Hb). cbn [bind].
      eexists. split; reflexivity.
    + eexists. split; [reflexivity|discriminate].
  - destruct o.
    + destruct (Ho eq_refl) as [Hb Hlt]. destruct (N.leb_spec b a); [lia|].
      rewrite (bit_at_ok (mk_r s' _) a p Hb). cbn [bind]. eexists. split; reflexivity.
    + destruct (b <=? a); eexists; (split; [reflexivity|discriminate]).
Qed.

Lemma entry_all_r m s' a b (o : bool) p : a < b -> r_bit_at s' a = Ok p ->
  read_from_field m (mk_r s' (AllBitField a b)) (AllBitField a b) o
  = Ok (inl (Some p), mk_r s' (AllBitField (a + 1) b)).
Proof.
  intros Hlt Hb. cbn [read_from_field read_from_field_simple]. destruct (N.ltb_spec a b); [|lia].
  rewrite (bit_at_ok (mk_r s' _) a p Hb). reflexivity.
Qed.

Definition absent_scope (sc : scope) : Prop :=
  match sc with
  | AllBitField a b | OptBitField a b => b <= a
  | _ => False
  end.

Lemma beyond_walk m : forall rx s' sc acc, Forall (fun f => is_optk (fst f) = true) rx -> absent_scope sc ->
  rfields m rx (mk_r s' sc) acc = Ok (VSeq (frev (rev (map (fun f => absent_val (fst f)) rx) ++ acc)), mk_r s' sc).
Proof.
  induction rx as [|[k ft] rx IH]; intros s' sc acc F Hsc; [reflexivity|].
  apply Forall_cons_iff in F. destruct F as [Hk F]. cbn [fst] in Hk.
  assert (He : read_bit_field_entry m (mk_r s' sc) true = Ok (Some false, mk_r s' sc)).
  { unfold read_bit_field_entry, read_bit_field_entry_st. cbn [r_scope mk_r].
    destruct sc as [a b|a b|bp opt c nx|]; cbn [absent_scope] in Hsc; try contradiction.
    - cbn [read_from_field read_from_field_simple]. destruct (N.leb_spec b a); [reflexivity|lia].
    - cbn [read_from_field]. rewrite (beyond_transmitted_is_absent _ a b true Hsc). reflexivity. }
  destruct k as [| |d]; [discriminate Hk| |]; cbn [rfields]; rewrite He; cbn [bind];
    rewrite (IH s' sc _ F Hsc); cbn [map fst absent_val rev]; rewrite <- app_assoc; reflexivity.
Qed.

Lemma present_small m k ft ov b0 : wraps k ft = true ->
  enc_field m (k, ft) ov = Ok (true, b0) -> fld_ok m true k ft ov -> (bl b0 + 7) / 8 < 16384.
Proof.
  intros Hw Ef Hf. apply enc_field_inv in Ef. destruct Ef as (x & -> & He & Hen).
  destruct Hf as [_ Hf]. destruct (Hf Hen) as [_ Hbig]. exact (open_small m ft x b0 He (Hbig eq_refl Hw)).
Qed.

Lemma skip_loop_spec m sc : forall wx valsX fes ap a s' tl fuel,
  flds_ok m true wx valsX -> Forall (fun f => is_optk (fst f) = true) wx -> enc_fields m wx valsX = Ok fes ->
  add_payloads m wx fes = Ok ap ->
  bits_at s' a (map fst fes) -> rsrc s' ap tl ->
  bl (map fst fes) < N.of_nat fuel ->
  skip_unknown_loop fuel m (mk_r s' sc) a (a + bl (map fst fes)) = Ok (mk_r (src_adv s' (bl ap) tl) sc).
Proof.
  induction wx as [|[k ft] wx IH]; intros valsX fes ap a s' tl fuel Hok Fo He Hap Hbits Hs Hfuel.
  - cbn in He. injection He as <-. cbn in Hap. injection Hap as <-.
    cbn [map]. rewrite bl_nil, N.add_0_r, skip_loop_done, (src_adv_nil _ _ (proj1 Hs)) by lia. reflexivity.
  - destruct (enc_fields_cons_ok m _ _ _ _ He) as (ov & valsX' & p & b0 & fes' & -> & -> & Ef & Er & Hb0).
    cbn [flds_ok] in Hok. destruct Hok as [Hf Hok].
    apply Forall_cons_iff in Fo. destruct Fo as [Hk Fo]. cbn [fst] in Hk.
    cbn [add_payloads] in Hap.
    destruct (if p && wraps k ft then wrap_open m b0 else Ok b0) as [y| |] eqn:Ey; cbn [bind] in Hap; try discriminate Hap.
    destruct (add_payloads m wx fes') as [ap'| |] eqn:Eap; cbn [bind] in Hap; try discriminate Hap. injection Hap as <-.
    cbn [map fst] in *. rewrite bl_cons, N.add_assoc in *. apply bits_at_cons in Hbits. destruct Hbits as [Hb1 Hb2].
    destruct fuel as [|fuel]; [lia|].
    apply rsrc_split in Hs. destruct Hs as [Hs1 Hs2].
    destruct p.
    + assert (Hw : wraps k ft = true) by (destruct k; [discriminate Hk|reflexivity|reflexivity]).
      rewrite Hw in Ey. cbn [andb] in Ey.
      destruct (open_window m b0 y s' _ Ey (present_small m k ft ov b0 Hw Ef Hf) Hs1)
        as (s1 & tl1 & Hlen & Hsb1 & _ & Hmul & Hpos & H64 & Hle & Hend).
      rewrite (skip_present_step fuel m (mk_r s' sc) a _ ((bl b0 + 7) / 8) (mk_r s1 sc)
                 (N.lt_lt_add_r _ _ _ (N.lt_add_pos_r 1 a N.lt_0_1)) Hb1).
      * unfold r_set_src. cbn [r_src r_scope mk_r]. rewrite Hpos, (Hend s1 Hsb1).
        rewrite bl_app, <- (src_adv_adv s' (bl y) (bl ap') (ap' ++ tl) tl).
        apply (IH valsX' fes' ap' (a + 1) (src_adv s' (bl y) (ap' ++ tl)) tl fuel Hok Fo Er Eap Hb2 Hs2). lia.
      * unfold r_get. cbn [r_src mk_r]. rewrite Hlen. reflexivity.
      * exact Hmul.
      * cbn [r_src mk_r]. lia.
      * cbn [r_src mk_r]. destruct Hsb1 as (_ & _ & <-). lia.
    + rewrite (Hb0 eq_refl) in *. cbn [andb] in Ey. injection Ey as <-.
      rewrite skip_absent_step; [|lia|exact Hb1].
      rewrite bl_nil, (src_adv_nil _ _ (proj1 Hs1)) in Hs2. cbn [app] in *.
      apply (IH valsX' fes' ap' (a + 1) s' tl fuel Hok Fo Er Eap Hb2 Hs2). lia.
Qed.

Lemma skip_all_spec m wx valsX fes ap a s' tl :
  flds_ok m true wx valsX -> Forall (fun f => is_optk (fst f) = true) wx -> enc_fields m wx valsX = Ok fes ->
  add_payloads m wx fes = Ok ap ->
  bits_at s' a (map fst fes) -> rsrc s' ap tl ->
  a + bl (map fst fes) <= s_len s' ->
  skip_unknown_extension_additions m (mk_r s' (AllBitField a (a + bl (map fst fes))))
  = Ok (mk_r (src_adv s' (bl ap) tl) (AllBitField (a + bl (map fst fes)) (a + bl (map fst fes)))).
Proof.
  intros Hok Fo He Hap Hbits Hs Hle. unfold skip_unknown_extension_additions.
  cbn [r_scope mk_r r_src r_set_scope].
  refine (skip_loop_spec m _ wx valsX fes ap a s' tl _ Hok Fo He Hap Hbits Hs _). lia.
Qed.

(* entering the transmitted additions: whatever the reader does first after the root components -- read
   a component or, having none left, skip -- it reads the count of transmitted additions and jumps over
   their presence bits [fl], whose range becomes the scope; its own addition count [nx'] plays no role *)
Section Enter.
Variables (m : mode) (s' : src) (bp : N) (opt : option (N * N)) (nx nx' : N) (ns fl ap tl : bits).
Hypothesis Hbit : r_bit_at s' bp = Ok true.
Hypotheses (H1 : 1 <= nx) (Hlim : nx < SIZE_LIMIT) (Hns : w_normally_small m (nx - 1) = Ok ns).
Hypotheses (Hs : rsrc s' (ns ++ fl ++ ap) tl) (Hfl : bl fl = nx).

Lemma ext_count :
  exists s1, r_normally_small m s' = Ok (nx - 1, s1) /\ s_pos s1 = s_pos s' + bl ns /\
    N.min (nx - 1 + 1) (two64 - 1) = nx /\
    N.min (s_pos s' + bl ns + nx) (two64 - 1) = s_pos s' + bl ns + nx /\
    src_set_pos s1 (s_pos s' + bl ns + nx) = src_adv s' (bl (ns ++ fl)) (ap ++ tl).
Proof.
  assert (Hv : nx - 1 < two64) by (unfold SIZE_LIMIT in Hlim; unfold two64; lia).
  pose proof Hns as Ens. rewrite normally_small_write in Ens by exact Hv. injection Ens as <-.
  pose proof Hs as Hs0. apply rsrc_split in Hs0. destruct Hs0 as [Hs1 _].
  pose proof Hs as Hs0. rewrite app_assoc in Hs0. apply rsrc_split in Hs0. destruct Hs0 as [Hrs _].
  pose proof Hrs as [(_ & L & _) (_ & H64)]. rewrite bl_app in L.
  eexists. split; [apply (normally_small_codec m (nx - 1) Hv), (proj1 Hs1)|].
  split; [reflexivity|]. split; [unfold two64, SIZE_LIMIT in *; lia|]. split; [lia|].
  replace (s_pos s' + bl (x_normally_small (nx - 1)) + nx) with (s_pos s' + bl (x_normally_small (nx - 1) ++ fl))
    by (rewrite bl_app; lia).
  apply (src_set_pos_end s' _ _ _ Hrs), same_buf_adv.
Qed.

Lemma skip_enter :
  skip_unknown_extension_additions m (mk_r s' (ExtSeq bp opt 0 nx')) =
  skip_unknown_extension_additions m
    (mk_r (src_adv s' (bl (ns ++ fl)) (ap ++ tl)) (AllBitField (s_pos s' + bl ns) (s_pos s' + bl ns + nx))).
Proof.
  destruct ext_count as (s1 & E1 & P1 & M1 & M2 & E2).
  unfold skip_unknown_extension_additions, r_get. cbn [r_scope r_src mk_r]. rewrite E1.
  cbn [bind r_src r_set_src r_set_scope r_scope mk_r]. rewrite M1, P1, M2, E2. reflexivity.
Qed.

Lemma entry_enter o :
  read_bit_field_entry_st m (mk_r s' (ExtSeq bp opt 0 nx')) o =
  read_bit_field_entry_st m
    (mk_r (src_adv s' (bl (ns ++ fl)) (ap ++ tl)) (AllBitField (s_pos s' + bl ns) (s_pos s' + bl ns + nx))) o.
Proof.
  destruct ext_count as (s1 & E1 & P1 & M1 & M2 & E2).
  unfold read_bit_field_entry_st. cbn [r_scope mk_r read_from_field]. change (0 =? 0) with true. cbv iota.
  rewrite (bit_at_ok (mk_r s' _) bp true Hbit). cbn [bind r_src mk_r]. rewrite E1. cbn [bind r_src r_set_src mk_r].
  rewrite M1, P1, M2, E2. reflexivity.
Qed.

Lemma walk_skip_enter fs acc :
  (let! (v, r) := rfields m fs (mk_r s' (ExtSeq bp opt 0 nx')) acc in
   let! r := skip_unknown_extension_additions m r in Ok (v, r)) =
  (let! (v, r) := rfields m fs (mk_r (src_adv s' (bl (ns ++ fl)) (ap ++ tl))
                                     (AllBitField (s_pos s' + bl ns) (s_pos s' + bl ns + nx))) acc in
   let! r := skip_unknown_extension_additions m r in Ok (v, r)).
Proof.
  destruct fs as [|[[| |d] ft] fs]; cbn [rfields bind].
  - rewrite skip_enter. reflexivity.
  - rewrite (read_ty_entry_eq m ft _ _ (entry_enter false)). reflexivity.
  - unfold read_bit_field_entry. rewrite (entry_enter true). reflexivity.
  - unfold read_bit_field_entry. rewrite (entry_enter true). reflexivity.
Qed.
End Enter.

Definition conv_ov (f : val -> option val) (ov : option val) : option (option val) :=
  match ov with Some x => option_map Some (f x) | None => Some None end.

Definition conv_vals (tr : ty -> ty -> val -> option val) :=
  fix go (fsW fsR : list (fkind * ty)) (vals : list (option val)) {struct fsW} : option (list (option val)) :=
    match fsW, fsR, vals with
    | (_, tW) :: fsW', (_, tR) :: fsR', ov :: vals' =>
        match conv_ov (tr tW tR) ov with
        | None => None
        | Some o => option_map (cons o) (go fsW' fsR' vals')
        end
    | _, _, _ => Some []
    end.

Lemma conv_vals_cons tr kW tW fsW kR tR fsR ov vals :
  conv_vals tr ((kW, tW) :: fsW) ((kR, tR) :: fsR) (ov :: vals) =
  match conv_ov (tr tW tR) ov with
  | None => None
  | Some o => option_map (cons o) (conv_vals tr fsW fsR vals)
  end.
Proof. reflexivity. Qed.

Lemma conv_vals_nil_vals tr fsW fsR : conv_vals tr fsW fsR [] = Some [].
Proof. destruct fsW as [|[? ?] ?]; [reflexivity|]. destruct fsR as [|[? ?] ?]; reflexivity. Qed.

Lemma conv_vals_app tr : forall aW aR bW bR vals, length aW = length aR ->
  conv_vals tr (aW ++ bW) (aR ++ bR) vals =
  match conv_vals tr aW aR vals with
  | Some x => option_map (app x) (conv_vals tr bW bR (skipn (length aW) vals))
  | None => None
  end.
Proof.
  induction aW as [|[kW tW] aW IH]; intros [|[kR tR] aR] bW bR vals Hl; try discriminate Hl.
  - cbn [app length skipn conv_vals]. destruct (conv_vals tr bW bR vals); reflexivity.
  - destruct vals as [|ov vals].
    + cbn [app length skipn]. rewrite !conv_vals_nil_vals. reflexivity.
    + cbn [app length skipn]. rewrite !conv_vals_cons.
      destruct (conv_ov (tr tW tR) ov) as [o|]; [|reflexivity].
      cbn [length] in Hl. rewrite IH by lia.
      destruct (conv_vals tr aW aR vals) as [x|]; [|reflexivity].
      cbn [option_map]. destruct (conv_vals tr bW bR (skipn (length aW) vals)); reflexivity.
Qed.

(* [more]: the components the writer has beyond [fs] *)
Lemma conv_vals_id tr fs :
  Forall (fun f => forall x, wf_val (snd f) x -> tr (snd f) (snd f) x = Some x) fs ->
  forall more vals, all_wf_vals (fs ++ more) vals -> conv_vals tr fs fs vals = Some (firstn (length fs) vals).
Proof.
  induction 1 as [|[k ft] fs Hf _ IH]; intros more vals Hv; [reflexivity|].
  destruct vals as [|ov vals]; [contradiction Hv|]. cbn [app all_wf_vals] in Hv. destruct Hv as [Hv1 Hv].
  cbn [length firstn]. rewrite conv_vals_cons, (IH more vals Hv). cbn [snd] in Hf.
  destruct ov as [x|]; cbn [conv_ov]; [rewrite (Hf x Hv1)|]; reflexivity.
Qed.

Lemma conv_vals_same fs more vals : all_wf_vals (fs ++ more) vals ->
  conv_vals (fun _ _ y => Some y) fs fs vals = Some (firstn (length fs) vals).
Proof. apply conv_vals_id, Forall_forall. intros f _ y _. reflexivity. Qed.

(* [cW], [cR]: the components writer and reader have in common, position by position; [rx]: those the
   reader has beyond them, which it reports absent *)
Definition conv_seq (tr : ty -> ty -> val -> option val) (cW cR rx : list (fkind * ty)) (v : val) : option val :=
  match v with
  | VSeq vals => option_map (fun l => VSeq (l ++ map (fun f => absent_val (fst f)) rx)) (conv_vals tr cW cR vals)
  | _ => Some v
  end.

Section Walk.
Variable m : mode.
Variable tr : ty -> ty -> val -> option val.

(* what relates a component of the writer to the component of the reader at the same position: the
   same kind, the same framing, the reader of the one type on the encoding of the other, and a DEFAULT
   value that reads as itself *)
Definition comp_ok (fW fR : fkind * ty) : Prop :=
  fst fR = fst fW /\ is_choice (snd fR) = is_choice (snd fW) /\
  Rconv m (snd fW) (snd fR) (tr (snd fW) (snd fR)) /\
  match fst fW with FDef d => tr (snd fW) (snd fR) d = Some d | _ => True end.

(* a present value, where it stands or, in an extension-addition scope, out of an open type *)
Lemma content_read ftW ftR x b wr sc1 bits :
  Rconv m ftW ftR (tr ftW ftR) ->
  enc m ftW x = Ok b -> wf_val ftW x -> ~ Known_C01 m ftW x ->
  (encode_as_open_type_field sc1 = true -> wr = true -> ~ Known_C01_open_type_16k m ftW x) ->
  (if encode_as_open_type_field sc1 && wr then wrap_open m b else Ok b) = Ok bits ->
  rreads (framed m (encode_as_open_type_field sc1 && wr) (read_ty m ftR)) bits (tr ftW ftR x).
Proof.
  intros IH He Hv Hk Hbig Hb. unfold framed. destruct (encode_as_open_type_field sc1 && wr) eqn:Eo.
  - apply andb_true_iff in Eo. destruct Eo as [Eo ->].
    exact (rreads_open m b bits _ _ Hb (open_small m ftW x b He (Hbig Eo eq_refl)) (rreads_in_of _ _ _ (IH x b He Hv Hk))).
  - injection Hb as <-. exact (IH x b He Hv Hk).
Qed.

(* one component, given what its entry into the enclosing scope answers *)
Lemma rfield_spec k ftW ftR ov p b s sc ob s1 sc1 opn :
  comp_ok (k, ftW) (k, ftR) ->
  enc_field m (k, ftW) ov = Ok (p, b) -> fld_ok m opn k ftW ov ->
  read_from_field m (mk_r s sc) sc (is_optk k) = Ok (inl ob, mk_r s1 sc1) ->
  (is_optk k = true -> ob = Some p) ->
  opn = encode_as_open_type_field sc1 ->
  forall bits tl,
  (if opn && (p && wraps k ftW) then wrap_open m b else Ok b) = Ok bits ->
  rsrc s1 bits tl ->
  rfield m (k, ftR) (mk_r s sc) = oret (conv_ov (tr ftW ftR) ov) (mk_r (src_adv s1 (bl bits) tl) sc1).
Proof.
  intros (_ & Hch & IH & Hd) Hef Hok Hent Hob -> bits tl Hbits Hs. cbn [fst snd] in Hch, IH, Hd.
  assert (Hst : read_bit_field_entry_st m (mk_r s sc) (is_optk k) = Ok (inl ob, mk_r s1 sc1)) by exact Hent.
  apply enc_field_inv in Hef. destruct p.
  - destruct Hef as (x & -> & He & Hen). destruct Hok as [Hv Hk]. destruct (Hk Hen) as [Hk1 Hk2].
    pose proof (stashed_restore _ bits _ s1 sc1 tl
                  (content_read ftW ftR x b (wraps k ftW) sc1 bits IH He Hv Hk1 Hk2 Hbits) Hs) as Hc.
    cbn [conv_ov]. destruct k as [| |d]; cbn [rfield is_optk wraps] in *.
    { rewrite (read_ty_factor m ftR _ _ _ Hst), Hch. unfold ropen. cbn [r_scope mk_r]. rewrite Hc.
      destruct (tr ftW ftR x); reflexivity. }
    (* OPTIONAL and DEFAULT alike *)
    all: unfold read_bit_field_entry; rewrite Hst, (Hob eq_refl); cbn [bind]; rewrite andb_true_r in Hc.
    all: rewrite stashed_read; unfold ropen; cbn [r_scope mk_r]; rewrite Hc; destruct (tr ftW ftR x); reflexivity.
  - destruct Hef as (Hko & -> & ->). rewrite andb_false_r in Hbits. injection Hbits as <-.
    rewrite bl_nil, (src_adv_nil _ _ (proj1 Hs)).
    rewrite Hko in Hst.
    destruct k as [| |d]; [discriminate Hko| |]; cbn [rfield absent_val conv_ov option_map];
      unfold read_bit_field_entry; rewrite Hst, (Hob eq_refl); cbn [bind]; rewrite ?Hd; reflexivity.
Qed.

Lemma comp_ok_cons k ft fR : comp_ok (k, ft) fR -> exists ftR, fR = (k, ftR) /\ comp_ok (k, ft) (k, ftR).
Proof.
  destruct fR as [k' ftR]. intros H. pose proof (proj1 H) as E. cbn [fst] in E. subst k'.
  exists ftR. split; [reflexivity|exact H].
Qed.

Lemma root_walk_r : forall rfsW rfsR, Forall2 comp_ok rfsW rfsR ->
  forall vals fes a b x s' tl acc rest,
  flds_ok m false rfsW vals -> enc_fields m rfsW vals = Ok fes ->
  bits_at s' a (flags_of rfsW fes) -> a + bl (flags_of rfsW fes) <= b -> xge x (length rfsW) ->
  rsrc s' (payload_of fes) tl ->
  rfields m (rfsR ++ rest) (mk_r s' (root_scope x a b)) acc =
  match conv_vals tr rfsW rfsR vals with
  | Some vals' =>
      rfields m rest
        (mk_r (src_adv s' (bl (payload_of fes)) tl) (root_scope (xsub x (length rfsW)) (a + bl (flags_of rfsW fes)) b))
        (rev vals' ++ acc)
  | None => Err E_INVALID_CHOICE
  end.
Proof.
  induction 1 as [|[k ft] fR rfsW rfsR Hc F IHl]; intros vals fes a b x s' tl acc rest Hok He Hbits Hab Hx Hs.
  - cbn in He. injection He as <-.
    cbn [rev app payload_of map concat length flags_of conv_vals]. rewrite bl_nil, (src_adv_nil _ _ (proj1 Hs)), N.add_0_r.
    destruct x as [[[bp c] nx]|]; cbn [xsub]; rewrite ?N.sub_0_r; reflexivity.
  - destruct (comp_ok_cons k ft fR Hc) as (ftR & -> & Hc'). clear Hc.
    destruct (enc_fields_cons_ok m _ _ _ _ He) as (ov & vals' & p & b0 & fes' & -> & -> & Ef & Er & _).
    cbn [flds_ok] in Hok. destruct Hok as [Hf Hok].
    cbn [flags_of] in Hbits, Hab. apply bits_at_app in Hbits. destruct Hbits as [Hb1 Hb2].
    rewrite bl_app, N.add_assoc in Hab. cbn [length] in Hx. apply xge_step in Hx. destruct Hx as [Hx1 Hx].
    destruct (entry_root_r m s' x a b (is_optk k) p) as (ob & Hent & Hob); [|exact Hx1|].
    { intros Ho. rewrite Ho in *. change (bl [p]) with 1 in Hab. split; [|lia].
      apply bits_at_cons in Hb1. exact (proj1 Hb1). }
    cbn [payload_of map concat snd] in Hs. fold (payload_of fes') in Hs.
    apply rsrc_split in Hs. destruct Hs as [Hs1 Hs2].
    cbn [app]. rewrite rfields_cons, conv_vals_cons.
    rewrite (rfield_spec k ft ftR ov p b0 s' _ ob s' _ false Hc' Ef Hf Hent Hob
               ltac:(destruct x as [[[? ?] ?]|]; reflexivity) b0 _ eq_refl Hs1).
    destruct (conv_ov (tr ft ftR) ov) as [o|]; [|reflexivity].
    cbn [oret bind].
    rewrite (IHl vals' fes' _ b (xsub x 1) (src_adv s' (bl b0) (payload_of fes' ++ tl)) tl (o :: acc) rest Hok Er Hb2 Hab Hx Hs2).
    destruct (conv_vals tr rfsW rfsR vals') as [vals''|]; [|reflexivity].
    cbn [option_map rev length payload_of map concat snd flags_of]. fold (payload_of fes'). rewrite <- app_assoc. cbn [app].
    rewrite src_adv_adv, !bl_app, xsub_xsub, N.add_assoc. reflexivity.
Qed.

Lemma all_walk_r : forall afsW afsR, Forall2 comp_ok afsW afsR ->
  forall vals fes ap a b s' tl acc rest,
  flds_ok m true afsW vals -> enc_fields m afsW vals = Ok fes -> add_payloads m afsW fes = Ok ap ->
  bits_at s' a (map fst fes) -> a + bl (map fst fes) <= b ->
  rsrc s' ap tl ->
  rfields m (afsR ++ rest) (mk_r s' (AllBitField a b)) acc =
  match conv_vals tr afsW afsR vals with
  | Some vals' => rfields m rest (mk_r (src_adv s' (bl ap) tl) (AllBitField (a + bl (map fst fes)) b)) (rev vals' ++ acc)
  | None => Err E_INVALID_CHOICE
  end.
Proof.
  induction 1 as [|[k ft] fR afsW afsR Hc F IHl]; intros vals fes ap a b s' tl acc rest Hok He Hap Hbits Hab Hs.
  - cbn in He. injection He as <-. cbn in Hap. injection Hap as <-.
    cbn [rev app map conv_vals]. rewrite bl_nil, (src_adv_nil _ _ (proj1 Hs)), N.add_0_r. reflexivity.
  - destruct (comp_ok_cons k ft fR Hc) as (ftR & -> & Hc'). clear Hc.
    destruct (enc_fields_cons_ok m _ _ _ _ He) as (ov & vals' & p & b0 & fes' & -> & -> & Ef & Er & _).
    cbn [flds_ok] in Hok. destruct Hok as [Hf Hok].
    cbn [add_payloads] in Hap.
    destruct (if p && wraps k ft then wrap_open m b0 else Ok b0) as [y| |] eqn:Ey; cbn [bind] in Hap; try discriminate Hap.
    destruct (add_payloads m afsW fes') as [ap'| |] eqn:Eap; cbn [bind] in Hap; try discriminate Hap. injection Hap as <-.
    cbn [map fst] in Hbits, Hab. rewrite bl_cons, N.add_assoc in Hab. apply bits_at_cons in Hbits. destruct Hbits as [Hb1 Hb2].
    apply rsrc_split in Hs. destruct Hs as [Hs1 Hs2].
    cbn [app]. rewrite rfields_cons, conv_vals_cons.
    rewrite (rfield_spec k ft ftR ov p b0 s' _ (Some p) s' _ true Hc' Ef Hf
               (entry_all_r m s' a b (is_optk k) p ltac:(lia) Hb1) ltac:(reflexivity) eq_refl y _ Ey Hs1).
    destruct (conv_ov (tr ft ftR) ov) as [o|]; [|reflexivity].
    cbn [oret bind].
    rewrite (IHl vals' fes' ap' _ b (src_adv s' (bl y) (ap' ++ tl)) tl (o :: acc) rest Hok Er Eap Hb2 Hab Hs2).
    destruct (conv_vals tr afsW afsR vals') as [vals''|]; [|reflexivity].
    cbn [option_map rev map fst]. rewrite <- app_assoc. cbn [app]. rewrite src_adv_adv, bl_app, bl_cons, N.add_assoc. reflexivity.
Qed.

Lemma conv_vals_absent : forall fsW fsR, Forall2 comp_ok fsW fsR ->
  forall vals fes, enc_fields m fsW vals = Ok fes -> existsb fst fes = false ->
  Forall (fun f => is_optk (fst f) = true) fsR /\
  conv_vals tr fsW fsR vals = Some (map (fun f => absent_val (fst f)) fsR).
Proof.
  induction 1 as [|[k ft] fR fsW fsR Hc F IH]; intros vals fes He Hex.
  - split; [constructor|destruct vals; reflexivity].
  - destruct (comp_ok_cons k ft fR Hc) as (ftR & -> & (_ & _ & _ & Hd)). cbn [fst snd] in Hd.
    destruct (enc_fields_cons_ok m _ _ _ _ He) as (ov & vals' & p & b0 & fes' & -> & -> & Ef & Er & _).
    cbn [existsb fst] in Hex. apply orb_false_iff in Hex. destruct Hex as [-> Hex].
    apply enc_field_inv in Ef. destruct Ef as (Hk & -> & _). destruct (IH vals' fes' Er Hex) as [Fo E].
    split; [constructor; assumption|]. rewrite conv_vals_cons, E. cbn [map fst].
    destruct k; [discriminate Hk|reflexivity|cbn [absent_val conv_ov]; rewrite Hd; reflexivity].
Qed.

Definition seq_res (oa oc : option (list (option val))) (rx : list (fkind * ty)) (r : rst) : res (val * rst) :=
  match oa, oc with
  | Some a, Some c => Ok (VSeq (a ++ c ++ map (fun f => absent_val (fst f)) rx), r)
  | _, _ => Err E_INVALID_CHOICE
  end.

(* writer components [rfsW ++ afsCW ++ wx], reader components [rfsR ++ afsCR ++ rx]: root, additions
   both sides have, additions only one side has; a type without extension marker is the case of no
   addition on either side and none transmitted *)
Lemma seq_conv_core ea pre rfsW rfsR afsCW afsCR wx rx valsR valsC valsX rfe afeC afeX so fcR eb xp s tail :
  pre = match ea with Some _ => [eb] | None => [] end ->
  match ea with Some e => length rfsW = S (N.to_nat e) /\ e + 1 <= fcR | None => eb = false end ->
  so = N.of_nat (nopt rfsW) ->
  N.of_nat (length (afsCW ++ wx)) < SIZE_LIMIT ->
  enc_fields m rfsW valsR = Ok rfe -> enc_fields m afsCW valsC = Ok afeC -> enc_fields m wx valsX = Ok afeX ->
  Forall2 comp_ok rfsW rfsR -> Forall2 comp_ok afsCW afsCR ->
  flds_ok m false rfsW valsR -> flds_ok m true afsCW valsC ->
  flds_ok m true wx valsX ->
  ext_part m (afsCW ++ wx) (afeC ++ afeX) = Ok (eb, xp) ->
  Forall (fun f => is_optk (fst f) = true) rx -> Forall (fun f => is_optk (fst f) = true) wx -> (rx = [] \/ wx = []) ->
  rsrc s (pre ++ flags_of rfsW rfe ++ payload_of rfe ++ xp) tail ->
  read_ty m (TSeq (rfsR ++ afsCR ++ rx) so fcR ea) (r_of_src s) =
  seq_res (conv_vals tr rfsW rfsR valsR) (conv_vals tr afsCW afsCR valsC) rx
    (r_of_src (src_adv s (bl (pre ++ flags_of rfsW rfe ++ payload_of rfe ++ xp)) tail)).
Proof.
  intros Hpre Hea Hso Hlim Er Ec Ex FR FA HokR HokC1 HokX Hext Frx Fwx Hdisj Hs.
  pose proof (enc_fields_length _ _ _ _ Er) as Hlr.
  pose proof (enc_fields_length _ _ _ _ Ec) as Hlc.
  pose proof (enc_fields_length _ _ _ _ Ex) as Hlx.
  rewrite app_length in Hlim.
  assert (Hflags : bl (flags_of rfsW rfe) = so) by (unfold bl; rewrite flags_of_length by exact Hlr; lia).
  pose proof Hs as Hs0.
  rewrite (seq_read_header m _ so fcR ea eb pre (flags_of rfsW rfe) (payload_of rfe ++ xp) s tail Hpre Hflags Hs). cbv zeta.
  pose proof (bits_at_intro s pre _ (payload_of rfe ++ xp) tail Hs) as Hbits.
  rewrite app_assoc in Hs. apply rsrc_split in Hs. destruct Hs as [_ Hs2]. rewrite bl_app, Hflags in Hs2.
  set (a0 := s_pos s + bl pre) in *.
  set (s2 := src_adv s (bl pre + so) ((payload_of rfe ++ xp) ++ tail)) in *.
  apply rsrc_split in Hs2. destruct Hs2 as [Hs3 Hs4].
  set (s3 := src_adv s2 (bl (payload_of rfe)) (xp ++ tail)) in *.
  unfold seq_res.
  destruct eb.
  - destruct ea as [e|]; [destruct Hea as [Hkr Hfc]|discriminate Hea].
    destruct (ext_part_true m _ _ _ Hext) as (b1 & rest & ns & ap & Eafe & Ens & Eap & ->).
    rewrite add_payloads_app in Eap by exact Hlc.
    destruct (add_payloads m afsCW afeC) as [apC| |] eqn:EapC; cbn [bind] in Eap; try discriminate Eap.
    destruct (add_payloads m wx afeX) as [apX| |] eqn:EapX; cbn [bind] in Eap; try discriminate Eap.
    injection Eap as <-.
    set (nW := N.of_nat (length (afeC ++ afeX))) in *.
    assert (H1 : 1 <= nW) by (unfold nW; rewrite Eafe; cbn [length]; lia).
    assert (Hfl : bl (map fst afeC) + bl (map fst afeX) = nW) by (unfold bl, nW, fenc; rewrite !map_length, app_length; lia).
    rewrite usub_ok by lia. cbn [bind].
    set (nxR := fcR - (e + 1)).
    rewrite rpushed_eq.
    change (ExtSeq (s_pos s) (Some (a0, a0 + so)) (e + 1) nxR)
      with (root_scope (Some (s_pos s, e + 1, nxR)) a0 (a0 + so)).
    rewrite (root_walk_r rfsW rfsR FR valsR rfe a0 (a0 + so) (Some (s_pos s, e + 1, nxR)) s2 _ [] _ HokR Er Hbits
               ltac:(lia) ltac:(cbn [xge]; lia) Hs3).
    destruct (conv_vals tr rfsW rfsR valsR) as [va|]; [|reflexivity].
    cbn [xsub root_scope]. rewrite Hkr.
    replace (e + 1 - N.of_nat (S (N.to_nat e))) with 0 by lia.
    rewrite Hflags.
    assert (Hbit0 : r_bit_at s3 (s_pos s) = Ok true).
    { subst pre. pose proof (bit_at_spec s [] true _ tail Hs0) as Q. rewrite bl_nil, N.add_0_r in Q. exact Q. }
    rewrite (walk_skip_enter m s3 _ _ nW nxR ns (map fst (afeC ++ afeX)) (apC ++ apX) tail Hbit0 H1
               ltac:(unfold nW; rewrite app_length; lia) Ens Hs4
               ltac:(rewrite map_app, bl_app; exact Hfl)).
    set (a1 := s_pos s3 + bl ns) in *.
    pose proof (bits_at_intro s3 ns _ (apC ++ apX) tail Hs4) as Hbits2. fold a1 in Hbits2.
    set (s4 := src_adv s3 (bl (ns ++ map fst (afeC ++ afeX))) ((apC ++ apX) ++ tail)) in *.
    assert (Hs5 : rsrc s4 (apC ++ apX) tail).
    { rewrite app_assoc in Hs4. apply rsrc_split in Hs4. exact (proj2 Hs4). }
    apply rsrc_split in Hs5. destruct Hs5 as [Hs5 Hs6].
    rewrite map_app in Hbits2. apply bits_at_app in Hbits2. destruct Hbits2 as [HbC HbX].
    rewrite (all_walk_r afsCW afsCR FA valsC afeC apC a1 (a1 + nW) s4 (apX ++ tail) _ _ HokC1 Ec EapC HbC
               ltac:(lia) Hs5).
    destruct (conv_vals tr afsCW afsCR valsC) as [vc|]; [|reflexivity].
    rewrite <- Hfl, N.add_assoc.
    set (a2 := a1 + bl (map fst afeC)) in *.
    set (s5 := src_adv s4 (bl apC) (apX ++ tail)) in *.
    (* additions only the reader has: beyond the transmitted presence bits *)
    assert (Hrx : forall acc, rfields m rx (mk_r s5 (AllBitField a2 (a2 + bl (map fst afeX)))) acc =
                  Ok (VSeq (frev (rev (map (fun f => absent_val (fst f)) rx) ++ acc)),
                      mk_r s5 (AllBitField a2 (a2 + bl (map fst afeX))))).
    { intros acc. destruct Hdisj as [->| ->]; [reflexivity|].
      apply beyond_walk; [exact Frx|]. injection Ex as <-. cbn [absent_scope map]. rewrite bl_nil. lia. }
    rewrite Hrx. cbn [bind].
    (* additions only the writer has: skipped *)
    assert (Hle : a2 + bl (map fst afeX) <= s_len s5).
    { destruct Hs0 as [(_ & L & _) _]. rewrite map_app, !bl_app in L. unfold fenc in L.
      change (s_len s5) with (s_len s). unfold a2, a1, s3, s2. cbn [s_pos src_adv]. lia. }
    rewrite (skip_all_spec m wx valsX afeX apX a2 s5 tail HokX Fwx Ex EapX HbX Hs6 Hle).
    cbn [bind r_scope mk_r scope_exhausted]. rewrite N.eqb_refl. cbn [negb]. rewrite andb_false_r.
    rewrite frev3.
    unfold r_set_scope, mk_r, r_of_src. cbn [r_src]. do 3 f_equal.
    unfold s5, s4, s3, s2. rewrite !src_adv_adv. f_equal.
    rewrite !bl_app. lia.
  - (* no addition transmitted: every addition the reader has is absent *)
    destruct (ext_part_bit m _ _ _ _ Hext) as [Heb Hxp]. specialize (Hxp eq_refl). subst xp. symmetry in Heb.
    rewrite existsb_app in Heb. apply orb_false_iff in Heb. destruct Heb as [HexC _].
    rewrite rpushed_eq.
    change (OptBitField a0 (a0 + so)) with (root_scope None a0 (a0 + so)).
    rewrite (root_walk_r rfsW rfsR FR valsR rfe a0 (a0 + so) None s2 _ [] _ HokR Er Hbits
               ltac:(lia) I Hs3).
    destruct (conv_vals tr rfsW rfsR valsR) as [va|]; [|reflexivity].
    cbn [xsub root_scope]. rewrite Hflags.
    destruct (conv_vals_absent afsCW afsCR FA valsC afeC Ec HexC) as [FoC ->].
    rewrite (beyond_walk m (afsCR ++ rx) _ (OptBitField (a0 + so) (a0 + so)) _
               (proj2 (Forall_app _ _ _) (conj FoC Frx)) (N.le_refl _)).
    cbn [bind r_scope mk_r scope_exhausted]. rewrite N.eqb_refl. cbn [negb]. rewrite andb_false_r.
    rewrite map_app, rev_app_distr, <- app_assoc, frev3.
    unfold r_set_scope, mk_r, r_of_src. cbn [r_src]. do 3 f_equal.
    unfold s3, s2. rewrite !src_adv_adv. f_equal. rewrite !bl_app, bl_nil. lia.
Qed.

(* the SEQUENCE / SET congruence: writer components [cW ++ wx], reader components [cR ++ rx], the common
   ones related by [comp_ok], one of [wx] / [rx] empty *)
Theorem R_seq_conv cW cR wx rx so fcW fcR ea :
  wf_ty (TSeq (cW ++ wx) so fcW ea) -> wf_ty (TSeq (cR ++ rx) so fcR ea) ->
  Forall2 comp_ok cW cR ->
  Forall (fun f => is_optk (fst f) = true) rx -> Forall (fun f => is_optk (fst f) = true) wx ->
  (rx = [] \/ wx = []) -> (wx ++ rx <> [] -> ea <> None) ->
  Rconv m (TSeq (cW ++ wx) so fcW ea) (TSeq (cR ++ rx) so fcR ea) (conv_seq tr cW cR rx).
Proof.
  intros HtyW HtyR FC Frx Fwx Hdisj Hne v bs He Hv Hk s tail Hs.
  destruct v as [| | | | | | |vals| |]; try contradiction Hv. cbn [conv_seq].
  pose proof (Forall2_length _ _ _ FC) as HlC.
  apply wf_ty_seq in HtyW. destruct HtyW as [(HfcW & HlimW & HeaW & HsoW) _].
  rewrite enc_seq_eq in He. destruct (enc_fields m (cW ++ wx) vals) as [fes| |] eqn:Ef; cbn [bind] in He; try discriminate He.
  change (all_wf_vals (cW ++ wx) vals) in Hv. change (~ any_known_f m ea (cW ++ wx) vals 0) in Hk.
  destruct (flds_ok_intro m ea _ vals 0 Hv Hk) as [Hok0 Hok1].
  destruct ea as [e|]; cbn [root_len] in HsoW.
  - apply wf_ty_seq in HtyR. destruct HtyR as [(HfcR & HlimR & HeaR & HsoR) _].
    assert (Hkr : (S (N.to_nat e) <= length cW)%nat).
    { rewrite HfcW in HeaW. rewrite HfcR in HeaR. destruct Hdisj as [-> | ->]; rewrite app_nil_r in *; lia. }
    (* the component lists, the value and its encoding fall into root, additions both sides have and
       additions only the writer has; then [seq_conv_core] *)
    destruct (split_at_len cW (S (N.to_nat e)) Hkr) as (rfsW & afsCW & -> & Hlrfs).
    apply Forall2_app_inv_l in FC. destruct FC as (rfsR & afsCR & FR & FA & ->).
    pose proof (Forall2_length _ _ _ FR) as HlR. pose proof (Forall2_length _ _ _ FA) as HlA.
    rewrite <- !app_assoc in *.
    rewrite firstn_app_exact in HsoW by (symmetry; exact Hlrfs).
    specialize (Hok1 (length rfsW) ltac:(cbn [is_addition]; lia)).
    rewrite (skipn_app_exact rfsW (afsCW ++ wx) (length rfsW) eq_refl) in Hok1.
    apply flds_ok_app in Hok0. destruct Hok0 as [HokR _].
    apply flds_ok_app in Hok1. destruct Hok1 as [HokC1 HokX].
    rewrite enc_fields_app in Ef.
    destruct (enc_fields m rfsW vals) as [rfe| |] eqn:Er; cbn [bind] in Ef; try discriminate Ef.
    rewrite enc_fields_app in Ef.
    destruct (enc_fields m afsCW (skipn (length rfsW) vals)) as [afeC| |] eqn:Ec; cbn [bind] in Ef; try discriminate Ef.
    destruct (enc_fields m wx (skipn (length afsCW) (skipn (length rfsW) vals))) as [afeX| |] eqn:Ex;
      cbn [bind] in Ef; try discriminate Ef.
    injection Ef as <-.
    pose proof (enc_fields_length _ _ _ _ Er) as Hlr.
    rewrite (seq_assemble_some m _ _ e (S (N.to_nat e)) eq_refl) in He.
    rewrite !firstn_app_exact, !skipn_app_exact in He by congruence.
    destruct (ext_part m (afsCW ++ wx) (afeC ++ afeX)) as [[eb xp]| |] eqn:Ext; cbn [bind] in He; try discriminate He.
    injection He as <-.
    pose proof (seq_conv_core (Some e) [eb] rfsW rfsR afsCW afsCR wx rx _ _ _ rfe afeC afeX so fcR eb xp s tail eq_refl
                  (conj Hlrfs (ltac:(rewrite !app_length in HfcR; lia) : e + 1 <= fcR)) HsoW ltac:(rewrite !app_length in *; lia) Er Ec Ex
                  FR FA HokR HokC1 HokX Ext Frx Fwx Hdisj Hs) as Q.
    rewrite Q. clear Q. unfold seq_res.
    rewrite (conv_vals_app tr rfsW rfsR afsCW afsCR vals HlR).
    destruct (conv_vals tr rfsW rfsR vals) as [va|]; [|reflexivity].
    destruct (conv_vals tr afsCW afsCR (skipn (length rfsW) vals)) as [vc|]; [|reflexivity].
    cbn [option_map oret]. rewrite <- app_assoc. reflexivity.
  - assert (wx = [] /\ rx = []) as [-> ->].
    { destruct wx, rx; try (exfalso; apply Hne; [discriminate|reflexivity]). split; reflexivity. }
    rewrite !app_nil_r in *. rewrite firstn_all in HsoW. injection He as <-.
    pose proof (seq_conv_core None [] cW cR [] [] [] [] vals [] [] fes [] [] so fcR false [] s tail eq_refl eq_refl HsoW
                  eq_refl Ef eq_refl eq_refl FC (Forall2_nil _) Hok0 I I eq_refl (Forall_nil _) (Forall_nil _)
                  (or_introl eq_refl)) as Q.
    cbn [app] in Q. rewrite !app_nil_r in Q. rewrite (Q Hs). unfold seq_res.
    destruct (conv_vals tr cW cR vals) as [l|]; reflexivity.
Qed.

End Walk.

Lemma comp_ok_same m fs : Forall (fun f => wf_ty (snd f) -> Rconv m (snd f) (snd f) Some) fs -> all_wf_fields fs ->
  Forall2 (comp_ok m (fun _ _ y => Some y)) fs fs.
Proof.
  induction 1 as [|[k t] fs HR F IH]; intros Htf; constructor; cbn [all_wf_fields snd] in *.
  - unfold comp_ok. cbn [fst snd]. repeat split; [exact (HR (proj1 Htf))|destruct k; reflexivity || exact I].
  - apply IH. tauto.
Qed.

Lemma R_seq m fs so fc ea : Forall (fun f => wf_ty (snd f) -> Rconv m (snd f) (snd f) Some) fs ->
  wf_ty (TSeq fs so fc ea) -> Rconv m (TSeq fs so fc ea) (TSeq fs so fc ea) Some.
Proof.
  intros F Hty. destruct (proj1 (wf_ty_seq _ _ _ _) Hty) as [_ Htf].
  apply (Rconv_ext m _ _ (conv_seq (fun _ _ y => Some y) fs fs [])).
  - intros v Hv. destruct v as [| | | | | | |vals| |]; try reflexivity. change (all_wf_vals fs vals) in Hv.
    pose proof (all_wf_vals_length fs vals Hv) as Hl. rewrite <- (app_nil_r fs) in Hv. cbn [conv_seq].
    rewrite (conv_vals_same fs [] vals Hv), firstn_all2 by lia. cbn [option_map map]. rewrite app_nil_r. reflexivity.
  - pose proof (R_seq_conv m (fun _ _ y => Some y) fs fs [] [] so fc fc ea) as Q. rewrite !app_nil_r in Q.
    apply Q; auto using comp_ok_same.
Qed.


(** * every type *)
Theorem write_enc3 m t : wf_ty t -> Wprop3 m t.
Proof.
  induction t as [| |k lo hi ext|c lo hi ext|lo hi ext|lo hi ext|e lo hi ext IH|fs so fc ea IH|alts std ext IH|vc std ext]
    using ty_ind'; intros Hty.
  1-6,10: intros v w Hw Hs; rewrite write_flat_eq by (reflexivity || exact Hs); apply wsim3_put.
  - apply W_list. apply IH. cbn [wf_ty] in Hty. tauto.
  - apply wf_ty_seq in Hty. destruct Hty as [Hc Hf]. apply W_seq; [|exact Hc].
    apply all_wf_fields_Forall in Hf. rewrite Forall_forall in *. intros f Hin. apply IH; [exact Hin|apply Hf; exact Hin].
  - apply W_choice. cbn [wf_ty] in Hty. destruct Hty as (_ & _ & _ & _ & Ha). apply all_wf_ty_Forall in Ha.
    rewrite Forall_forall in *. intros a Hin. apply IH; [exact Hin|apply Ha; exact Hin].
Qed.

Theorem write_enc m t : wf_ty t -> Wprop m t.
Proof. intros Hty v w Hw Hs. apply wsim3_wsim, write_enc3; assumption. Qed.

(* the same in an enclosing scope, whose bit-field entry answers [w1] *)
Theorem write_enc_in_scope m t v w w1 : wf_ty t -> wst_wf w -> shape t v = true ->
  write_bit_field_entry m w false true = Ok w1 ->
  sim3 (write_ty m t v w) (enc m t v) (wcontent m (negb (is_choice t)) w1).
Proof.
  intros Hty Hw Hsh E. rewrite (write_ty_factor m t v w Hsh), E. cbn [bind].
  apply wbody_sim; [apply write_enc3, Hty|exact (entry_ok_wf m w _ _ w1 Hw E)].
Qed.

Lemma fields_Wprop3 m fs : all_wf_fields fs -> Forall (fun f => Wprop3 m (snd f)) fs.
Proof. intros H. apply all_wf_fields_Forall in H. eapply Forall_impl; [|exact H]. intros f. apply write_enc3. Qed.

Theorem read_enc m t : wf_ty t -> Rconv m t t Some.
Proof.
  induction t as [| |k lo hi ext|c lo hi ext|lo hi ext|lo hi ext|e lo hi ext IH|fs so fc ea IH|alts std ext IH|vc std ext]
    using ty_ind'.
  1-6,10: apply R_flat; reflexivity.
  - intros Hty. apply R_list_same, IH, Hty.
  - apply R_seq, IH.
  - apply R_choice_same, IH.
Qed.

(* a reader that ends exactly at the end of its message leaves the next value readable *)
Lemma then_read m R v' bs T x bs' s tail :
  (forall tl, rsrc s bs tl -> read_ty m R (r_of_src s) = Ok (v', r_of_src (src_adv s (bl bs) tl))) ->
  wf_ty T -> wf_val T x -> ~ Known_C01 m T x -> enc m T x = Ok bs' -> rsrc s (bs ++ bs') tail ->
  exists r1, read_ty m R (r_of_src s) = Ok (v', r1) /\
             read_ty m T r1 = Ok (x, r_of_src (src_adv s (bl (bs ++ bs')) tail)).
Proof.
  intros HR HtyT HvT HkT HeT Hs. apply rsrc_split in Hs. destruct Hs as [Hs1 Hs2].
  eexists. split; [apply (HR _ Hs1)|].
  rewrite (read_enc m T HtyT x bs' HeT HvT HkT _ _ Hs2), src_adv_adv, bl_app. reflexivity.
Qed.


(** * C01 *)
Theorem roundtrip_reference m t v w w' :
  wf_ty t -> wf_val t v -> ~ Known_C01 m t v -> wst_wf w -> w_scope w = None ->
  write_ty m t v w = Ok w' ->
  exists bs, enc m t v = Ok bs /\ w' = w_append w bs /\
    w_bits w' = w_bits w ++ bs /\ w_scope w' = None /\ wst_wf w' /\
    forall s tail, rsrc s bs tail ->
      read_ty m t (r_of_src s) = Ok (v, r_of_src (src_adv s (bl bs) tail)).
Proof.
  intros Hty Hv Hk Hw Hs H. pose proof (write_enc m t Hty v w Hw Hs) as S. unfold wsim in S.
  destruct (enc m t v) as [bs| |] eqn:E; try (rewrite H in S; discriminate S).
  rewrite S in H. injection H as <-. exists bs. split; [reflexivity|]. split; [reflexivity|].
  split; [apply w_bits_append|]. split; [exact Hs|]. split; [apply w_append_wf; exact Hw|].
  intros s tail Hsrc. apply (read_enc m t Hty v bs E Hv Hk s tail Hsrc).
Qed.

Theorem roundtrip : forall m t v w w',
  wf_ty t -> wf_val t v -> ~ Known_C01 m t v -> wst_wf w -> w_scope w = None ->
  write_ty m t v w = Ok w' ->
  exists bs, w_bits w' = w_bits w ++ bs /\ w_scope w' = None /\ wst_wf w' /\
    forall s tail, rsrc s bs tail ->
      read_ty m t (r_of_src s) = Ok (v, r_of_src (src_adv s (bl bs) tail)).
Proof.
  intros m t v w w' Hty Hv Hk Hw Hs H.
  destruct (roundtrip_reference m t v w w' Hty Hv Hk Hw Hs H) as (bs & _ & _ & A & B & C & D).
  exists bs. auto.
Qed.

Fixpoint write_all (m : mode) (l : list (ty * val)) (w : wst) : res wst :=
  match l with
  | [] => Ok w
  | (t, v) :: r => let! w := write_ty m t v w in write_all m r w
  end.

Fixpoint read_all (m : mode) (ts : list ty) (r : rst) : res (list val * rst) :=
  match ts with
  | [] => Ok ([], r)
  | t :: ts' => let! (v, r) := read_ty m t r in let! (vs, r) := read_all m ts' r in Ok (v :: vs, r)
  end.

Definition item_ok (m : mode) (p : ty * val) : Prop :=
  wf_ty (fst p) /\ wf_val (fst p) (snd p) /\ ~ Known_C01 m (fst p) (snd p).

Lemma sequence_gen m : forall l w w', Forall (item_ok m) l -> wst_wf w -> w_scope w = None ->
  write_all m l w = Ok w' ->
  exists bs, w' = w_append w bs /\ rreads (read_all m (map fst l)) bs (Some (map snd l)).
Proof.
  induction l as [|[t v] l IH]; intros w w' F Hw Hs H.
  - cbn in H. injection H as <-. exists []. split; [symmetry; apply w_append_nil|apply rreads_ret].
  - apply Forall_cons_iff in F. destruct F as [(Hty & Hv & Hk) F]. cbn [fst snd] in *.
    cbn [write_all] in H. destruct (write_ty m t v w) as [w1| |] eqn:E1; cbn [bind] in H; try discriminate H.
    destruct (roundtrip_reference m t v w w1 Hty Hv Hk Hw Hs E1) as (b1 & _ & -> & _ & Hs1 & Hw1 & Hr1).
    destruct (IH _ w' F Hw1 Hs1 H) as (b2 & -> & Hr2).
    exists (b1 ++ b2). split; [apply w_append_app|].
    apply (rreads_bind _ _ b1 b2 (Some v)); [exact Hr1|]. apply (rreads_map _ (cons v) b2 (Some (map snd l))), Hr2.
Qed.

Theorem sequence_from_empty m l w' :
  Forall (item_ok m) l -> write_all m l w_empty = Ok w' -> bl (w_bits w') < two64 ->
  exists r, read_all m (map fst l) (r_of_src (src_of_bits (w_bits w') (bl (w_bits w')))) = Ok (map snd l, r)
            /\ src_remaining m (r_src r) = Ok 0.
Proof.
  intros F H Hlen. destruct (sequence_gen m l w_empty w' F w_empty_wf eq_refl H) as (bs & -> & Hr).
  rewrite w_bits_empty_append in *.
  eexists. split; [apply (Hr _ _ (rsrc_whole bs Hlen))|].
  unfold src_remaining, src_adv, src_of_bits. cbn [r_src r_of_src s_len s_pos]. rewrite usub_ok by lia.
  f_equal. lia.
Qed.


(** * C03 *)
Theorem seq_write_sim m fs so fc ea vals w :
  wf_ty (TSeq fs so fc ea) -> wst_wf w -> w_scope w = None ->
  sim3 (write_ty m (TSeq fs so fc ea) (VSeq vals) w) (enc_fields m fs vals)
       (fun fes => w_put w (seq_assemble m fs fes ea)).
Proof.
  intros Hty Hw Hs. apply wf_ty_seq in Hty. destruct Hty as [Hc Hf].
  exact (seq_sim m fs so fc ea vals w (fields_Wprop3 m fs Hf) Hc Hw Hs).
Qed.

Theorem seq_write_reference m fs so fc ea vals fes w :
  wf_ty (TSeq fs so fc ea) -> wst_wf w -> w_scope w = None ->
  enc_fields m fs vals = Ok fes ->
  write_ty m (TSeq fs so fc ea) (VSeq vals) w = w_put w (seq_assemble m fs fes ea).
Proof.
  intros Hty Hw Hs Ef. pose proof (seq_write_sim m fs so fc ea vals w Hty Hw Hs) as S. rewrite Ef in S. exact S.
Qed.

Theorem seq_preamble m fs so fc ea vals w w' :
  wf_ty (TSeq fs so fc ea) -> wst_wf w -> w_scope w = None ->
  write_ty m (TSeq fs so fc ea) (VSeq vals) w = Ok w' ->
  exists fes bs, enc_fields m fs vals = Ok fes /\ map fst fes = presences fs vals /\
    seq_assemble m fs fes ea = Ok bs /\ w_bits w' = w_bits w ++ bs /\
    N.of_nat (length (flags_of (firstn (root_len fs ea) fs) (firstn (root_len fs ea) fes))) = so.
Proof.
  intros Hty Hw Hs H. pose proof (seq_write_sim m fs so fc ea vals w Hty Hw Hs) as S. rewrite H in S.
  unfold sim3 in S.
  destruct (enc_fields m fs vals) as [fes| |] eqn:Ef; [cbv beta in S|destruct S as [e' S]; discriminate S|discriminate S].
  destruct (seq_assemble m fs fes ea) as [bs| |] eqn:Ea; cbn [w_put bind] in S; try discriminate S. injection S as ->.
  exists fes, bs.
  split; [reflexivity|]. split; [apply (enc_fields_presence m fs vals fes Ef)|]. split; [exact Ea|].
  split; [apply w_bits_append|].
  apply wf_ty_seq in Hty. destruct Hty as [(Hfc & _ & Hea & Hso) _].
  pose proof (enc_fields_length m fs vals fes Ef) as Hl.
  rewrite flags_of_length; [symmetry; exact Hso|].
  rewrite !firstn_length. lia.
Qed.


(** * the witnesses and examples that Props/ evaluates *)
Definition rt_fails (m : mode) (t : ty) (v : val) : bool :=
  match write_ty m t v w_empty with
  | Ok w' =>
      let bs := w_bits w' in
      match read_ty m t (r_of_src (src_of_bits bs (bl bs))) with
      | Ok (v', r) => negb (val_eqb v v' && (s_pos (r_src r) =? bl bs))
      | _ => true
      end
  | _ => false
  end.

Lemma rt_fails_ok m t v : rt_fails m t v = true -> is_ok (write_ty m t v w_empty) = true.
Proof. unfold rt_fails. destruct (write_ty m t v w_empty); [reflexivity|discriminate..]. Qed.

(* an extension addition whose open type holds 16K octets: the writer fragments, the reader does not *)
Definition big_ext_ty : ty := TSeq [(FReq, TBool); (FOpt, TOctets None None false)] 0 2 (Some 0).

Definition big_ext_val : val := VSeq [Some (VBool true); Some (VOctets (repeat 7 16384))].

(* the same for any component type *)
Definition open16k_ty (ft : ty) : ty := TSeq [(FReq, TBool); (FOpt, ft)] 0 2 (Some 0).

(* the reader on SEQUENCE { a BOOLEAN, ..., b ft OPTIONAL } with 16K octets or more in the open type of [b]:
   if it succeeds at all it stands where [opened_short] says, which is not the end; this is what [rt_fails]
   and, in Uper/ConformanceProofs.v, [reader_misses_x691] ask *)
Lemma open16k_misread m ft c cb v : 16384 <= (bl cb + 7) / 8 -> bl cb < two63 ->
  let bs := true :: c :: x_normally_small 0 ++ true ::
            x_unconstrained_length_run 8 ((bl cb + 7) / 8) (cb ++ repeat false (pad8 (length cb))) in
  match read_ty m (open16k_ty ft) (r_of_src (src_of_bits bs (bl bs))) with
  | Ok (v', r) => negb (val_eqb v v' && (s_pos (r_src r) =? bl bs))
  | _ => true
  end = true.
Proof.
  intros Hn Hl. pose proof (padded_len cb) as Hb. pose proof (ceil8_bounds (bl cb)) as Hc8.
  set (n := (bl cb + 7) / 8) in *. set (body := cb ++ _) in *.
  pose proof (x_run_len_le 8 n body) as Hle. set (run := x_unconstrained_length_run 8 n body) in *.
  set (ns := x_normally_small 0). intros bs.
  assert (Hbs : bl bs = 10 + bl run) by (unfold bs; rewrite !bl_cons, bl_app, bl_cons; change (bl ns) with 7; lia).
  assert (Hs : rsrc (src_of_bits bs (bl bs)) bs []) by (apply rsrc_whole; unfold two63, two64 in *; lia).
  set (s := src_of_bits bs (bl bs)) in *. unfold open16k_ty.
  rewrite (seq_read_header m _ 0 2 (Some 0) true [true] [] (c :: ns ++ true :: run) s [] eq_refl eq_refl Hs). cbv zeta.
  rewrite usub_ok by lia. cbn [bind]. rewrite rpushed_eq. cbn [rfields].
  change bs with ([true] ++ [c] ++ ns ++ [true] ++ run) in Hs.
  pose proof (bit_at_spec s [] true _ [] Hs) as Hbit. rewrite bl_nil, N.add_0_r in Hbit.
  apply rsrc_split in Hs. destruct Hs as [_ Hs]. apply rsrc_split in Hs. destruct Hs as [Hc Hs].
  (* the root component *)
  rewrite (read_ty_factor m TBool _ None (mk_r _ (ExtSeq (s_pos s) (Some (s_pos s + 1, s_pos s + 1 + 0)) 0 1))) by reflexivity.
  rewrite (stashed_restore _ [c] (Some (VBool c)) _ _ _ (read_enc m TBool I (VBool c) [c] eq_refl I (fun C => C)) Hc).
  cbn [oret bind]. set (s2 := src_adv (src_adv s _ _) _ _) in *.
  (* the addition: the count of additions, their presence bits, then the open type *)
  unfold read_bit_field_entry.
  rewrite (entry_enter m s2 _ _ 1 1 ns [true] run [] Hbit ltac:(lia) ltac:(reflexivity)
             (normally_small_write m 0 eq_refl) Hs eq_refl true).
  set (s3 := src_adv s2 _ _). unfold read_bit_field_entry_st. cbn [r_scope mk_r].
  rewrite (entry_all_r m s3 _ _ true true); [|lia|exact (bit_at_spec s2 ns true run [] Hs)].
  cbn [bind]. rewrite stashed_read. unfold rscope_stashed.
  rewrite app_assoc in Hs. apply rsrc_split in Hs. destruct Hs as [_ Hs].
  pose proof (opened_short m n body (read_ty m ft) (r_of_src s3) [] Hn Hb Hs) as Q.
  change (framed m _ _ _) with (opened m (read_ty m ft) (r_of_src s3)).
  destruct (opened m _ _) as [[y r4]| |]; cbn [bind]; try reflexivity.
  (* no addition is left to skip, and the scope is exhausted *)
  unfold skip_unknown_extension_additions. cbn [r_scope r_set_scope mk_r]. rewrite skip_loop_done by lia.
  cbn [bind r_scope r_set_scope]. destruct (debug_asserts m && _); [reflexivity|].
  cbn [r_src r_set_scope]. change (s_pos (r_src (r_of_src s3))) with (0 + 1 + 1 + 8) in Q. fold run in Q.
  destruct (N.eqb_spec (s_pos (r_src r4)) (bl bs)); [lia|]. rewrite andb_false_r. reflexivity.
Qed.

Lemma open16k_enc m ft c x cb : enc m ft x = Ok cb -> bl cb < two63 ->
  enc m (open16k_ty ft) (VSeq [Some (VBool c); Some x]) =
  Ok (true :: c :: x_normally_small 0 ++ true ::
      x_unconstrained_length_run 8 ((bl cb + 7) / 8) (cb ++ repeat false (pad8 (length cb)))).
Proof.
  intros He Hl. unfold open16k_ty. rewrite enc_seq_eq, !enc_fields_cons. cbn [enc_field enc]. rewrite He.
  cbn [bind enc_fields seq_assemble N.to_nat firstn skipn ext_part add_payloads wraps andb length].
  rewrite (wrap_open_x m cb Hl). change (N.of_nat 1 - 1) with 0. rewrite normally_small_write by reflexivity.
  cbn [bind]. rewrite app_nil_r. reflexivity.
Qed.

(* written (fragmented, as X.691 says) and not read back *)
Lemma open16k_rt_fails m ft c x cb : wf_ty ft -> enc m ft x = Ok cb ->
  16384 <= (bl cb + 7) / 8 -> bl cb < two63 ->
  rt_fails m (open16k_ty ft) (VSeq [Some (VBool c); Some x]) = true.
Proof.
  intros Hty He Hn Hl. unfold rt_fails.
  pose proof (write_enc m (open16k_ty ft)) as W. unfold Wprop, wsim in W.
  specialize (W ltac:(cbn; unfold SIZE_LIMIT; repeat split; (lia || discriminate || exact Hty))
                (VSeq [Some (VBool c); Some x]) w_empty w_empty_wf eq_refl).
  rewrite (open16k_enc m ft c x cb He Hl) in W. rewrite W, w_bits_empty_append.
  exact (open16k_misread m ft c cb _ Hn Hl).
Qed.

Lemma big_ext_content m : exists cb,
  enc m (TOctets None None false) (VOctets (repeat 7 16384)) = Ok cb /\
  x_octetstring None None false (repeat 7 16384) = Some cb /\ bl cb = 131088.
Proof.
  assert (Hn : blen (repeat 7 16384) = 16384) by (unfold blen; rewrite repeat_length; reflexivity).
  eexists. cbn [enc]. rewrite octetstring_write; [|rewrite Hn; reflexivity|intros [C _]; apply C; reflexivity].
  unfold x_octetstring, x_sized_run. fold (blen (repeat 7 16384)). rewrite Hn. change (0 <=? 16384) with true.
  cbn [andb app]. rewrite x_run_16k by (rewrite bits_len8, Hn; reflexivity). split; [reflexivity|]. split; [reflexivity|].
  rewrite !bl_app, bits_len8, Hn. reflexivity.
Qed.

Definition ex_inner : ty :=
  TSeq [(FReq, TInt U8 (Some 0%Z) (Some 255%Z) false); (FOpt, TBool)] 1 2 None.

Definition ex_ty : ty :=
  TSeq [ (FReq, TInt I16 (Some (-5)%Z) (Some 1000%Z) true);
         (FOpt, TBool);
         (FDef (VInt 7), TInt U8 (Some 0%Z) (Some 255%Z) false);
         (FReq, TChoice [TBool; TNull; TEnum 3 2 true] 2 true);
         (FReq, TListOf (TInt U8 (Some 0%Z) (Some 255%Z) false) (Some 1) (Some 4) false);
         (* extension additions *)
         (FOpt, ex_inner);
         (FDef (VBool false), TBool);
         (FOpt, TEnum 4 4 false) ]
       2 8 (Some 4).

Definition ex_val : val :=
  VSeq [ Some (VInt 2000); None; Some (VInt 7); Some (VChoice 2 (VEnum 2));
         Some (VList [VInt 1; VInt 2; VInt 3]);
         Some (VSeq [Some (VInt 9); Some (VBool true)]); Some (VBool true); None ].

(* the preamble of a SEQUENCE { a, b OPTIONAL, c DEFAULT 7, ..., d OPTIONAL, e OPTIONAL }:
   in [ex3_val] b is absent, c equal to its default, the first addition present, the second absent; in
   [ex3_bad] the first addition is absent and the second present *)
Definition ex3_ty : ty :=
  TSeq [ (FReq, TBool); (FOpt, TBool); (FDef (VInt 7), TInt U8 (Some 0%Z) (Some 255%Z) false);
         (FOpt, TBool); (FOpt, TBool) ] 2 5 (Some 2).

Definition ex3_val : val := VSeq [Some (VBool true); None; Some (VInt 7); Some (VBool true); None].

Definition ex3_bad : val := VSeq [Some (VBool true); None; Some (VInt 7); None; Some (VBool true)].
