(* Front/EmitProofs.v -- emitted names do not collide beyond the mangling, integer constants fit their declared type
   (Props/C09.v), on top of Front/CodegenProofs.v and Front/Descr.v *)
From A1 Require Import Gen.Keywords Front.IntTy Front.Codegen Front.CodegenProofs Front.Descr.
Local Open Scope N_scope.

(* the last character of a mangled component name is no underscore *)
Lemma module_go_last pad : forall s o pl pa,
  s <> [] -> is_sep (last s 0) = false ->
  exists t x, module_go pad s o pl pa = t ++ [x] /\ x <> USCORE.
Proof.
  induction s as [|c rest IH]; intros o pl pa Hne Hlast; [contradiction|].
  destruct rest as [|c' rest'].
  - cbn [last] in Hlast. cbn [module_go].
    destruct (is_upper c) eqn:Eu.
    + cbn [module_go rev]. eexists; eexists; split; [reflexivity|]. revert Eu. unf. intros H. rewrite H. lia.
    + rewrite Hlast. cbn [module_go rev]. eexists; eexists; split; [reflexivity|]. revert Hlast. unf. lia.
  - assert (Hl : is_sep (last (c' :: rest') 0) = false) by exact Hlast.
    assert (Hn : c' :: rest' <> []) by discriminate.
    cbn [module_go]. destruct (is_upper c); [|destruct (is_sep c)]; apply IH; assumption.
Qed.

(* an ASN.1 name ends in a letter or a digit: no underscore anywhere, no hyphen at the end *)
Lemma last_not_sep : forall s, s <> [] -> forallb asn_char s = true -> hyphens_ok s = true -> is_sep (last s 0) = false.
Proof.
  induction s as [|c rest IH]; intros Hne Ha Hh; [contradiction|].
  cbn [forallb hyphens_ok] in Ha, Hh. apply andb_true_iff in Ha, Hh. destruct Ha as [Hc Ha], Hh as [Hc' Hh].
  destruct rest as [|c' rest'].
  - cbn [last]. destruct (c =? HYPHEN) eqn:E; [discriminate|]. revert Hc E. unf. lia.
  - exact (IH ltac:(discriminate) Ha Hh).
Qed.

Lemma identifier_last_not_sep s : asn_identifier s = true -> s <> [] /\ is_sep (last s 0) = false.
Proof.
  intros H. destruct (asn_identifier_inv s H) as (c & rest & -> & Hc & Hrest & Hh).
  split; [discriminate|]. apply last_not_sep; [discriminate | | exact Hh].
  cbn [forallb]. rewrite Hrest, andb_true_r. revert Hc. unf. lia.
Qed.

Lemma field_name_no_trailing_uscore s :
  asn_identifier s = true -> exists t x, rust_field_name s = t ++ [x] /\ x <> USCORE.
Proof.
  intros H. destruct (identifier_last_not_sep s H) as [Hne Hl].
  unfold rust_field_name, rust_module_name. apply module_go_last; assumption.
Qed.

(* the keyword escape is injective on mangled names *)
Lemma emit_field_inj a b :
  asn_identifier a = true -> asn_identifier b = true -> emit_field a = emit_field b -> rust_field_name a = rust_field_name b.
Proof.
  intros Ha Hb E. rewrite (emit_field_eq a Ha), (emit_field_eq b Hb) in E.
  destruct (field_name_no_trailing_uscore a Ha) as [ta [xa [Ea Hxa]]].
  destruct (field_name_no_trailing_uscore b Hb) as [tb [xb [Eb Hxb]]].
  destruct (mem_str (rust_field_name a) KEYWORDS), (mem_str (rust_field_name b) KEYWORDS).
  - apply app_inj_tail in E. destruct E as [E _]. exact E.
  - exfalso. rewrite Eb in E. apply app_inj_tail in E. destruct E as [_ E]. apply Hxb. symmetry. exact E.
  - exfalso. rewrite Ea in E. apply app_inj_tail in E. destruct E as [_ E]. apply Hxa. exact E.
  - exact E.
Qed.

Lemma NoDup_map_compose {A B C : Type} (f : A -> B) (g : A -> C) : forall l,
  (forall x y, In x l -> In y l -> g x = g y -> f x = f y) -> NoDup (map f l) -> NoDup (map g l).
Proof.
  induction l as [|a l IH]; intros Hinj Hd; [constructor|]. cbn [map] in *. inversion Hd as [|? ? Hnotin Hd']; subst.
  constructor.
  - intros Hin. apply in_map_iff in Hin. destruct Hin as [y [Ey Hy]]. apply Hnotin.
    rewrite <- (Hinj y a (or_intror Hy) (or_introl eq_refl) Ey). apply in_map. exact Hy.
  - apply IH; [|exact Hd']. intros x y Hx Hy. apply Hinj; right; assumption.
Qed.

Definition distinct_after_mangling (mangle : list N -> list N) (names : list (list N)) : Prop := NoDup (map mangle names).

Lemma no_collision_fields names :
  Forall (fun s => asn_identifier s = true) names ->
  distinct_after_mangling rust_field_name names -> NoDup (map emit_field names).
Proof.
  intros Hall Hd. apply (NoDup_map_compose rust_field_name emit_field names); [|exact Hd].
  rewrite Forall_forall in Hall. intros x y Hx Hy. apply emit_field_inj; apply Hall; assumption.
Qed.

Lemma no_collision_variants names :
  Forall (fun s => asn_identifier s = true \/ asn_typereference s = true) names ->
  distinct_after_mangling rust_variant_name names -> NoDup (map emit_variant names).
Proof.
  intros Hall Hd. apply (NoDup_map_compose rust_variant_name emit_variant names); [|exact Hd].
  rewrite Forall_forall in Hall. intros x y Hx Hy E.
  rewrite <- !emit_variant_is_mangled; [exact E | apply Hall; exact Hy | apply Hall; exact Hx].
Qed.

(* integer constants: fmt_const *)
Local Open Scope Z_scope.

(* RustType::to_const_lit_string, as far as integer constants are concerned *)
Inductive const_ty := CTInt (k : ikind) | CTOption (t : const_ty) | CTOther.
Fixpoint const_lit_type (t : rty) : const_ty :=
  match t with
  | RInt k _ _ _ => CTInt k
  | ROption t' => CTOption (const_lit_type t')
  | RDefault t' _ => const_lit_type t'
  | _ => CTOther
  end.

(* impl_consts (generate/rust.rs): an associated constant is declared with
   `r#type.as_no_option().to_const_lit_string()` -- Option wrappers (extension additions) are stripped, Default is looked
   through by to_const_lit_string itself.  (Value references go through fmt_const with their own type, no Option there.) *)
Definition assoc_const_type (t : rty) : const_ty := const_lit_type (as_no_option t).

Lemma assoc_const_type_option t : assoc_const_type (ROption t) = assoc_const_type t.
Proof. reflexivity. Qed.

(* the shape of the integer types to_rust chooses (Front/IntTy.v): the bounds are values of the kind; only u64 lacks
   bounds.  A hypothesis of consts_typed: no lemma here derives it from src_int_type *)
Definition int_wf (k : ikind) (mn mx : option Z) : Prop :=
  (forall a, mn = Some a -> kmin k <= a) /\ (forall b, mx = Some b -> b <= kmax k) /\ ((mn = None \/ mx = None) -> k = U64).

(* F09-9 / F09-10 *)
Definition Known_C09_const_negative_on_unsigned (k : ikind) (z : Z) : Prop := signed k = false /\ z < 0.
Definition Known_C09_const_out_of_constraint (mn mx : option Z) (z : Z) : Prop :=
  (exists a, mn = Some a /\ z < a) \/ (exists b, mx = Some b /\ b < z).

Lemma consts_typed k mn mx z :
  int_wf k mn mx -> i64_min <= z <= i64_max ->
  ~ Known_C09_const_negative_on_unsigned k z -> ~ Known_C09_const_out_of_constraint mn mx z ->
  fits k z.
Proof.
  unfold Known_C09_const_negative_on_unsigned, Known_C09_const_out_of_constraint, fits.
  intros [Hmn [Hmx Hu]] Hz Hneg Hout. split.
  - destruct mn as [a|].
    + specialize (Hmn a eq_refl). assert (~ z < a) by (intros H; apply Hout; eauto). lia.
    + rewrite (Hu (or_introl eq_refl)) in *. cbn [kmin]. destruct (Z.ltb_spec z 0); [exfalso; auto | assumption].
  - destruct mx as [b|].
    + specialize (Hmx b eq_refl). assert (~ b < z) by (intros H; apply Hout; eauto). lia.
    + rewrite (Hu (or_intror eq_refl)). cbn [kmax]. unfold i64_max in Hz. lia.
Qed.
