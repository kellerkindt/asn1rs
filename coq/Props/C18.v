(* C18 -- the bytes of the protobuf writer decode under the generated .proto.
   This file states the theorems; each is proved by a lemma of Proto/SchemaProofs.v (numbering) or
   Proto/DecodeProofs.v (decoding), or derived from one in a few lines.
   Finding classes: inside the type universe [Known_C18] = [Known_C17], i.e. [Known_ty] (CHOICE with a NULL
   alternative F18-2, CHOICE with a SEQUENCE OF alternative F18-4, SEQUENCE OF SEQUENCE OF F18-3, and SEQUENCE OF NULL
   F18-5 = constructor [K_list_null], witness [C18_refuted_list_of_null]) or a BitVec with excess bytes; at the
   declaration level the SET numbering class F18-1 ([Known_set_order]).
   Not a class: an extensible INTEGER is declared uint64 / sint64 and written in that format;
   [C18_extensible_int_fixed] is the regression witness of the defect that wrote it in the 32-bit format of its root
   bounds. *)
From A1 Require Import Proto.Wire Proto.Rw Proto.Schema Proto.Proofs Proto.SchemaProofs Proto.RwLemmas
  Proto.RoundtripProofs Proto.DecodeProofs.
Local Open Scope N_scope.

(** field / oneof numbering of the emitted schema: position j (from 0) carries number j+1 and the
    type mapped from the j-th component *)
Theorem C18_numbers_match :
  (forall fs m, schema_of (TSeq fs) = Some m ->
     length m = length fs /\
     forall j num ty, nth_error m j = Some (num, ty) ->
       num = N.of_nat j + 1 /\ exists o t, nth_error fs j = Some (o, t) /\ ty = field_type t) /\
  (forall alts m, schema_of (TChoice alts) = Some m ->
     exists al, m = [(1, POneofT al)] /\ length al = length alts /\
     forall j num ty, nth_error al j = Some (num, ty) ->
       num = N.of_nat j + 1 /\ exists t, nth_error alts j = Some t /\ ty = field_type t).
Proof.
  split; [intros fs m|intros alts m]; unfold schema_of; cbn [field_type]; intros H; injection H as <-.
  - destruct (number_from_map (fun '(_, t) => field_type t) fs 1) as [L Nn]. split; [exact L|].
    intros j num ty Hn. destruct (Nn j num ty Hn) as [-> ([o t] & H2 & ->)]. split; [lia|eauto].
  - eexists. split; [reflexivity|]. destruct (number_from_map field_type alts 1) as [L Nn]. split; [exact L|].
    intros j num ty Hn. destruct (Nn j num ty Hn) as [-> (t & H2 & ->)]. split; [lia|eauto].
Qed.

(** the writer's bytes decode, under the schema and with the reference decoder, to the field values:
    for the values of a flat SEQUENCE with an OPTIONAL within the bounds stated, both profiles
    (the type lies in the fragment of [C18_decodes_under_schema] below; stated here without its length guard) *)
Theorem C18_decodes_under_schema_partial : forall m b x oy,
  (m = dev_mode \/ m = release_mode) ->
  x < 256 -> (forall y, oy = Some y -> (-32 <= y < 32)%Z) ->
  let v := VSeq [VBool b; VInt (Z.of_N x); VOpt (option_map VInt oy)] in
  exists bs, pwrite_vec m flat_ty v = Ok bs /\
             pb_decode flat_schema bs = Some (flat_expected b x oy) /\
             pb_of_val flat_ty v = Some (flat_expected b x oy).
Proof. intros m b x oy _. apply decodes_flat. Qed.

(** unbounded: for every generated message type (top-level SEQUENCE / SET in visit order / tuple struct / CHOICE, any
    nesting of messages, lists of scalars / enums / messages / CHOICEs, oneofs) outside the finding classes and every
    value, the writer's bytes decode under [schema_of t] with the reference decoder to exactly the field values
    [pb_of_val t v]: field numbers, wire types, oneof numbering, enum numbering and nesting all match.
    [Known_C18 t v] = [Known_C17 t v]: a CHOICE with a NULL or SEQUENCE OF alternative, SEQUENCE OF SEQUENCE OF,
    SEQUENCE OF NULL, or a BitVec with excess bytes; the SET numbering class lives at the declaration level ([decl],
    C18_refuted_set_order) and is outside [pty]. A top-level ENUMERATED has no message schema ([schema_of] = None). *)
Theorem C18_decodes_under_schema : forall m t v msg,
  wf_pty t -> wf_pval t v -> ~ Known_C18 t v -> schema_of t = Some msg ->
  exists bs, pwrite m t v = Ok bs /\
    (nlen bs < two64 -> exists vals, pb_decode msg bs = Some vals /\ pb_of_val t v = Some vals).
Proof.
  intros m t v msg Ht Hl Hk Hsch. destruct (fragment_of_props t v Ht Hl Hk) as (Htop & Hg & Hwf).
  exact (decodes_good m t v msg Htop Hg Hwf Hsch).
Qed.

(** the emitted schema is valid proto3 for the listed representative types *)
Theorem C18_schema_valid_partial : forall t, In t good_types -> schema_valid t = true.
Proof.
  assert (H : forallb schema_valid good_types = true) by (vm_compute; reflexivity).
  intros t Ht. rewrite forallb_forall in H. apply H, Ht.
Qed.

(** ** classes in which the faithful model refutes the property, and regression witnesses of repaired defects ([*_fixed]) *)
(* a NULL component is declared `bytes x = n`; nothing is written for it and write_null advances the counter, so the
   later components keep their declared numbers (regression witness of the defect in which they shifted) *)
Definition t_nullseq := TSeq [(false, TInt KU8); (false, TNull); (false, TInt KU8)].
Example C18_null_field_fixed :
  let v := VSeq [VInt 1; VNull; VInt 2] in
  exists m, schema_of t_nullseq = Some m /\
    pwrite_vec dev_mode t_nullseq v = Ok [8; 1; 24; 2] /\
    pb_decode m [8; 1; 24; 2] = Some [BNum 1; BBytes []; BNum 2] /\
    pb_of_val t_nullseq v = Some [BNum 1; BBytes []; BNum 2].
Proof.
  exists [(1, PScalar SUInt32); (2, PScalar SBytes); (3, PScalar SUInt32)].
  vm_compute. repeat split; reflexivity.
Qed.

(* a SET with explicit tags is written in canonical tag order but declared in textual order *)
Definition Known_set_order (d : decl) : Prop :=
  exists fs, d = DSetTop fs /\ sort_by_tag fs <> fs.
Theorem C18_refuted_set_order :
  Known_set_order zoo_set /\
  let v := VSeq [VInt 7; VStr [120]] in
  pwrite_vec dev_mode (visit_ty zoo_set) v = Ok [8; 7; 18; 1; 120] /\
  pb_decode (schema_of_decl zoo_set) [8; 7; 18; 1; 120] = Some [BBytes []; BNum 0] /\
  (* what the declared message { string b = 1; uint32 a = 2; } should show *)
  pb_of_val (decl_ty zoo_set) (VSeq [VStr [120]; VInt 7]) = Some [BBytes [120]; BNum 7].
Proof.
  split; [eexists; split; [reflexivity|vm_compute; discriminate]|].
  vm_compute. repeat split; reflexivity.
Qed.

(* SEQUENCE OF SEQUENCE OF is emitted as `repeated repeated T`, a SEQUENCE OF alternative as a repeated
   oneof member: not proto3 *)
Theorem C18_refuted_nested_list_proto :
  schema_valid (TSeq [(false, TSeqOf (TSeqOf (TInt KU8))); (false, TInt KU8)]) = false.
Proof. vm_compute. reflexivity. Qed.

Theorem C18_refuted_choice_list_proto :
  schema_valid (TChoice [TSeqOf (TInt KU8); TInt KU8]) = false.
Proof. vm_compute. reflexivity. Qed.

(* a selected NULL alternative writes nothing: the oneof is unset for every reader *)
Theorem C18_refuted_choice_null :
  let t := TChoice [TNull; TInt KU8] in
  exists m, schema_of t = Some m /\
    pwrite_vec dev_mode t (VChoice 0 VNull) = Ok [] /\
    pb_decode m [] = Some [BOneof None] /\
    pb_of_val t (VChoice 0 VNull) = Some [BOneof (Some (1, BBytes []))].
Proof.
  exists [(1, POneofT [(1, PScalar SBytes); (2, PScalar SUInt32)])].
  vm_compute. repeat split; reflexivity.
Qed.

(* non-vacuity *)
Example C18_nonvacuous :
  schema_of flat_ty = Some [(1, PScalar SBool); (2, PScalar SUInt32); (3, PScalar SSInt32)] /\
  In (TSeq [(false, TBits)]) good_types /\
  pb_decode flat_schema [8; 1; 16; 200; 1; 24; 5] = Some [BNum 1; BNum 200; BNum (-3)] /\
  (* unknown fields are skipped, last one wins, packed repeated accepted *)
  pb_decode [(1, PScalar SUInt32); (2, PRepeated (PScalar SSInt32))] [8; 1; 8; 2; 18; 2; 1; 4; 16; 3; 56; 9]
  = Some [BNum 2; BRep [BNum (-1); BNum 2; BNum (-2)]].
Proof. vm_compute. repeat split; try reflexivity. do 13 right. left. reflexivity. Qed.

(* F18-5 (zoo type 21, corpus/C18/f18-5-list-of-null.txt): SEQUENCE OF NULL is declared `repeated bytes` but no
   element is ever written *)
Theorem C18_refuted_list_of_null :
  let t := TSeq [(false, TSeqOf TNull); (false, TInt KU8)] in
  let v := VSeq [VList [VNull; VNull]; VInt 7] in
  exists m, schema_of t = Some m /\ pwrite_vec dev_mode t v = Ok [16; 7] /\
    pb_decode m [16; 7] = Some [BRep []; BNum 7] /\
    pb_of_val t v = Some [BRep [BBytes []; BBytes []]; BNum 7].
Proof.
  exists [(1, PRepeated (PScalar SBytes)); (2, PScalar SUInt32)]. vm_compute. repeat split; reflexivity.
Qed.

(* an extensible INTEGER is declared uint64 (u64) / sint64 (i64) and written in exactly that format, so for every KExt
   kind the compiler produces ([wf_kind]: u64 iff MIN is not negative) and every value of its 64-bit type the varint
   decodes under the declared type to the value.  Regression witness of the defect that wrote it by
   write_tagged_sint32 / uint32: 2^30 in INTEGER (-2147483648..2147483647,...) decoded to 9223372035781033984. *)
Theorem C18_extensible_int_fixed :
  (forall sg mn mx z, wf_kind (KExt sg mn mx) = true -> in_kind (KExt sg mn mx) z = true ->
     exists x, x < two64 /\ number_bytes (KExt sg mn mx) z = write_varint x /\
               num_value (scalar_of_kind (KExt sg mn mx)) x = z) /\
  let t := TSeq [(false, TInt (KExt true (Some (-2147483648)%Z) (Some 2147483647%Z)));
                 (false, TInt (KExt false (Some 0%Z) (Some 255%Z)))] in
  let v := VSeq [VInt 1073741824; VInt 4294967296] in
  wf_pty t /\ wf_pval t v /\ ~ Known_C18 t v /\
  schema_of t = Some [(1, PScalar SSInt64); (2, PScalar SUInt64)] /\
  pwrite_vec dev_mode t v = Ok [8; 128; 128; 128; 128; 8; 16; 128; 128; 128; 128; 16] /\
  pb_decode [(1, PScalar SSInt64); (2, PScalar SUInt64)] [8; 128; 128; 128; 128; 8; 16; 128; 128; 128; 128; 16]
  = Some [BNum 1073741824; BNum 4294967296] /\
  pb_of_val t v = Some [BNum 1073741824; BNum 4294967296].
Proof.
  split.
  - intros sg mn mx z Hw Hin. apply int_wire; assumption.
  - cbv zeta. split; [split; reflexivity|]. split; [reflexivity|]. split.
    + apply not_known_of_good; reflexivity.
    + vm_compute. repeat split; reflexivity.
Qed.

Example C18_decodes_nonvacuous :
  let t := TSeq [(false, TBool); (true, TStr);
     (false, TSeqOf (TSeq [(false, TInt KU16); (true, TStr)]));
     (false, TChoice [TInt KI16; TSeq [(false, TInt KU16)]; TEnum 3]);
     (true, TSeqOf (TInt KU8)); (false, TBits); (false, TNull); (false, TInt KI64)] in
  let v := VSeq [VBool true; VOpt None; VList [VSeq [VInt 300; VOpt (Some (VStr [104]))]; VSeq [VInt 1; VOpt None]];
     VChoice 1 (VSeq [VInt 7]); VOpt (Some (VList [])); VBits [160] 3; VNull; VInt (-2)] in
  wf_pty t /\ wf_pval t v /\ ~ Known_C18 t v /\
  exists msg, schema_of t = Some msg /\
    pb_decode msg [8; 1; 26; 6; 8; 172; 2; 18; 1; 104; 26; 2; 8; 1; 34; 4; 18; 2; 8; 7; 50; 9; 160; 0; 0; 0; 0; 0; 0; 0; 3; 64; 3]
    = Some [BNum 1; BBytes []; BRep [BMsg (Some [BNum 300; BBytes [104]]); BMsg (Some [BNum 1; BBytes []])];
            BMsg (Some [BOneof (Some (2, BMsg (Some [BNum 7])))]); BRep []; BBytes [160; 0; 0; 0; 0; 0; 0; 0; 3];
            BBytes []; BNum (-2)].
Proof.
  cbv zeta. split; [split; reflexivity|]. split; [reflexivity|]. split.
  - apply not_known_of_good; reflexivity.
  - eexists. split; [reflexivity|]. vm_compute. reflexivity.
Qed.

Print Assumptions C18_numbers_match.
Print Assumptions C18_decodes_under_schema_partial.
Print Assumptions C18_decodes_under_schema.
Print Assumptions C18_refuted_list_of_null.
Print Assumptions C18_extensible_int_fixed.
Print Assumptions C18_schema_valid_partial.
Print Assumptions C18_refuted_set_order.
Print Assumptions C18_refuted_nested_list_proto.
Print Assumptions C18_refuted_choice_list_proto.
Print Assumptions C18_refuted_choice_null.
