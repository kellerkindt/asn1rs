(* What every Proto proof file uses: the induction principle [pty_nested_ind] of [pty] with [Forall] hypotheses, and the
   lookup [nth_alt] that the local `pick` loops of the model compute. Then the Writer model of Rw.v: named versions of
   its local fixpoints, the agreement of the two back ends, and the record-level description [recs_of] of what it emits.
   (The Reader's local fixpoints are named in RoundtripProofs.v, those of the reference decoder in DecodeProofs.v.) *)
From A1 Require Import Proto.Rw Proto.Proofs.
Local Open Scope N_scope.

Section PtyInd.
  Variable P : pty -> Prop.
  Hypothesis HBool : P TBool.
  Hypothesis HInt : forall k, P (TInt k).
  Hypothesis HStr : P TStr.
  Hypothesis HBytes : P TBytes.
  Hypothesis HBits : P TBits.
  Hypothesis HNull : P TNull.
  Hypothesis HEnum : forall n, P (TEnum n).
  Hypothesis HSeq : forall fs, Forall (fun p => P (snd p)) fs -> P (TSeq fs).
  Hypothesis HSeqOf : forall t, P t -> P (TSeqOf t).
  Hypothesis HChoice : forall alts, Forall P alts -> P (TChoice alts).
  Fixpoint pty_nested_ind (t : pty) : P t :=
    match t with
    | TBool => HBool | TInt k => HInt k | TStr => HStr | TBytes => HBytes | TBits => HBits
    | TNull => HNull | TEnum n => HEnum n
    | TSeq fs =>
        HSeq fs ((fix go (l : list (bool * pty)) : Forall (fun p => P (snd p)) l :=
                    match l with
                    | [] => Forall_nil _
                    | p :: r => Forall_cons p (pty_nested_ind (snd p)) (go r)
                    end) fs)
    | TSeqOf t' => HSeqOf t' (pty_nested_ind t')
    | TChoice alts =>
        HChoice alts ((fix go (l : list pty) : Forall P l :=
                         match l with
                         | [] => Forall_nil _
                         | a :: r => Forall_cons a (pty_nested_ind a) (go r)
                         end) alts)
    end.
End PtyInd.

Definition wr_fields (m : mode) :=
  fix fields (fs : list (bool * pty)) (vs : list pval) (st : wst) {struct fs} : res wst :=
    match fs, vs with
    | [], [] => Ok st
    | (false, t) :: fs', v :: vs' => let! st1 := wr m t v st in fields fs' vs' st1
    | (true, t) :: fs', VOpt (Some v) :: vs' => let! st1 := wr m t v st in fields fs' vs' st1
    | (true, _) :: fs', VOpt None :: vs' => fields fs' vs' (set_tc st (w_tc st + 1))
    | _, _ => Err E_ILLTYPED
    end.

Definition wr_elems (m : mode) (t' : pty) (tc0 : N) :=
  fix elems (vs : list pval) (st : wst) {struct vs} : res wst :=
    match vs with
    | [] => Ok st
    | v :: vs' => let! st1 := wr m t' v st in elems vs' (set_tc st1 tc0)
    end.

(* the state of a writer that is not the root and writes into a growable buffer: the bytes so far and the tag counter *)
Definition wbuf (b : list N) (tc : N) : wst := {| w_buf := b; w_cap := None; w_tc := tc; w_root := false |}.

Lemma wr_seq_eq m fs vs st :
  wr m (TSeq fs) (VSeq vs) st =
  if w_root st then
    let! st1 := wr_fields m fs vs (set_root (set_tc st 0) false) in
    Ok (set_root (set_tc st1 (w_tc st)) true)
  else
    let tag := w_tc st + 1 in
    let! inner := wr_fields m fs vs (wbuf [] 0) in
    let content := w_buf inner in
    let! st1 := emit (write_tag tag LengthDelimited) st in
    let! st2 := emit (write_varint (N.of_nat (length content))) st1 in
    let! st3 := emit content st2 in
    Ok (set_tc st3 tag).
Proof. reflexivity. Qed.

Lemma wr_seqof_eq m t' vs st :
  wr m (TSeqOf t') (VList vs) st =
  let! st1 := wr_elems m t' (w_tc st) vs st in Ok (set_tc st1 (w_tc st + 1)).
Proof. reflexivity. Qed.

Fixpoint nth_alt {A} (l : list A) (j : N) : option A :=
  match l with
  | a :: r => if j =? 0 then Some a else nth_alt r (j - 1)
  | [] => None
  end.

(* [nlen] of Rw.v for a list of any type *)
Definition nl {A} (l : list A) : N := N.of_nat (length l).

Lemma nth_alt_in {A} (l : list A) : forall j a, nth_alt l j = Some a -> In a l /\ j < nl l.
Proof.
  induction l as [|x l IH]; intros j a H; cbn [nth_alt] in H; [discriminate|].
  destruct (j =? 0) eqn:Ej.
  - injection H as <-. split; [left; reflexivity|unfold nl; cbn [length]; lia].
  - apply IH in H. destruct H as [H1 H2]. split; [right; exact H1|unfold nl in *; cbn [length]; lia].
Qed.

(* the local `pick` loops of the model (j-th alternative, counting down) are lookups with [nth_alt] *)
Lemma pick_nth_alt {A B} (f : A -> B) (d : B) (alts : list A) : forall j,
  (fix pick (alts : list A) (j : N) {struct alts} : B :=
     match alts with a :: r => if j =? 0 then f a else pick r (j - 1) | [] => d end) alts j
  = match nth_alt alts j with Some a => f a | None => d end.
Proof.
  induction alts as [|a r IH]; intros j; cbn [nth_alt]; [reflexivity|].
  destruct (j =? 0); [reflexivity|apply IH].
Qed.

Lemma wr_choice_eq m alts i v st :
  wr m (TChoice alts) (VChoice i v) st =
  let idx := u32_of_u64 i in
  let content st := match nth_alt alts i with Some a => wr m a v st | None => Err E_ILLTYPED end in
  if w_root st then content (set_root (set_tc st idx) false)
  else
    let! inner := content (wbuf [] idx) in
    let tag := w_tc st + 1 in
    let! st1 := emit (write_tag tag LengthDelimited) st in
    let! st2 := emit (write_bytes (w_buf inner)) st1 in
    Ok (set_tc st2 tag).
Proof. cbn [wr]. rewrite !pick_nth_alt. reflexivity. Qed.

Definition capped (c : N) (st : wst) : wst := set_buf st (w_buf st) (Some c).

(* [r] is the outcome on a growable buffer that held [n] bytes, [r'] the outcome on the capped copy of that state.
   The buffer only grows, which is what makes a failure of the first of two steps agree with the whole. *)
Definition agree (c : N) (n : nat) (r r' : res wst) : Prop :=
  forall st', r = Ok st' ->
    w_cap st' = None /\ (n <= length (w_buf st'))%nat /\
    (N.of_nat n <= c -> r' = if N.of_nat (length (w_buf st')) <=? c then Ok (capped c st') else Err E_IO).
(* the two back ends: a writer step on a fixed slice of capacity [c] does what it does on the growable buffer, as long
   as the result fits; otherwise it fails with Err(Io) *)
Definition sim (f : wst -> res wst) : Prop :=
  forall st c, w_cap st = None -> agree c (length (w_buf st)) (f st) (f (capped c st)).

Lemma agree_err c n e r' : agree c n (Err e) r'.
Proof. intros st' E. discriminate E. Qed.

Lemma agree_ok c st : w_cap st = None -> agree c (length (w_buf st)) (Ok st) (Ok (capped c st)).
Proof.
  intros Hc st' E. injection E as <-. split; [exact Hc|]. split; [lia|].
  intros Hn. assert ((N.of_nat (length (w_buf st)) <=? c) = true) as -> by lia. reflexivity.
Qed.

Lemma agree_bind c n r r' g : agree c n r r' -> sim g -> agree c n (bind r g) (bind r' g).
Proof.
  intros H Hg st' E. destruct r as [s1| |]; try discriminate E. cbn [bind] in E.
  destruct (H s1 eq_refl) as (C1 & L1 & R1). destruct (Hg s1 c C1 st' E) as (C2 & L2 & R2).
  split; [exact C2|]. split; [lia|]. intros Hn. rewrite (R1 Hn).
  destruct (N.leb_spec (N.of_nat (length (w_buf s1))) c) as [Hs|Hs]; cbn [bind].
  - apply R2, Hs.
  - assert ((N.of_nat (length (w_buf st')) <=? c) = false) as -> by lia. reflexivity.
Qed.

(* a sub-value written into a buffer of its own first (the same on both back ends) *)
Lemma agree_inner {A} c n (r0 : res A) k k' :
  (forall a, agree c n (k a) (k' a)) -> agree c n (bind r0 k) (bind r0 k').
Proof. intros H. destruct r0 as [a| |]; cbn [bind]; [apply H|discriminate|discriminate]. Qed.

Lemma sim_bind f g : sim f -> sim g -> sim (fun s => bind (f s) g).
Proof. intros Hf Hg st c Hc. apply agree_bind; [apply Hf, Hc|exact Hg]. Qed.

Lemma sim_emit bs : sim (emit bs).
Proof.
  intros st c Hc st' E. unfold emit in *. rewrite Hc in E. injection E as <-.
  cbn [capped set_buf w_buf w_cap]. rewrite app_length. split; [reflexivity|]. split; [lia|]. intros _.
  destruct (N.of_nat (length (w_buf st) + length bs) <=? c); reflexivity.
Qed.

Lemma sim_settc k : sim (fun s => Ok (set_tc s k)).
Proof. intros st c Hc. apply (agree_ok c (set_tc st k)), Hc. Qed.

Lemma sim_emit_tagged f payload : sim (emit_tagged f payload).
Proof. intros st c Hc. apply agree_bind; [apply sim_emit, Hc|apply sim_settc]. Qed.

Lemma wr_fields_sim m fs :
  Forall (fun p => forall v, sim (wr m (snd p) v)) fs -> forall vs, sim (wr_fields m fs vs).
Proof.
  induction 1 as [|[o t] fs' Ht _ IH]; intros vs st c Hc.
  - destruct vs; [apply agree_ok, Hc|apply agree_err].
  - cbn [snd] in Ht. destruct vs as [|v vs']; [destruct o; apply agree_err|].
    destruct o.
    + destruct v as [| | | | | | | |ov| |]; try apply agree_err.
      destruct ov as [v|].
      * apply agree_bind; [apply Ht, Hc|apply IH].
      * apply (IH vs' (set_tc st (w_tc st + 1)) c Hc).
    + apply agree_bind; [apply Ht, Hc|apply IH].
Qed.

Lemma wr_elems_sim m t' tc0 : (forall v, sim (wr m t' v)) -> forall vs, sim (wr_elems m t' tc0 vs).
Proof.
  intros Ht. induction vs as [|v vs' IH]; intros st c Hc.
  - apply agree_ok, Hc.
  - apply agree_bind; [apply Ht, Hc|]. intros s1 c1 H1. apply (IH (set_tc s1 tc0) c1 H1).
Qed.

Theorem wr_sim m : forall t v, sim (wr m t v).
Proof.
  induction t as [| k | | | | | n | fs IH | t' IH | alts IH] using pty_nested_ind; intros v st c Hc;
    destruct v as [b|z|s|l|bytes bl| |i|vs|ov|vs|i x]; try apply agree_err.
  - apply sim_emit_tagged, Hc.
  - apply sim_emit_tagged, Hc.
  - apply sim_emit_tagged, Hc.
  - apply sim_emit_tagged, Hc.
  - (* bits *) apply agree_inner. intros payload. apply sim_emit_tagged, Hc.
  - (* null *) apply (agree_ok c (set_tc st (w_tc st + 1))), Hc.
  - (* enum *) cbn [wr capped set_buf w_root]. destruct (w_root st); [apply sim_emit, Hc|apply sim_emit_tagged, Hc].
  - (* sequence *)
    pose proof (wr_fields_sim m fs IH vs) as HF.
    rewrite !wr_seq_eq. cbn [capped set_buf w_root w_tc]. destruct (w_root st).
    + apply agree_bind; [apply (HF (set_root (set_tc st 0) false) c Hc)|].
      intros s1 c1 H1. apply (agree_ok c1 (set_root (set_tc s1 (w_tc st)) true)), H1.
    + apply agree_inner. intros inner. cbv zeta.
      apply agree_bind; [apply sim_emit, Hc|]. apply sim_bind; [apply sim_emit|].
      apply sim_bind; [apply sim_emit|apply sim_settc].
  - (* sequence of *)
    rewrite !wr_seqof_eq. apply agree_bind; [apply wr_elems_sim; [exact IH|exact Hc]|apply sim_settc].
  - (* choice *)
    rewrite !wr_choice_eq. cbv zeta. cbn [capped set_buf w_root w_tc]. destruct (w_root st).
    + destruct (nth_alt alts i) as [a|] eqn:Ea; [|apply agree_err].
      rewrite Forall_forall in IH.
      apply (IH a (proj1 (nth_alt_in alts i a Ea)) x (set_root (set_tc st (u32_of_u64 i)) false) c Hc).
    + apply agree_inner. intros inner.
      apply agree_bind; [apply sim_emit, Hc|]. apply sim_bind; [apply sim_emit|apply sim_settc].
Qed.

(* C17: the two back ends agree (every type, every value, both profiles) *)
Theorem backends_agree m t v bs cap :
  pwrite_vec m t v = Ok bs ->
  pwrite_slice m cap t v = if N.of_nat (length bs) <=? cap then Ok bs else Err E_IO.
Proof.
  unfold pwrite_vec, pwrite_slice. intros H.
  destruct (wr m t v (wst0 None)) as [s'| |] eqn:E; try discriminate. cbn [bind] in H. injection H as <-.
  destruct (wr_sim m t v (wst0 None) cap eq_refl s' E) as (_ & _ & R).
  change (capped cap (wst0 None)) with (wst0 (Some cap)) in R. rewrite R by (cbn; lia).
  destruct (N.of_nat (length (w_buf s')) <=? cap); reflexivity.
Qed.

Theorem backends_agree_flat (m : mode) b x oy :
  let v := VSeq [VBool b; VInt (Z.of_N x); VOpt (option_map VInt oy)] in
  exists bs, pwrite_vec m flat_ty v = Ok bs /\
    pwrite_slice m (N.of_nat (length bs)) flat_ty v = Ok bs /\
    pwrite_slice m (N.of_nat (length bs) + 3) flat_ty v = Ok bs /\
    pwrite_slice m (N.of_nat (length bs) - 1) flat_ty v = Err E_IO.
Proof.
  intros v. destruct (flat_write m b x oy) as (bs & W & L). fold v in W.
  exists bs. split; [exact W|]. rewrite !(backends_agree m flat_ty v bs _ W).
  assert ((N.of_nat (length bs) <=? N.of_nat (length bs)) = true) as -> by lia.
  assert ((N.of_nat (length bs) <=? N.of_nat (length bs) + 3) = true) as -> by lia.
  assert ((N.of_nat (length bs) <=? N.of_nat (length bs) - 1) = false) as -> by lia.
  repeat split.
Qed.

(* a record is a varint or a length-delimited payload (the other two wire types are never written) *)
Inductive prec := RVar (x : N) | RLen (p : list N).
Definition rfmt (r : prec) : format := match r with RVar _ => VarInt | RLen _ => LengthDelimited end.
(* the bytes an entry of index_enclosed points at ... *)
Definition payload (r : prec) : list N := match r with RVar x => write_varint x | RLen p => p end.
(* ... and what follows the tag *)
Definition rbody (r : prec) : list N :=
  match r with RVar x => write_varint x | RLen p => write_varint (nlen p) ++ p end.
Definition rec_wf (r : prec) : Prop := match r with RVar x => x < two64 | RLen _ => True end.
Definition rec_bytes (tag : N) (r : prec) : list N := write_tag tag (rfmt r) ++ rbody r.
Definition content (trs : list (N * prec)) : list N := flat_map (fun tr => rec_bytes (fst tr) (snd tr)) trs.

(* the records of the components of a SEQUENCE, numbered from [tag]; [rec] is [recs_of] below *)
Definition recs_fields_with (rec : pty -> pval -> list prec) :=
  fix fields (fs : list (bool * pty)) (vs : list pval) (tag : N) {struct fs} : list (N * prec) :=
    match fs, vs with
    | (false, t) :: fs', v :: vs' => map (pair tag) (rec t v) ++ fields fs' vs' (tag + 1)
    | (true, t) :: fs', VOpt (Some v) :: vs' => map (pair tag) (rec t v) ++ fields fs' vs' (tag + 1)
    | (true, _) :: fs', VOpt None :: vs' => fields fs' vs' (tag + 1)
    | _, _ => []
    end.

Fixpoint recs_of (t : pty) (v : pval) {struct t} : list prec :=
  match t, v with
  | TBool, VBool b => [RVar (if b then 1 else 0)]
  | TInt k, VInt z => [RVar (number_word k z)]
  | TStr, VStr s => [RLen s]
  | TBytes, VBytes l => [RLen l]
  | TBits, VBits bytes n => [RLen (bytes ++ be_bytes 8 n)]
  | TEnum _, VEnum i => [RVar (u32_of_u64 i)]
  | TSeq fs, VSeq vs => [RLen (content (recs_fields_with recs_of fs vs 1))]
  | TSeqOf t', VList vs => flat_map (recs_of t') vs
  | TChoice alts, VChoice i x =>
      [RLen (content (map (pair (u32_of_u64 i + 1))
        ((fix pick (alts : list pty) (j : N) {struct alts} : list prec :=
            match alts with
            | a :: r => if j =? 0 then recs_of a x else pick r (j - 1)
            | [] => []
            end) alts i)))]
  | _, _ => []
  end.

(* unfolded to its [fix], so that it computes on a non-empty field list *)
Definition recs_fields := Eval cbv beta delta [recs_fields_with] in recs_fields_with recs_of.

Lemma recs_seq_eq fs vs : recs_of (TSeq fs) (VSeq vs) = [RLen (content (recs_fields fs vs 1))].
Proof. reflexivity. Qed.
Lemma recs_choice_eq alts i x :
  recs_of (TChoice alts) (VChoice i x) =
  [RLen (content (map (pair (u32_of_u64 i + 1)) match nth_alt alts i with Some a => recs_of a x | None => [] end))].
Proof. cbn [recs_of]. rewrite <- (pick_nth_alt (fun a => recs_of a x) [] alts i). reflexivity. Qed.

(* every varint the writer emits is a u64, whatever the type and the value *)
Lemma recs_wf : forall t v, Forall rec_wf (recs_of t v).
Proof.
  induction t as [| | | | | | | |t' IH|]; intros [b|z|s|l|bytes bl| |i|vs|o|vs|i x]; cbn [recs_of];
    try apply Forall_nil; try (apply Forall_cons; [|apply Forall_nil]); try exact I.
  - destruct b; reflexivity.
  - apply number_word_lt.
  - unfold rec_wf, u32_of_u64, two32, two64. lia.
  - induction vs as [|x vs IHvs]; cbn [flat_map]; [constructor|apply Forall_app; split; [apply IH|exact IHvs]].
Qed.

(* the field loop of [wf_val], named through the SEQUENCE it runs in: on a non-empty field list it computes to the
   conjunction over head and tail *)
Definition wf_fields (fs : list (bool * pty)) (vs : list pval) : bool := wf_val (TSeq fs) (VSeq vs).
(* a component that is there: the value itself, wrapped when the component is OPTIONAL *)
Definition present (o : bool) (v : pval) : pval := if o then VOpt (Some v) else v.

Lemma wf_fields_ind (Q : pty -> Prop) (P : list (bool * pty) -> list pval -> Prop) :
  P [] [] ->
  (forall o t fs v vs, Q t -> wf_val t v = true -> wf_fields fs vs = true -> P fs vs -> P ((o, t) :: fs) (present o v :: vs)) ->
  (forall t fs vs, wf_fields fs vs = true -> P fs vs -> P ((true, t) :: fs) (VOpt None :: vs)) ->
  forall fs, Forall (fun p => Q (snd p)) fs -> forall vs, wf_fields fs vs = true -> P fs vs.
Proof.
  intros Hnil Hpres Habs. induction 1 as [|[o t] fs Ht _ IH]; intros vs H.
  - destruct vs; [exact Hnil|discriminate H].
  - destruct vs as [|v vs]; [destruct o; discriminate H|]. destruct o.
    + destruct v as [| | | | | | | |[v|]| |]; try discriminate H.
      * apply andb_true_iff in H. destruct H as [H1 H2]. apply (Hpres true); auto.
      * apply Habs; auto.
    + apply andb_true_iff in H. destruct H as [H1 H2]. apply (Hpres false); auto.
Qed.

Lemma wr_fields_present m o t fs v vs st :
  wr_fields m ((o, t) :: fs) (present o v :: vs) st = bind (wr m t v st) (wr_fields m fs vs).
Proof. destruct o; reflexivity. Qed.
Lemma recs_fields_present o t fs v vs tag :
  recs_fields ((o, t) :: fs) (present o v :: vs) tag = map (pair tag) (recs_of t v) ++ recs_fields fs vs (tag + 1).
Proof. destruct o; reflexivity. Qed.

Lemma wf_choice_eq alts i x :
  wf_val (TChoice alts) (VChoice i x) = match nth_alt alts i with Some a => wf_val a x | None => false end.
Proof. exact (pick_nth_alt (fun a => wf_val a x) false alts i). Qed.

Lemma content_app a b : content (a ++ b) = content a ++ content b.
Proof. unfold content. apply flat_map_app. Qed.
Lemma content_one tag r : content [(tag, r)] = rec_bytes tag r.
Proof. unfold content. cbn [flat_map fst snd]. apply app_nil_r. Qed.
Lemma content_cons tag r trs : content ((tag, r) :: trs) = rec_bytes tag r ++ content trs.
Proof. reflexivity. Qed.

Lemma nlen_app a b : nlen (a ++ b) = nlen a + nlen b.
Proof. unfold nlen. rewrite app_length. lia. Qed.

Lemma nlen_drop a b : nlen (a ++ b) - nlen b = nlen a.
Proof. rewrite nlen_app. lia. Qed.

Lemma write_tag_len tag f : 1 <= nlen (write_tag tag f).
Proof. unfold write_tag, nlen. pose proof (write_varint_len (tag_word tag f)). lia. Qed.

Lemma rec_bytes_len tag r : 1 <= nlen (rec_bytes tag r).
Proof. unfold rec_bytes. rewrite nlen_app. pose proof (write_tag_len tag (rfmt r)). lia. Qed.

Lemma payload_lt tag r B : nlen (rec_bytes tag r) < B -> nlen (payload r) < B.
Proof. unfold rec_bytes. destruct r; cbn [rbody payload]; rewrite !nlen_app; lia. Qed.

(* what both parsers of a message (index_enclosed, Schema.parse_records) need of its records: field numbers that a tag
   word holds, varints that are u64 *)
Definition parsable (trs : list (N * prec)) : Prop := Forall (fun tr => 1 <= fst tr < 2 ^ 29 /\ rec_wf (snd tr)) trs.

Lemma wf_bits_inv bytes n :
  wf_val TBits (VBits bytes n) = true -> N.of_nat (length bytes) = (n + 7) / 8 /\ n < two32.
Proof.
  cbn [wf_val]. intros H. apply andb_true_iff in H. destruct H as [H Hn]. apply andb_true_iff in H. destruct H as [_ Hl].
  split; [apply N.eqb_eq, Hl|apply N.ltb_lt, Hn].
Qed.

Lemma bits_payload m bytes n :
  wf_val TBits (VBits bytes n) = true -> bitvec_payload m bytes n = Ok (bytes ++ be_bytes 8 n).
Proof.
  intros H. apply wf_bits_inv in H. destruct H as [Hl Hn].
  unfold bitvec_payload. unfold usize_max, two64, two32 in *.
  assert ((18446744073709551616 - 1 <? n + 7) = false) as -> by lia. cbn [bind].
  assert ((N.of_nat (length bytes) <? (n + 7) / 8) = false) as -> by lia.
  replace (N.to_nat ((n + 7) / 8)) with (length bytes) by lia. rewrite firstn_all. reflexivity.
Qed.

Definition writes_recs (m : mode) (t : pty) : Prop :=
  forall v b tc, wf_val t v = true ->
  wr m t v (wbuf b tc) = Ok (wbuf (b ++ content (map (pair (tc + 1)) (recs_of t v))) (tc + 1)).

Lemma wr_fields_recs m : forall fs, Forall (fun p => writes_recs m (snd p)) fs -> forall vs, wf_fields fs vs = true ->
  forall b tc, wr_fields m fs vs (wbuf b tc) = Ok (wbuf (b ++ content (recs_fields fs vs (tc + 1))) (tc + nl fs)).
Proof.
  refine (wf_fields_ind _ _ _ _ _).
  - intros b tc. cbn [wr_fields recs_fields]. change (content []) with (@nil N). rewrite app_nil_r, N.add_0_r. reflexivity.
  - intros o t fs v vs Ht H1 H2 IH b tc.
    rewrite wr_fields_present, recs_fields_present, (Ht v b tc H1). cbn [bind].
    rewrite IH, content_app, app_assoc. unfold nl. cbn [length]. do 2 f_equal. lia.
  - intros t fs vs H2 IH b tc. cbn [wr_fields recs_fields].
    change (set_tc (wbuf b tc) (w_tc (wbuf b tc) + 1)) with (wbuf b (tc + 1)).
    rewrite IH. unfold nl. cbn [length]. do 2 f_equal. lia.
Qed.

Lemma wr_elems_recs m t' : writes_recs m t' -> forall vs b tc, forallb (wf_val t') vs = true ->
  wr_elems m t' tc vs (wbuf b tc) = Ok (wbuf (b ++ content (map (pair (tc + 1)) (flat_map (recs_of t') vs))) tc).
Proof.
  intros Ht. induction vs as [|v vs' IH]; intros b tc Hwf.
  - cbn [wr_elems flat_map map]. change (content []) with (@nil N). rewrite app_nil_r. reflexivity.
  - cbn [forallb] in Hwf. apply andb_true_iff in Hwf. destruct Hwf as [H1 H2].
    cbn [wr_elems flat_map]. rewrite (Ht v b tc H1). cbn [bind].
    change (set_tc (wbuf ?x (tc + 1)) tc) with (wbuf x tc).
    rewrite (IH _ tc H2), map_app, content_app, app_assoc. reflexivity.
Qed.

Theorem wr_records m : forall t, writes_recs m t.
Proof.
  induction t as [| k | | | | | n | fs IH | t' IH | alts IH] using pty_nested_ind; intros v b tc Hwf;
    destruct v as [bo|z|s|l|bytes bl| |i|vs|ov|vs|i x]; try discriminate Hwf.
  - cbn [recs_of map]. rewrite content_one. reflexivity.
  - cbn [recs_of map]. rewrite content_one. unfold rec_bytes. cbn [rfmt rbody]. rewrite <- number_bytes_word. reflexivity.
  - cbn [recs_of map]. rewrite content_one. reflexivity.
  - cbn [recs_of map]. rewrite content_one. reflexivity.
  - cbn [wr recs_of map]. rewrite (bits_payload m _ _ Hwf), content_one. reflexivity.
  - cbn [recs_of map]. change (content []) with (@nil N). rewrite app_nil_r. reflexivity.
  - cbn [recs_of map]. rewrite content_one. reflexivity.
  - (* sequence: the components go into a buffer of their own, then tag, length, content *)
    rewrite wr_seq_eq, recs_seq_eq. cbn [w_root wbuf]. cbv zeta.
    rewrite (wr_fields_recs m fs IH vs Hwf). cbn [bind map]. rewrite content_one.
    cbn [emit bind set_tc set_buf w_cap w_buf w_tc w_root wbuf]. unfold rec_bytes, nlen. cbn [rfmt rbody].
    rewrite <- !app_assoc. reflexivity.
  - (* sequence of *)
    rewrite wr_seqof_eq. cbn [wf_val] in Hwf. cbn [w_tc wbuf]. rewrite (wr_elems_recs m t' IH vs b tc Hwf). reflexivity.
  - (* choice: the alternative goes into a buffer of its own, then tag and write_bytes *)
    rewrite wr_choice_eq, recs_choice_eq, wf_choice_eq in *. cbn [w_root wbuf]. cbv zeta.
    destruct (nth_alt alts i) as [a|] eqn:Ea; [|discriminate].
    apply nth_alt_in in Ea. destruct Ea as [Ea _]. rewrite Forall_forall in IH.
    rewrite (IH a Ea x [] _ Hwf). cbn [bind map]. rewrite content_one.
    cbn [emit bind set_tc set_buf w_cap w_buf w_tc w_root wbuf]. unfold rec_bytes, write_bytes, nlen. cbn [rfmt rbody].
    rewrite <- !app_assoc. reflexivity.
Qed.
