(* Front/ParseProofs.v -- the predicate `safe` (C14); equations for the token primitives on printed tokens,
   parse-after-print for tags, SIZE, INTEGER and named numbers (C07); one-step equations of the type grammar. *)
From Coq Require Import String.
From A1 Require Import Front.Parse Front.Print.
Local Open Scope N_scope.

Definition safe {A : Type} (r : pres A) : Prop :=
  match r with POk _ | PErr _ _ => True | PPanic _ | POutOfFuel => False end.

(* the token primitives on the printed tokens T s (a text) and P c (a separator); in the names nse = next_sep_or_err,
   nte = next_text_or_err, noe = next_or_err, nis = next_is_sep, nif = next_if_sep, nit = next_is_text_ic,
   ito = into_text_or, lc = loop_ctrl *)
Lemma eqsep_P : forall c d, eq_separator (P c) d = (c =? d). Proof. reflexivity. Qed.
Lemma eqsep_T : forall s d, eq_separator (T s) d = false. Proof. reflexivity. Qed.
Lemma eqtext_P : forall c kw, eq_text_ic (P c) kw = false. Proof. reflexivity. Qed.
Lemma eqtext_T : forall s kw, eq_text_ic (T s) kw = eq_ignore_case s kw. Proof. reflexivity. Qed.
Lemma istext_T : forall s, is_text (T s) = true. Proof. reflexivity. Qed.
Lemma toktext_T : forall s, tok_text (T s) = Some s. Proof. reflexivity. Qed.
Lemma nte_T : forall s r, next_text_or_err (T s :: r) = POk (s, r). Proof. reflexivity. Qed.
Lemma noe_cons : forall t r, next_or_err (t :: r) = POk (t, r). Proof. reflexivity. Qed.
Lemma nteq_T : forall kw s r, eq_ignore_case s kw = true -> next_text_eq_ic_or_err kw (T s :: r) = POk (T s, r).
Proof. intros kw s r H. cbn [next_text_eq_ic_or_err]. rewrite eqtext_T, H. reflexivity. Qed.
Lemma nse_S : forall c l k r, next_sep_or_err c (Separator l k c :: r) = POk r.
Proof. intros. unfold next_sep_or_err, next_if_sep. cbn [eq_separator]. rewrite N.eqb_refl. reflexivity. Qed.
Lemma nse_P : forall c r, next_sep_or_err c (P c :: r) = POk r.
Proof. intros c r. apply nse_S. Qed.
Lemma nis_P : forall c r, next_is_sep c (P c :: r) = (true, r).
Proof. intros c r. unfold next_is_sep. rewrite eqsep_P, N.eqb_refl. reflexivity. Qed.
Lemma nis_T : forall c s r, next_is_sep c (T s :: r) = (false, T s :: r). Proof. reflexivity. Qed.
Lemma nis_no : forall c ts, peek_is_sep c ts = false -> next_is_sep c ts = (false, ts).
Proof. intros c [|t r] H; [reflexivity|]. cbn [peek_is_sep] in H. unfold next_is_sep. rewrite H. reflexivity. Qed.
Lemma nif_P : forall c r, next_if_sep c (P c :: r) = POk (P c, r).
Proof. intros c r. unfold next_if_sep. rewrite eqsep_P, N.eqb_refl. reflexivity. Qed.
Lemma nif_T : forall c s r, next_if_sep c (T s :: r) = PErr E_EXPECTED_SEPARATOR_GOT (Some (T s)).
Proof. reflexivity. Qed.
Lemma nit_P : forall kw c r, next_is_text_ic kw (P c :: r) = (false, P c :: r). Proof. reflexivity. Qed.
Lemma ito_T : forall k s, into_text_or k (T s) = POk s. Proof. reflexivity. Qed.
Lemma lc_comma : loop_ctrl (P C_COMMA) = POk true. Proof. reflexivity. Qed.
Lemma lc_rbrace : loop_ctrl (P C_RBRACE) = POk false. Proof. reflexivity. Qed.
Lemma three_dots_marker : forall rest, three_dots (marker_toks ++ rest) = POk rest. Proof. reflexivity. Qed.

(* rewrite with the equation of the primitive at the head of the computation (looking for every left-hand side
   everywhere is slow in a goal that holds the body of a loop) *)
Ltac tk_head t :=
  lazymatch t with
  | pbind ?x _ => tk_head x
  | match ?x with _ => _ end => tk_head x
  | next_sep_or_err _ (P _ :: _) => rewrite nse_P
  | next_or_err (_ :: _) => rewrite noe_cons
  | next_text_or_err (T _ :: _) => rewrite nte_T
  | next_if_sep _ (P _ :: _) => rewrite nif_P
  | next_if_sep _ (T _ :: _) => rewrite nif_T
  | next_is_sep _ (P _ :: _) => rewrite nis_P
  | next_is_sep _ (T _ :: _) => rewrite nis_T
  | next_is_text_ic _ (P _ :: _) => rewrite nit_P
  | into_text_or _ (T _) => rewrite ito_T
  | loop_ctrl (P _) => first [rewrite lc_comma | rewrite lc_rbrace]
  | three_dots (marker_toks ++ _) => rewrite three_dots_marker
  end.
Ltac tk := cbn [pbind app]; repeat (lazymatch goal with |- ?l = _ => tk_head l end; cbn [pbind app]).

(* a word that starts with a sign or a digit (or a quotation mark or an apostrophe) differs, in any case, from a word
   that starts with a letter *)
Definition low_head (s : str) : bool := match s with c :: _ => c <=? 57 | [] => false end.
Definition letter_head (kw : str) : bool := match kw with k :: _ => 65 <=? k | [] => true end.

Lemma low_head_not_keyword : forall s kw, low_head s = true -> letter_head kw = true -> eq_ignore_case s kw = false.
Proof.
  intros [|c r] kw Hc Hk; [discriminate|]. destruct kw as [|k kw]; [reflexivity|]. apply N.leb_le in Hc, Hk.
  cbn [eq_ignore_case]. apply andb_false_iff. left. apply N.eqb_neq.
  unfold to_ascii_lower.
  assert (E1 : (65 <=? c) = false) by (apply N.leb_gt; lia). rewrite E1. cbn [andb].
  destruct ((65 <=? k) && (k <=? 90)); lia.
Qed.

Lemma digits_head : forall (A : Type) c r acc (k : N -> option A) (x : A),
  match digits_val (c :: r) acc with Some v => k v | None => None end = Some x -> c <= 57.
Proof.
  intros A c r acc k x H. cbn [digits_val] in H. destruct (is_ascii_digit c) eqn:Hd; [|discriminate].
  unfold is_ascii_digit in Hd. apply andb_true_iff in Hd. destruct Hd as [_ Hd]. apply N.leb_le in Hd. exact Hd.
Qed.

Lemma numeral_head : forall s n, parse_u64 s = Some n -> low_head s = true.
Proof.
  intros s n H. destruct s as [|c r]; [discriminate|]. apply N.leb_le.
  unfold parse_u64, strip_plus in H.
  destruct (c =? 43) eqn:Hc; [apply N.eqb_eq in Hc; lia|]. exact (digits_head _ _ _ _ _ _ H).
Qed.

Lemma i64_numeral_head : forall s z, parse_i64 s = Some z -> low_head s = true.
Proof.
  intros s z H. destruct s as [|c r]; [discriminate|]. apply N.leb_le.
  unfold parse_i64, strip_plus in H.
  destruct (c =? 45) eqn:Hm; [apply N.eqb_eq in Hm; lia|].
  destruct (c =? 43) eqn:Hp; [apply N.eqb_eq in Hp; lia|]. exact (digits_head _ _ _ _ _ _ H).
Qed.

Lemma read_tag_class : forall t r,
  read_tag (T (KW "UNIVERSAL") :: t :: r) = (let? v := parse_tag_number t in POk (TagUniversal v, r)) /\
  read_tag (T (KW "APPLICATION") :: t :: r) = (let? v := parse_tag_number t in POk (TagApplication v, r)) /\
  read_tag (T (KW "PRIVATE") :: t :: r) = (let? v := parse_tag_number t in POk (TagPrivate v, r)).
Proof. repeat split. Qed.

Theorem read_tag_print : forall t num rest,
  parse_u64 num = Some (tag_number t) ->
  read_tag (print_tag t num ++ rest) = POk (t, rest).
Proof.
  intros t num rest H.
  assert (Hn : parse_tag_number (T num) = POk (tag_number t)) by (unfold parse_tag_number; rewrite toktext_T, H; reflexivity).
  destruct (read_tag_class (T num) rest) as (Hu & Ha & Hp).
  destruct t as [n|n|n|n]; cbn [print_tag app tag_number] in *.
  - rewrite Hu, Hn. reflexivity.
  - rewrite Ha, Hn. reflexivity.
  - (* the number alone: it is none of the three class words *)
    unfold read_tag. rewrite noe_cons. cbn [pbind]. rewrite !eqtext_T.
    rewrite !(low_head_not_keyword num) by (reflexivity || exact (numeral_head _ _ H)).
    rewrite istext_T, Hn. reflexivity.
  - rewrite Hp, Hn. reflexivity.
Qed.

Theorem next_with_opt_tag_print : forall t num w rest,
  (forall tg, t = Some tg -> parse_u64 num = Some (tag_number tg)) ->
  next_with_opt_tag (print_opt_tag t num ++ T w :: rest) = POk (T w, t, rest).
Proof.
  intros t num w rest H. unfold next_with_opt_tag. destruct t as [tg|]; cbn [print_opt_tag app]; rewrite noe_cons; cbn [pbind].
  - rewrite eqsep_P. change (C_LBRACKET =? C_LBRACKET) with true. cbv iota.
    rewrite <- app_assoc, read_tag_print by (apply H; reflexivity). tk. reflexivity.
  - rewrite eqsep_T. reflexivity.
Qed.

Lemma lit_eqb_spec : forall a b : N, lor_n_eqb (Lit a) (Lit b) = (a =? b).
Proof. reflexivity. Qed.

Lemma size_bound_denotes : forall kw skip s b,
  letter_head kw = true ->
  (forall r, b = Ref r -> eq_ignore_case r kw = false) ->
  denotes_n s b ->
  size_bound kw skip (T s) = if lor_n_eqb (Lit skip) b then None else Some b.
Proof.
  intros kw skip s b Hk Hr H. unfold size_bound. rewrite toktext_T. destruct b as [n | r]; cbn [denotes_n] in H.
  - rewrite (low_head_not_keyword s kw (numeral_head s n H) Hk). rewrite H. reflexivity.
  - destruct H as [-> [Hp _]]. rewrite (Hr r eq_refl). rewrite Hp. reflexivity.
Qed.

Lemma size_bound_min : forall s b, denotes_n s b ->
  size_bound (KW "MIN") 0 (T s) = if lor_n_eqb (Lit 0) b then None else Some b.
Proof. intros s b H. apply size_bound_denotes; [reflexivity | intros r -> | exact H]. apply H. Qed.

Lemma size_bound_max : forall s b, denotes_n s b ->
  size_bound (KW "MAX") I64_MAX_N (T s) = if lor_n_eqb (Lit I64_MAX_N) b then None else Some b.
Proof. intros s b H. apply size_bound_denotes; [reflexivity | intros r -> | exact H]. apply H. Qed.

Lemma bound_absent : forall skip b, (if lor_n_eqb (Lit skip) b then None else Some b) = None -> b = Lit skip.
Proof.
  intros skip [n | r]; cbn [lor_n_eqb]; [|discriminate].
  destruct (skip =? n) eqn:E; [apply N.eqb_eq in E; subst; reflexivity | discriminate].
Qed.

Lemma opt_default_bound : forall skip b,
  opt_default (if lor_n_eqb (Lit skip) b then None else Some b) (Lit skip) = b.
Proof.
  intros skip b. destruct (if lor_n_eqb (Lit skip) b then None else Some b) as [x|] eqn:E; cbn [opt_default].
  - destruct (lor_n_eqb (Lit skip) b); congruence.
  - symmetry. apply bound_absent. exact E.
Qed.

(* ")" or ", ... )" after the bounds *)
Lemma ext_close : forall (A : Type) e rest (k : bool -> toks -> pres A),
  (let (b, r6) := next_is_sep C_COMMA (ext_toks e ++ P C_RPAREN :: rest) in
   let? r7 := (if b then three_dots r6 else POk r6) in
   let? r8 := next_sep_or_err C_RPAREN r7 in k b r8) = k e rest.
Proof. intros A [|] rest k; reflexivity. Qed.

Lemma not_both_none : forall (A B C : Type) (x : option A) (y : option B) (u v : C),
  ~ (x = None /\ y = None) -> match x, y with None, None => u | _, _ => v end = v.
Proof. intros A B C [a|] [b|] u v H; try reflexivity. exfalso. auto. Qed.

Theorem read_size_print : forall s sa sb rest,
  size_wf s sa sb ->
  read_size (print_size s sa sb ++ rest) = POk (s, rest).
Proof.
  intros s sa sb rest Hwf. destruct s as [| a e | a b e]; cbn [size_wf] in Hwf; [contradiction | |];
    unfold read_size; cbn [print_size app]; rewrite nteq_T by reflexivity; tk.
  - rewrite (size_bound_min sa a Hwf), opt_default_bound. destruct e; reflexivity.
  - destruct Hwf as (Ha & Hb & Hne & Hq).
    change (peek_is_sep C_DOT (P C_DOT :: P C_DOT :: T sb :: (ext_toks e ++ [P C_RPAREN]) ++ rest)) with true.
    cbn [negb]. tk. rewrite (size_bound_min sa a Ha), (size_bound_max sb b Hb).
    rewrite not_both_none by (intros [Na Nb]; apply Hq; split; eapply bound_absent; eassumption).
    rewrite !opt_default_bound, <- app_assoc. cbn [app]. rewrite ext_close, Hne. reflexivity.
Qed.

Lemma eq_ignore_case_same : forall s, eq_ignore_case s s = true.
Proof. induction s as [|x s IH]; [reflexivity|]. cbn [eq_ignore_case]. rewrite N.eqb_refl. exact IH. Qed.

Lemma range_bound_denotes : forall kw s b,
  letter_head kw = true -> denotes_z kw s b -> range_bound kw (T s) = b.
Proof.
  intros kw s b Hk H. unfold range_bound. rewrite toktext_T.
  destruct b as [[z | r]|]; cbn [denotes_z] in H.
  - rewrite (low_head_not_keyword s kw (i64_numeral_head s z H) Hk). rewrite H. reflexivity.
  - destruct H as [-> [Hp Hn]]. rewrite Hn, Hp. reflexivity.
  - subst s. rewrite eq_ignore_case_same. reflexivity.
Qed.

(* the last step of read_integer: (0..MAX) and (MIN..i64::MAX) are folded to "unconstrained" *)
Definition range_result (lo hi : option (lit_or_ref Z)) (e : bool) (consts : list (str * Z)) (r : toks)
  : pres (arange (lit_or_ref Z) * list (str * Z) * toks) :=
  match lo, hi with
  | Some (Lit 0%Z), None => POk ((None, None, e), consts, r)
  | None, Some (Lit v) => if (v =? I64_MAX_Z)%Z then POk ((None, None, e), consts, r) else POk ((lo, hi, e), consts, r)
  | _, _ => POk ((lo, hi, e), consts, r)
  end.

Definition read_integer_rest (consts : list (str * Z)) (r0 : toks)
  : pres (arange (lit_or_ref Z) * list (str * Z) * toks) :=
  let (b, r1) := next_is_sep C_LPAREN r0 in
  if b then
    let? (st, r2) := next_or_err r1 in
    let? r3 := next_sep_or_err C_DOT r2 in
    let? r4 := next_sep_or_err C_DOT r3 in
    let? (en, r5) := next_or_err r4 in
    let (e, r6) := next_is_sep C_COMMA r5 in
    let? r7 := (if e then three_dots r6 else POk r6) in
    let? r8 := next_sep_or_err C_RPAREN r7 in
    range_result (range_bound (KW "MIN") st) (range_bound (KW "MAX") en) e consts r8
  else POk ((None, None, false), consts, r1).

Lemma read_integer_eq : forall ts,
  read_integer ts = (let? (consts, r0) := maybe_read_constants Z constant_i64_parser ts in read_integer_rest consts r0).
Proof. reflexivity. Qed.

Lemma read_integer_rest_print : forall consts r sa sb rest,
  range_wf r sa sb -> read_integer_rest consts (print_range r sa sb ++ rest) = POk (r, consts, rest).
Proof.
  intros consts [[lo hi] e] sa sb rest (Ha & Hb & Hq1 & Hq2). unfold read_integer_rest. cbn [print_range app].
  rewrite nis_P. tk. rewrite <- app_assoc. cbn [app]. rewrite ext_close.
  rewrite (range_bound_denotes _ sa lo) by (reflexivity || exact Ha).
  rewrite (range_bound_denotes _ sb hi) by (reflexivity || exact Hb). unfold range_result.
  destruct lo as [[[|p|p] | r]|]; destruct hi as [[z' | r']|]; try reflexivity.
  - exfalso. apply Hq1. split; reflexivity.
  - destruct (z' =? I64_MAX_Z)%Z eqn:E; [|reflexivity]. apply Z.eqb_eq in E. subst z'.
    exfalso. apply Hq2. split; reflexivity.
Qed.

Section ConstantsProofs.
  Variable V : Type.
  Variable parser : token -> pres V.

  (* Print.const_ok with the value type explicit (convertible): wf_sty is written with const_ok, the lemmas with item_ok *)
  Definition item_ok (it : str * str * V) : Prop := parser (T (snd (fst it))) = POk (snd it).

  Lemma read_constant_item : forall it rest, item_ok it ->
    read_constant V parser (print_item it ++ rest) = POk (fst (fst it), snd it, rest).
  Proof.
    intros [[name text] v] rest H. unfold item_ok in H. cbn [fst snd] in H.
    unfold read_constant, print_item. cbn [fst snd]. tk. rewrite H. reflexivity.
  Qed.

  Lemma read_constants_loop_print : forall its fuel acc rest,
    its <> [] -> Forall item_ok its -> (length (print_items its) <= fuel)%nat ->
    read_constants_loop V parser fuel (print_items its ++ P C_RBRACE :: rest) acc
    = POk ((rev acc ++ map item_value its)%list, rest).
  Proof.
    induction its as [|it its IH]; intros fuel acc rest Hne Hok Hf; [congruence|].
    inversion Hok as [|? ? Hit Hrest]; subst.
    destruct fuel as [|fuel]; [destruct its; simpl in Hf; lia|].
    destruct its as [|it2 its'].
    - cbn [print_items read_constants_loop]. rewrite read_constant_item by exact Hit. tk. reflexivity.
    - change (print_items (it :: it2 :: its')) with (print_item it ++ P C_COMMA :: print_items (it2 :: its')).
      cbn [read_constants_loop]. rewrite <- app_assoc. rewrite read_constant_item by exact Hit. tk.
      rewrite IH; [| discriminate | exact Hrest | simpl in Hf |- *; lia].
      cbn [rev map]. rewrite <- app_assoc. reflexivity.
  Qed.

  Theorem maybe_read_constants_print : forall its rest,
    Forall item_ok its ->
    (its = [] -> peek_is_sep C_LBRACE rest = false) ->
    maybe_read_constants V parser (print_constants its ++ rest) = POk (map item_value its, rest).
  Proof.
    intros its rest Hok Hfollow. unfold maybe_read_constants. destruct its as [|it its'].
    - cbn [print_constants app map]. rewrite (nis_no _ _ (Hfollow eq_refl)). reflexivity.
    - unfold print_constants. cbn [app]. rewrite nis_P, <- app_assoc. cbn [app].
      rewrite read_constants_loop_print; [reflexivity | discriminate | exact Hok |].
      rewrite app_length. lia.
  Qed.
End ConstantsProofs.

Theorem read_integer_print : forall (its : list (str * str * Z)) r sa sb rest,
  Forall (item_ok Z constant_i64_parser) its ->
  range_wf r sa sb ->
  read_integer (print_constants its ++ print_range r sa sb ++ rest) = POk (r, map item_value its, rest).
Proof.
  intros its r sa sb rest Hok Hwf. rewrite read_integer_eq.
  rewrite maybe_read_constants_print; [| exact Hok | intros _; destruct r as [[lo hi] e]; reflexivity].
  cbn [pbind]. apply read_integer_rest_print. exact Hwf.
Qed.

(* the quotation mark pattern of literal_of_asn_str *)
Lemma first_char_is : forall c (r : str), (match c :: r with 34 :: _ => true | _ => false end) = (c =? 34).
Proof. intros c r. destruct c as [|p]; [reflexivity|]. do 6 (try (destruct p as [p|p|]; try reflexivity)). Qed.

Lemma ends_with_short : forall s suf, (length s < length suf)%nat -> ends_with s suf = false.
Proof.
  induction s as [|x s IH]; intros suf Hl.
  - destruct suf; [simpl in Hl; lia | reflexivity].
  - cbn [ends_with]. destruct (str_eqb (x :: s) suf) eqn:E.
    + apply str_eqb_eq in E. subst. lia.
    + apply IH. cbn [length] in Hl. lia.
Qed.

(* only the end of the right length can be the suffix *)
Lemma ends_with_suffix : forall a suf suf', length suf = length suf' -> ends_with (a ++ suf) suf' = str_eqb suf suf'.
Proof.
  induction a as [|c a IH]; intros suf suf' Hl; cbn [app].
  - destruct suf as [|x suf]; cbn [ends_with]; destruct (str_eqb _ suf'); try reflexivity.
    apply ends_with_short. cbn [length] in Hl. lia.
  - cbn [ends_with]. destruct (str_eqb (c :: a ++ suf) suf') eqn:E; [|apply IH, Hl].
    apply str_eqb_eq in E. apply (f_equal (@length N)) in E. cbn [length] in E. rewrite app_length in E. lia.
Qed.

Lemma ends_with_split : forall s suf, ends_with s suf = true -> exists a, s = (a ++ suf)%list.
Proof.
  induction s as [|x s IH]; intros suf H; cbn [ends_with] in H;
    (destruct (str_eqb _ suf) eqn:E; [apply str_eqb_eq in E; exists []; exact E|]); [discriminate H|].
  destruct (IH suf H) as [a ->]. exists (x :: a). reflexivity.
Qed.

(* one iteration of the two loops of the type grammar and of read_field, the recursive calls folded: rewriting with
   these equations is much cheaper to check than unfolding the mutual fixpoint in place *)
Lemma components_loop_S : forall f ts acc ext,
  components_loop (S f) ts acc ext =
  (let (b, r) := next_is_sep C_RBRACE ts in
   if b then POk (rev acc, ext, r)
   else
     let (d, r1) := next_is_sep C_DOT r in
     if d then
       let? r2 := next_sep_or_err C_DOT r1 in
       let? r3 := next_sep_or_err C_DOT r2 in
       let ext' := Some (N.of_nat (length acc) - 1) in
       let? (t, r4) := next_or_err r3 in
       if eq_separator t C_COMMA then components_loop f r4 acc ext'
       else if eq_separator t C_RBRACE then POk (rev acc, ext', r4)
       else PErr E_UNEXPECTED_TOKEN (Some t)
     else
       let? (fd, continues, r2) := read_field f r1 in
       if continues then components_loop f r2 (fd :: acc) ext
       else POk (rev (fd :: acc), ext, r2)).
Proof. reflexivity. Qed.

Lemma choice_loop_S : forall f ts acc ext,
  choice_loop (S f) ts acc ext =
  (let? (acc', ext', r) :=
     (match next_if_sep C_DOT ts with
      | POk (marker, r) =>
          match acc with
          | [] => PErr E_INVALID_POSITION_FOR_EXTENSION_MARKER (Some marker)
          | _ :: _ =>
              if negb (is_none_N ext) then PErr E_INVALID_POSITION_FOR_EXTENSION_MARKER (Some marker)
              else
                let? r1 := next_sep_or_err C_DOT r in
                let? r2 := next_sep_or_err C_DOT r1 in
                POk (acc, Some (N.of_nat (length acc) - 1), r2)
          end
      | _ =>
          let? (name, r0) := next_text_or_err ts in
          let? (t, tag, r1) := next_with_opt_tag r0 in
          let? text := into_text_or E_EXPECTED_TEXT t in
          let? (ty0, r2) := read_role_given_text f text r1 in
          POk ((name, tag, ty0) :: acc, ext, r2)
      end) in
   let? (t, r') := next_or_err r in
   let? cont := loop_ctrl t in
   if cont then choice_loop f r' acc' ext' else POk (rev acc', ext', r')).
Proof. reflexivity. Qed.

(* the OPTIONAL / DEFAULT clause of read_field and the token behind it; t1 is the first token after the type *)
Definition field_clause (ty0 : uty) (t1 : token) (r3 : toks)
  : pres (uty * option (lit_or_ref literal) * token * toks) :=
  if eq_text_ic t1 (KW "OPTIONAL") then
    let? (t', r') := next_or_err r3 in POk (TOptional ty0, None, t', r')
  else if eq_text_ic t1 (KW "DEFAULT") then
    let? (d, r') :=
      (match read_literal r3 with
       | POk (v, r') => POk (Lit v, r')
       | PErr k (Some tk) =>
           if (k =? E_UNSUPPORTED_LITERAL) && is_text tk then
             let? (s, r') := next_text_or_err r3 in POk (Ref s, r')
           else PErr k (Some tk)
       | PErr k None => PErr k None
       | PPanic p => PPanic p
       | POutOfFuel => POutOfFuel
       end) in
    let? (t', r'') := next_or_err r' in POk (ty0, Some d, t', r'')
  else POk (ty0, None, t1, r3).

Lemma read_field_S : forall f ts,
  read_field (S f) ts =
  (let? (name, r0) := next_text_or_err ts in
   let? (t, tag, r1) := next_with_opt_tag r0 in
   let? text := into_text_or E_EXPECTED_TEXT t in
   let? (ty0, r2) := read_role_given_text f text r1 in
   let? (t1, r3) := next_or_err r2 in
   let? (ty1, dflt, t2, r4) := field_clause ty0 t1 r3 in
   if eq_separator t2 C_COMMA then POk ((name, (tag, ty1, dflt)), true, r4)
   else if eq_separator t2 C_RBRACE then POk ((name, (tag, ty1, dflt)), false, r4)
   else PErr E_UNEXPECTED_TOKEN (Some t2)).
Proof. reflexivity. Qed.
