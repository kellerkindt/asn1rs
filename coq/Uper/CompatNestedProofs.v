(* C05 at any depth.  [Rconv m W R f] of Uper/Proofs.v says what the reader of type [R] returns on the
   reference encoding of a value of type [W]; it is proved there for a SEQUENCE OF, a CHOICE and a
   SEQUENCE/SET from [Rconv] of their element, alternative and component types.  Here: the relation
   between two versions of a type ([extends_deep]: additions appended at any number of nested nodes, in
   root components and inside open types alike), the value the other version's reader returns
   ([conv_deep]; [None] stands for InvalidChoiceIndex, the answer to a CHOICE alternative / ENUMERATED
   item that reader does not have, wherever it occurs in an encoded position), the induction that puts
   them together ([compat_deep]), and the top-level pairs of Uper/CompatFullProofs.v as instances. *)
From A1 Require Import Base.ListFacts.
From A1 Require Import Uper.Proofs Uper.CompatFullProofs.
Local Open Scope N_scope.

(* a component keeps its kind (and default); the type of a DEFAULT component does not evolve (its
   default value would have to change with it) *)
Definition field_ext (R : ty -> ty -> Prop) (f1 f2 : fkind * ty) : Prop :=
  fst f1 = fst f2 /\ R (snd f1) (snd f2) /\
  match fst f1 with FDef _ => snd f1 = snd f2 | _ => True end.

Inductive extends_deep : ty -> ty -> Prop :=
| ed_refl t : extends_deep t t
| ed_list e1 e2 lo hi ext :
    extends_deep e1 e2 -> extends_deep (TListOf e1 lo hi ext) (TListOf e2 lo hi ext)
| ed_seq fs1 fs2 adds so fc ea :
    (* the components evolve pointwise and, at the same node, additions may be appended *)
    Forall2 (field_ext extends_deep) fs1 fs2 ->
    Forall optk adds -> (adds <> [] -> ea <> None) ->
    extends_deep (TSeq fs1 so fc ea) (TSeq (fs2 ++ adds) so (fc + N.of_nat (length adds)) ea)
| ed_choice a1 a2 more std ext :
    Forall2 extends_deep a1 a2 -> (more <> [] -> ext = true) ->
    extends_deep (TChoice a1 std ext) (TChoice (a2 ++ more) std ext)
| ed_enum vc k std :
    extends_deep (TEnum vc std true) (TEnum (vc + k) std true).

(* option-valued traversals: [None] = an index the reader does not know.  [tr_ov], [tr_list], [tr_vals], [tr_pick]
   are convertible with [conv_ov], [conv_elems], [conv_vals], [conv_pick] of Uper/Proofs.v (same bodies), of which
   the lemmas about [Rconv] speak; the equations after [pad_deep] state [conv_deep] through those *)
Definition tr_ov (f : val -> option val) (ov : option val) : option (option val) :=
  match ov with Some x => option_map Some (f x) | None => Some None end.

Definition tr_vals (tr : ty -> ty -> val -> option val) :=
  fix go (fsW fsR : list (fkind * ty)) (vals : list (option val)) {struct fsW} : option (list (option val)) :=
    match fsW, fsR, vals with
    | (_, tW) :: fsW', (_, tR) :: fsR', ov :: vals' =>
        match tr_ov (tr tW tR) ov with
        | None => None
        | Some o => option_map (cons o) (go fsW' fsR' vals')
        end
    | _, _, _ => Some []
    end.

Fixpoint tr_list (f : val -> option val) (vs : list val) : option (list val) :=
  match vs with
  | [] => Some []
  | x :: r => match f x with None => None | Some y => option_map (cons y) (tr_list f r) end
  end.

Definition tr_pick (tr : ty -> ty -> val -> option val) (x : val) :=
  fix pick (aW aR : list ty) (n : nat) {struct aW} : option val :=
    match aW, aR, n with
    | tW :: _, tR :: _, O => tr tW tR x
    | _ :: rW, _ :: rR, S n' => pick rW rR n'
    | _, _, _ => None
    end.

(* what the reader of type [R] returns for a value written under type [W]: common components are
   translated pointwise, components only the writer has are dropped, components only the reader has
   are absent (DEFAULT: the default); [None] when a CHOICE alternative / ENUMERATED item the reader
   does not have occurs *)
Fixpoint conv_deep (W R : ty) (v : val) {struct W} : option val :=
  match W, R, v with
  | TListOf eW _ _ _, TListOf eR _ _ _, VList vs => option_map VList (tr_list (conv_deep eW eR) vs)
  | TSeq fsW _ _ _, TSeq fsR _ _ _, VSeq vals =>
      option_map (fun l => VSeq (l ++ pad_of (skipn (length fsW) fsR))) (tr_vals conv_deep fsW fsR vals)
  | TChoice aW _ _, TChoice aR _ _, VChoice i x =>
      option_map (VChoice i) (tr_pick conv_deep x aW aR (N.to_nat i))
  | TEnum _ _ _, TEnum vcR _ _, VEnum i => if i <? vcR then Some v else None
  | _, _, _ => Some v
  end.

(* backward: a V2 value seen by the V1 reader *)
Definition forget_deep (V1 V2 : ty) (v : val) : option val := conv_deep V2 V1 v.

(* forward: a V1 value seen by the V2 reader (total) *)
Definition pad_vals (f : ty -> ty -> val -> val) :=
  fix go (fs1 fs2 : list (fkind * ty)) (vals : list (option val)) : list (option val) :=
    match fs1, fs2, vals with
    | (_, t1) :: fs1', (_, t2) :: fs2', ov :: vals' => option_map (f t1 t2) ov :: go fs1' fs2' vals'
    | _, _, _ => []
    end.
Definition pad_pick (f : ty -> ty -> val -> val) (x : val) :=
  fix pick (a1 a2 : list ty) (n : nat) : val :=
    match a1, a2, n with
    | t1 :: _, t2 :: _, O => f t1 t2 x
    | _ :: r1, _ :: r2, S n' => pick r1 r2 n'
    | _, _, _ => x
    end.
Fixpoint pad_deep (V1 V2 : ty) (v : val) {struct V1} : val :=
  match V1, V2, v with
  | TListOf e1 _ _ _, TListOf e2 _ _ _, VList vs => VList (map (pad_deep e1 e2) vs)
  | TSeq fs1 _ _ _, TSeq fs2 _ _ _, VSeq vals =>
      VSeq (pad_vals pad_deep fs1 fs2 vals ++ pad_of (skipn (length fs1) fs2))
  | TChoice a1 _ _, TChoice a2 _ _, VChoice i x => VChoice i (pad_pick pad_deep x a1 a2 (N.to_nat i))
  | _, _, _ => v
  end.

Lemma conv_deep_list_eq eW lo hi ext eR lo' hi' ext' :
  conv_deep (TListOf eW lo hi ext) (TListOf eR lo' hi' ext') = conv_list (conv_deep eW eR).
Proof. reflexivity. Qed.
Lemma conv_deep_seq_eq fsW so fc ea fsR so' fc' ea' vals :
  conv_deep (TSeq fsW so fc ea) (TSeq fsR so' fc' ea') (VSeq vals) =
  option_map (fun l => VSeq (l ++ pad_of (skipn (length fsW) fsR))) (conv_vals conv_deep fsW fsR vals).
Proof. reflexivity. Qed.
Lemma conv_deep_choice_eq aW std ext aR std' ext' :
  conv_deep (TChoice aW std ext) (TChoice aR std' ext') = conv_choice conv_deep aW aR.
Proof. reflexivity. Qed.
Lemma conv_deep_enum_eq vcW std ext vcR std' ext' :
  conv_deep (TEnum vcW std ext) (TEnum vcR std' ext') = conv_enum vcR.
Proof. reflexivity. Qed.

Lemma pad_vals_cons f k1 t1 fs1 k2 t2 fs2 ov vals :
  pad_vals f ((k1, t1) :: fs1) ((k2, t2) :: fs2) (ov :: vals) = option_map (f t1 t2) ov :: pad_vals f fs1 fs2 vals.
Proof. reflexivity. Qed.

Lemma pad_vals_id f fs :
  Forall (fun g => forall x, wf_val (snd g) x -> f (snd g) (snd g) x = x) fs ->
  forall more vals, all_wf_vals fs vals -> pad_vals f fs (fs ++ more) vals = vals.
Proof.
  induction 1 as [|[k ft] fs Hf _ IH]; intros more [|ov vals] Hv; try contradiction Hv; [reflexivity|].
  cbn [all_wf_vals] in Hv. destruct Hv as [Hv1 Hv]. cbn [app]. rewrite pad_vals_cons, (IH more vals Hv).
  cbn [snd] in Hf. destruct ov as [x|]; cbn [option_map]; [rewrite (Hf x Hv1)|]; reflexivity.
Qed.

Lemma pad_pick_id f alts :
  Forall (fun a => forall x, wf_val a x -> f a a x = x) alts ->
  forall more x n, pick_wf x alts n -> pad_pick f x alts (alts ++ more) n = x.
Proof.
  induction 1 as [|a alts Ha _ IH]; intros more x [|n] Hv; cbn [pick_wf] in Hv; try contradiction Hv;
    cbn [app pad_pick].
  - apply Ha, Hv.
  - apply IH, Hv.
Qed.

Lemma conv_deep_refl : forall t v, wf_val t v -> conv_deep t t v = Some v.
Proof.
  induction t as [| |k lo hi ext|c lo hi ext|lo hi ext|lo hi ext|e lo hi ext IH|fs so fc ea IH|alts std ext IH|vc std ext]
    using ty_ind'; intros v Hv; destruct v as [b| |z|cs|bytes|bytes n|vs|vals|i x|i]; try contradiction Hv; try reflexivity.
  - cbn [wf_val] in Hv. destruct Hv as [_ Hv]. change (all_wf_val e vs) in Hv. rewrite conv_deep_list_eq. cbn [conv_list].
    assert (E : conv_elems (conv_deep e e) vs = Some vs).
    { induction vs as [|x vs IHl]; [reflexivity|]. cbn [all_wf_val] in Hv. destruct Hv as [Hx Hv].
      cbn [conv_elems]. rewrite (IH x Hx), (IHl Hv). reflexivity. }
    rewrite E. reflexivity.
  - change (all_wf_vals fs vals) in Hv. rewrite conv_deep_seq_eq, skipn_all. cbn [pad_of map].
    pose proof (all_wf_vals_length fs vals Hv) as Hl. rewrite <- (app_nil_r fs) in Hv.
    rewrite (conv_vals_id conv_deep fs IH [] vals Hv), firstn_all2 by lia. cbn [option_map].
    rewrite app_nil_r. reflexivity.
  - change (pick_wf x alts (N.to_nat i)) in Hv. rewrite conv_deep_choice_eq. cbn [conv_choice].
    pose proof (pick_wf_lt x alts _ Hv) as Hl. rewrite <- (app_nil_r alts) in Hv.
    pose proof (conv_pick_id conv_deep alts IH [] x _ Hl Hv) as E. rewrite app_nil_r in E.
    rewrite E. reflexivity.
  - cbn [wf_val] in Hv. cbn [conv_deep]. destruct (N.ltb_spec i vc); [reflexivity|lia].
Qed.

Lemma pad_deep_refl : forall t v, wf_val t v -> pad_deep t t v = v.
Proof.
  induction t as [| |k lo hi ext|c lo hi ext|lo hi ext|lo hi ext|e lo hi ext IH|fs so fc ea IH|alts std ext IH|vc std ext]
    using ty_ind'; intros v Hv; destruct v as [b| |z|cs|bytes|bytes n|vs|vals|i x|i]; try contradiction Hv; try reflexivity.
  - cbn [wf_val] in Hv. destruct Hv as [_ Hv]. change (all_wf_val e vs) in Hv. cbn [pad_deep]. f_equal.
    induction vs as [|x vs IHl]; [reflexivity|]. cbn [all_wf_val] in Hv. destruct Hv as [Hx Hv].
    cbn [map]. rewrite (IH x Hx), (IHl Hv). reflexivity.
  - change (all_wf_vals fs vals) in Hv. cbn [pad_deep]. rewrite skipn_all. cbn [pad_of map].
    pose proof (pad_vals_id pad_deep fs IH [] vals Hv) as E. rewrite app_nil_r in E.
    rewrite E, app_nil_r. reflexivity.
  - change (pick_wf x alts (N.to_nat i)) in Hv. cbn [pad_deep].
    pose proof (pad_pick_id pad_deep alts IH [] x _ Hv) as E. rewrite app_nil_r in E.
    rewrite E. reflexivity.
Qed.

Lemma conv_vals_app_r tr : forall fsW fsR rx vals, length fsW = length fsR ->
  conv_vals tr fsW (fsR ++ rx) vals = conv_vals tr fsW fsR vals.
Proof.
  induction fsW as [|[kW tW] fsW IH]; intros [|[kR tR] fsR] rx vals Hl; try discriminate Hl; [reflexivity|].
  destruct vals as [|ov vals]; [reflexivity|]. cbn [app]. rewrite !conv_vals_cons.
  cbn [length] in Hl. rewrite IH by lia. reflexivity.
Qed.
Lemma conv_vals_app_l tr : forall fsW fsR wx vals, length fsW = length fsR ->
  conv_vals tr (fsW ++ wx) fsR vals = conv_vals tr fsW fsR vals.
Proof.
  induction fsW as [|[kW tW] fsW IH]; intros [|[kR tR] fsR] wx vals Hl; try discriminate Hl.
  - cbn [app]. destruct wx as [|[? ?] ?]; reflexivity.
  - destruct vals as [|ov vals]; [reflexivity|]. cbn [app]. rewrite !conv_vals_cons.
    cbn [length] in Hl. rewrite IH by lia. reflexivity.
Qed.

Lemma ed_is_choice t1 t2 : extends_deep t1 t2 -> is_choice t2 = is_choice t1.
Proof. destruct 1; reflexivity. Qed.

Lemma compat_refl m t : wf_ty t -> Rconv m t t (conv_deep t t).
Proof.
  intros Hty v bs He Hv Hk s tail Hs. rewrite (conv_deep_refl t v Hv).
  apply (read_enc m t Hty v bs He Hv Hk s tail Hs).
Qed.

(* both directions at once: the reader of the newer type on data of the older, and the reader of the
   older type on data of the newer *)
Definition compat_both (m : mode) (V1 V2 : ty) : Prop :=
  Rconv m V1 V2 (conv_deep V1 V2) /\ Rconv m V2 V1 (conv_deep V2 V1).

(* components of the two versions at the same position, given the theorem below for the types of the
   older version's components *)
Lemma comp_ok_ext m : forall fs1 fs2,
  Forall (fun f => forall V2, extends_deep (snd f) V2 -> wf_ty (snd f) -> wf_ty V2 -> compat_both m (snd f) V2) fs1 ->
  Forall2 (field_ext extends_deep) fs1 fs2 -> all_wf_fields fs1 -> all_wf_fields fs2 ->
  Forall2 (comp_ok m conv_deep) fs1 fs2 /\ Forall2 (comp_ok m conv_deep) fs2 fs1.
Proof.
  intros fs1 fs2 IH F. induction F as [|[k t1] [k2 t2] fs1 fs2 (Q1 & Q2 & Q3) F IHF]; intros H1 H2; [split; constructor|].
  apply Forall_cons_iff in IH. destruct IH as [Hi IH]. cbn [fst snd] in Hi, Q1, Q2, Q3. subst k2.
  cbn [all_wf_fields] in H1, H2. destruct H1 as (W1 & D1 & H1). destruct H2 as (W2 & _ & H2).
  destruct (Hi t2 Q2 W1 W2) as [A B]. destruct (IHF IH H1 H2) as [F1 F2].
  pose proof (ed_is_choice t1 t2 Q2) as Hc.
  (* a DEFAULT component has the same type on both sides, and its default value reads as itself *)
  assert (Hd : match k with FDef d => conv_deep t1 t2 d = Some d /\ conv_deep t2 t1 d = Some d | _ => True end).
  { destruct k as [| |d]; try exact I. subst t2. split; apply conv_deep_refl, D1. }
  split; (constructor; [|assumption]); unfold comp_ok; cbn [fst snd].
  - repeat split; [exact Hc|exact A|]. destruct k; try exact I. apply Hd.
  - repeat split; [symmetry; exact Hc|exact B|]. destruct k; try exact I. apply Hd.
Qed.

(* a SEQUENCE / SET whose common components are related as above; one side may have more components *)
Lemma compat_seq m cW cR wx rx so fcW fcR ea :
  wf_ty (TSeq (cW ++ wx) so fcW ea) -> wf_ty (TSeq (cR ++ rx) so fcR ea) ->
  Forall2 (comp_ok m conv_deep) cW cR -> Forall optk rx -> Forall optk wx ->
  (rx = [] \/ wx = []) -> (wx ++ rx <> [] -> ea <> None) ->
  Rconv m (TSeq (cW ++ wx) so fcW ea) (TSeq (cR ++ rx) so fcR ea)
        (conv_deep (TSeq (cW ++ wx) so fcW ea) (TSeq (cR ++ rx) so fcR ea)).
Proof.
  intros HW HR FC Fr Fw D Hn. pose proof (Forall2_length _ _ _ FC) as Hl.
  apply (Rconv_ext m _ _ (conv_seq conv_deep cW cR rx)); [|apply R_seq_conv; assumption].
  intros v _. destruct v as [| | | | | | |vals| |]; try reflexivity. rewrite conv_deep_seq_eq. cbn [conv_seq].
  destruct D as [-> | ->]; rewrite !app_nil_r.
  - rewrite conv_vals_app_l, skipn_all2 by (rewrite ?app_length; lia). reflexivity.
  - rewrite conv_vals_app_r, skipn_app_exact by exact Hl. reflexivity.
Qed.

Lemma Forall2_nth_error {A B} (R : A -> B -> Prop) l l' : Forall2 R l l' ->
  forall n a b, nth_error l n = Some a -> nth_error l' n = Some b -> R a b.
Proof.
  induction 1 as [|x y l l' Hxy F IH]; intros [|n] a b Ha Hb; cbn [nth_error] in *; try discriminate.
  - injection Ha as <-. injection Hb as <-. exact Hxy.
  - eapply IH; eassumption.
Qed.
Lemma nth_error_app_both {A B} (l1 : list A) (l2 l' : list B) n a b : length l1 = length l2 ->
  nth_error l1 n = Some a -> nth_error (l2 ++ l') n = Some b -> nth_error l2 n = Some b.
Proof.
  intros L Ha Hb. rewrite nth_error_app1 in Hb; [exact Hb|]. rewrite <- L. apply nth_error_Some. congruence.
Qed.

Theorem compat_deep m : forall V1 V2, extends_deep V1 V2 -> wf_ty V1 -> wf_ty V2 -> compat_both m V1 V2.
Proof.
  induction V1 as [| |k lo hi ext|c lo hi ext|lo hi ext|lo hi ext|e lo hi ext IH|fs so fc ea IH|alts std ext IH|vc std ext]
    using ty_ind'; intros V2 H H1 H2;
    inversion H as [|? e2 ? ? ? He|? fs2 adds ? ? ? F2 Fo Hne|? a2 more ? ? F2 Hne|]; subst; try (split; apply compat_refl; exact H1).
  - cbn [wf_ty] in H1, H2. destruct (IH e2 He) as [A B]; [tauto|tauto|].
    split; rewrite conv_deep_list_eq; apply R_list; assumption.
  - (* SEQUENCE / SET: the older version has fs, the newer fs2 ++ adds *)
    destruct (proj1 (wf_ty_seq _ _ _ _) H1) as [_ Wtf]. destruct (proj1 (wf_ty_seq _ _ _ _) H2) as [_ Rtf].
    apply all_wf_fields_app in Rtf. destruct Rtf as [Rtf _].
    destruct (comp_ok_ext m fs fs2 IH F2 Wtf Rtf) as [FC1 FC2].
    rewrite <- (app_nil_r fs) in H1 |- *.
    split.
    + apply compat_seq; [exact H1|exact H2|exact FC1|exact Fo|apply Forall_nil|right; reflexivity|exact Hne].
    + apply compat_seq; [exact H2|exact H1|exact FC2|apply Forall_nil|exact Fo|left; reflexivity|].
      rewrite app_nil_r. exact Hne.
  - (* CHOICE: the older version has alts, the newer a2 ++ more *)
    pose proof (Forall2_length _ _ _ F2) as Hl.
    assert (G : forall n t1 t2, nth_error alts n = Some t1 -> nth_error a2 n = Some t2 -> compat_both m t1 t2).
    { cbn [wf_ty] in H1, H2. destruct H1 as (_ & _ & _ & _ & WA). destruct H2 as (_ & _ & _ & _ & RA).
      apply all_wf_ty_Forall, Forall_app in RA. destruct RA as [RA _]. rewrite Forall_forall in IH, RA.
      intros n t1 t2 Hn1 Hn2.
      apply (IH t1 (nth_error_In _ _ Hn1) t2 (Forall2_nth_error _ _ _ F2 n t1 t2 Hn1 Hn2)
                (all_wf_ty_nth _ WA n t1 Hn1) (RA t2 (nth_error_In _ _ Hn2))). }
    split; rewrite conv_deep_choice_eq.
    + apply R_choice; [exact H1|exact H2|]. intros n tW tR HnW HnR.
      exact (proj1 (G n tW tR HnW (nth_error_app_both _ _ _ _ _ _ Hl HnW HnR))).
    + apply R_choice; [exact H2|exact H1|]. intros n tW tR HnW HnR.
      exact (proj2 (G n tR tW HnR (nth_error_app_both _ _ _ _ _ _ Hl HnR HnW))).
  - split; rewrite conv_deep_enum_eq; apply R_enum; assumption.
Qed.

(* forward: the translation is total *)
Lemma conv_pad : forall V1 V2 v, extends_deep V1 V2 -> wf_val V1 v ->
  conv_deep V1 V2 v = Some (pad_deep V1 V2 v).
Proof.
  induction V1 as [| |k lo hi ext|c lo hi ext|lo hi ext|lo hi ext|e lo hi ext IH|fs so fc ea IH|alts std ext IH|vc std ext]
    using ty_ind'; intros V2 v H Hv;
    inversion H as [|? e2 ? ? ? He|? fs2 adds ? ? ? F2 Fo Hne|? a2 more ? ? F2 Hne|]; subst;
    try (rewrite conv_deep_refl, pad_deep_refl by exact Hv; reflexivity);
    destruct v as [b| |z|cs|bytes|bytes n|vs|vals|i x|i]; try contradiction Hv.
  - cbn [wf_val] in Hv. destruct Hv as [_ Hv]. change (all_wf_val e vs) in Hv. rewrite conv_deep_list_eq. cbn [conv_list pad_deep].
    assert (E : conv_elems (conv_deep e e2) vs = Some (map (pad_deep e e2) vs)).
    { induction vs as [|x vs IHl]; [reflexivity|]. cbn [all_wf_val] in Hv. destruct Hv as [Hx Hv].
      cbn [conv_elems map]. rewrite (IH e2 x He Hx), (IHl Hv). reflexivity. }
    rewrite E. reflexivity.
  - change (all_wf_vals fs vals) in Hv. rewrite conv_deep_seq_eq. cbn [pad_deep].
    assert (E : conv_vals conv_deep fs (fs2 ++ adds) vals = Some (pad_vals pad_deep fs (fs2 ++ adds) vals)).
    { clear H. revert vals Hv.
      induction F2 as [|[k1 t1] [k2 t2] fs1 fs2' (Q1 & Q2 & Q3) F IHl]; intros vals Hv.
      - destruct vals; [reflexivity|contradiction Hv].
      - apply Forall_cons_iff in IH. destruct IH as [Hi IH].
        destruct vals as [|ov vals]; [contradiction Hv|]. cbn [all_wf_vals] in Hv. destruct Hv as [Hv1 Hv].
        cbn [app]. rewrite conv_vals_cons, pad_vals_cons, (IHl IH vals Hv). cbn [snd] in Hi, Q2.
        destruct ov as [x|]; cbn [conv_ov option_map]; [rewrite (Hi t2 x Q2 Hv1)|]; reflexivity. }
    rewrite E. reflexivity.
  - change (pick_wf x alts (N.to_nat i)) in Hv. rewrite conv_deep_choice_eq. cbn [conv_choice pad_deep].
    assert (E : conv_pick conv_deep x alts (a2 ++ more) (N.to_nat i) = Some (pad_pick pad_deep x alts (a2 ++ more) (N.to_nat i))).
    { clear H. revert Hv. generalize (N.to_nat i) as n.
      induction F2 as [|t1 t2 a1 a2' Q F IHl]; intros [|n] Hv; cbn [pick_wf] in Hv; try contradiction Hv;
        apply Forall_cons_iff in IH; destruct IH as [Hi IH]; cbn [app conv_pick pad_pick].
      - apply Hi; assumption.
      - apply IHl; assumption. }
    rewrite E. reflexivity.
  - cbn [wf_val] in Hv. cbn [conv_deep pad_deep]. destruct (N.ltb_spec i (vc + k)); [reflexivity|lia].
Qed.

(* the value, read positionally against the older type [R], contains a CHOICE index / ENUMERATED item
   beyond the ones [R] has *)
Fixpoint has_unknown (R : ty) (v : val) {struct R} : Prop :=
  match R, v with
  | TListOf e _ _ _, VList vs =>
      (fix any (vs : list val) : Prop :=
         match vs with [] => False | x :: r => has_unknown e x \/ any r end) vs
  | TSeq fs _ _ _, VSeq vals =>
      (fix any (fs : list (fkind * ty)) (vals : list (option val)) : Prop :=
         match fs, vals with
         | (_, t) :: fs', ov :: vals' =>
             match ov with Some x => has_unknown t x | None => False end \/ any fs' vals'
         | _, _ => False
         end) fs vals
  | TChoice alts _ _, VChoice i x =>
      N.of_nat (length alts) <= i \/
      (fix pick (alts : list ty) (n : nat) : Prop :=
         match alts, n with
         | a :: _, O => has_unknown a x
         | _ :: r, S n' => pick r n'
         | [], _ => False
         end) alts (N.to_nat i)
  | TEnum vc _ _, VEnum i => vc <= i
  | _, _ => False
  end.

Lemma option_map_none {A B} (f : A -> B) o : option_map f o = None -> o = None.
Proof. destruct o; [discriminate|reflexivity]. Qed.

(* backward: the translation fails only on an alternative / item the reader's type does not have *)
Lemma conv_none_unknown : forall W R v, wf_val W v -> conv_deep W R v = None -> has_unknown R v.
Proof.
  induction W as [| |k lo hi ext|c lo hi ext|lo hi ext|lo hi ext|e lo hi ext IH|fs so fc ea IH|alts std ext IH|vc std ext]
    using ty_ind'; intros R v Hv Hn;
    destruct v as [b| |z|cs|bytes|bytes n|vs|vals|i x|i]; try contradiction Hv;
    destruct R as [| | | | | |eR ? ? ?|fsR ? ? ?|aR ? ?|vcR ? ?]; try discriminate Hn.
  - cbn [wf_val] in Hv. destruct Hv as [_ Hv]. change (all_wf_val e vs) in Hv.
    rewrite conv_deep_list_eq in Hn. apply option_map_none in Hn.
    induction vs as [|x vs IHl]; [discriminate Hn|]. cbn [all_wf_val] in Hv. destruct Hv as [Hx Hv].
    cbn [conv_elems] in Hn. cbn [has_unknown].
    destruct (conv_deep e eR x) eqn:Ex; [|left; apply (IH eR x Hx Ex)].
    right. exact (IHl Hv (option_map_none _ _ Hn)).
  - change (all_wf_vals fs vals) in Hv. rewrite conv_deep_seq_eq in Hn. apply option_map_none in Hn.
    revert fsR vals Hv Hn. induction IH as [|[kW tW] fsW Hf _ IHl]; intros fsR vals Hv Hn; [discriminate Hn|].
    destruct fsR as [|[kR tR] fsR]; [discriminate Hn|]. destruct vals as [|ov vals]; [discriminate Hn|].
    cbn [all_wf_vals] in Hv. destruct Hv as [Hv1 Hv]. rewrite conv_vals_cons in Hn. cbn [has_unknown snd] in *.
    destruct ov as [x|]; cbn [conv_ov] in Hn.
    + destruct (conv_deep tW tR x) eqn:Ex; [|left; apply (Hf tR x Hv1 Ex)]. cbn [option_map] in Hn.
      right. exact (IHl fsR vals Hv (option_map_none _ _ Hn)).
    + right. exact (IHl fsR vals Hv (option_map_none _ _ Hn)).
  - cbn [wf_val] in Hv. rewrite conv_deep_choice_eq in Hn. apply option_map_none in Hn.
    cbn [has_unknown]. rewrite fix_pick_nth in Hv |- *. rewrite conv_pick_nth in Hn.
    destruct (nth_error alts (N.to_nat i)) as [tW|] eqn:EW; [|contradiction Hv].
    destruct (nth_error aR (N.to_nat i)) as [tR|] eqn:ER; [right|left; apply nth_error_None in ER; lia].
    exact (proj1 (Forall_forall _ _) IH tW (nth_error_In _ _ EW) tR x Hv Hn).
  - cbn [conv_deep] in Hn. cbn [has_unknown]. destruct (N.ltb_spec i vcR); [discriminate Hn|assumption].
Qed.

Theorem forward_deep m V1 V2 v bs s tail :
  extends_deep V1 V2 -> wf_ty V1 -> wf_ty V2 -> wf_val V1 v -> ~ Known_C01 m V1 v ->
  enc m V1 v = Ok bs -> rsrc s bs tail ->
  read_ty m V2 (r_of_src s) = Ok (pad_deep V1 V2 v, r_of_src (src_adv s (bl bs) tail)).
Proof.
  intros Hext H1 H2 Hv Hk He Hs.
  rewrite (proj1 (compat_deep m V1 V2 Hext H1 H2) v bs He Hv Hk s tail Hs), (conv_pad V1 V2 v Hext Hv). reflexivity.
Qed.

Theorem backward_deep m V1 V2 v bs s tail :
  extends_deep V1 V2 -> wf_ty V1 -> wf_ty V2 -> wf_val V2 v -> ~ Known_C01 m V2 v ->
  enc m V2 v = Ok bs -> rsrc s bs tail ->
  (forall v', forget_deep V1 V2 v = Some v' ->
     read_ty m V1 (r_of_src s) = Ok (v', r_of_src (src_adv s (bl bs) tail))) /\
  (forget_deep V1 V2 v = None ->
     read_ty m V1 (r_of_src s) = Err E_INVALID_CHOICE /\ has_unknown V1 v) /\
  (~ has_unknown V1 v -> exists v', forget_deep V1 V2 v = Some v').
Proof.
  intros Hext H1 H2 Hv Hk He Hs. unfold forget_deep.
  pose proof (proj2 (compat_deep m V1 V2 Hext H1 H2) v bs He Hv Hk s tail Hs) as Q.
  split; [|split].
  - intros v' E. rewrite E in Q. exact Q.
  - intros E. rewrite E in Q. split; [exact Q|]. apply (conv_none_unknown V2 V1 v Hv E).
  - intros Hu. destruct (conv_deep V2 V1 v) as [v'|] eqn:E; [exists v'; reflexivity|].
    exfalso. apply Hu. apply (conv_none_unknown V2 V1 v Hv E).
Qed.

(* the top-level pairs of Uper/CompatFullProofs.v are instances *)
Lemma Forall2_field_refl : forall fs, Forall2 (field_ext extends_deep) fs fs.
Proof.
  induction fs as [|[k t] fs IH]; constructor; [|exact IH].
  unfold field_ext. cbn [fst snd]. repeat split; [apply ed_refl|destruct k; reflexivity || exact I].
Qed.
Lemma Forall2_ed_refl : forall l, Forall2 extends_deep l l.
Proof. induction l; constructor; [apply ed_refl|assumption]. Qed.

Lemma extends_is_deep V1 V2 : extends V1 V2 -> extends_deep V1 V2 /\ wf_ty V1 /\ wf_ty V2.
Proof.
  intros [fs adds so fc ea Hty1 Hty2 Fo|alts more std Hty1 Hty2|vc k std Hty1 Hty2]; (split; [|split; assumption]).
  - apply ed_seq; [apply Forall2_field_refl|exact Fo|discriminate].
  - apply ed_choice; [apply Forall2_ed_refl|reflexivity].
  - apply ed_enum.
Qed.

(* on such a pair the translations at any depth are [pad_absent] and [project_root] *)
Lemma pad_deep_extends V1 V2 v : extends V1 V2 -> wf_val V1 v -> pad_deep V1 V2 v = pad_absent V1 V2 v.
Proof.
  intros [fs adds so fc ea _ _ _|alts more std _ _|vc k std _ _] Hv;
    destruct v as [b| |z|cs|bytes|bytes n|vs|vals|i x|i]; try contradiction Hv; try reflexivity.
  - change (all_wf_vals fs vals) in Hv. cbn [pad_deep pad_absent]. do 2 f_equal.
    apply pad_vals_id; [|exact Hv]. apply Forall_forall. intros f _ x. apply pad_deep_refl.
  - change (pick_wf x alts (N.to_nat i)) in Hv. cbn [pad_deep pad_absent]. f_equal.
    apply pad_pick_id; [|exact Hv]. apply Forall_forall. intros a _ y. apply pad_deep_refl.
Qed.

Lemma conv_deep_extends V1 V2 v : extends V1 V2 -> wf_val V2 v ->
  (known_index V1 v -> conv_deep V2 V1 v = Some (project_root V1 V2 v)) /\
  (~ known_index V1 v -> conv_deep V2 V1 v = None).
Proof.
  intros [fs adds so fc ea _ _ _|alts more std _ _|vc k std _ _] Hv;
    destruct v as [b| |z|cs|bytes|bytes n|vs|vals|i x|i]; try contradiction Hv;
    cbn [known_index project_root].
  - change (all_wf_vals (fs ++ adds) vals) in Hv. split; [intros _|intros C; contradiction C; exact I].
    rewrite conv_deep_seq_eq, skipn_all2 by (rewrite app_length; lia). rewrite conv_vals_app_l by reflexivity.
    rewrite (conv_vals_id conv_deep fs) with (more := adds); [|apply Forall_forall; intros f _ y; apply conv_deep_refl|exact Hv].
    cbn [option_map pad_of map]. rewrite app_nil_r. reflexivity.
  - change (pick_wf x (alts ++ more) (N.to_nat i)) in Hv. rewrite conv_deep_choice_eq. cbn [conv_choice]. split; intros Hi.
    + rewrite conv_pick_id; [reflexivity|apply Forall_forall; intros a _ y; apply conv_deep_refl|lia|exact Hv].
    + rewrite conv_pick_beyond by lia. reflexivity.
  - cbn [wf_val] in Hv. cbn [conv_deep]. split; intros Hi; destruct (N.ltb_spec i vc); try reflexivity; contradiction || lia.
Qed.

Lemma Forall2_trans_on {A} (R : A -> A -> Prop) (P : A -> Prop) :
  (forall a b c, P a -> R a b -> R b c -> R a c) ->
  forall l1 l2 l3, Forall P l1 -> Forall2 R l1 l2 -> Forall2 R l2 l3 -> Forall2 R l1 l3.
Proof.
  intros HT l1 l2 l3 F F12. revert l3. induction F12 as [|a b l1 l2 Hab F12 IH]; intros l3 F23.
  - inversion F23. constructor.
  - inversion F23 as [|b' c l2' l3' Hbc F23']; subst. apply Forall_cons_iff in F. destruct F as [Pa F].
    constructor; [eapply HT; eassumption|apply IH; assumption].
Qed.

Lemma field_ext_optk : forall l l', Forall2 (field_ext extends_deep) l l' -> Forall optk l -> Forall optk l'.
Proof.
  induction 1 as [|a b l l' (Q1 & _) F IH]; intros Fo; [constructor|].
  apply Forall_cons_iff in Fo. destruct Fo as [Oa Fo]. constructor; [|apply IH; exact Fo].
  unfold optk in *. rewrite <- Q1. exact Oa.
Qed.

(* V1 -> V2 -> V3: the additions accumulate at every node *)
Theorem extends_deep_trans : forall A B C, extends_deep A B -> extends_deep B C -> extends_deep A C.
Proof.
  induction A as [| |k lo hi ext|c lo hi ext|lo hi ext|lo hi ext|e lo hi ext IH|fs so fc ea IH|alts std ext IH|vc std ext]
    using ty_ind'; intros B C H1 H2;
    inversion H1 as [|? e2 ? ? ? He|? fs2 adds ? ? ? F12 Fo Hne|? a2 more ? ? F12 Hne|]; subst; try exact H2.
  - inversion H2; subst; [exact H1|]. apply ed_list. eapply IH; eassumption.
  - inversion H2 as [|?|fs1' fs2' adds' so' fc' ea' F23 Fo' Hne'| |]; subst; [exact H1|].
    (* B has fs2 ++ adds, which evolve in C to fa ++ fb: from A to C the additions are fb ++ adds' *)
    apply Forall2_app_inv_l in F23. destruct F23 as (fa & fb & Fa & Fb & ->).
    pose proof (Forall2_length _ _ _ Fb) as Lb.
    replace (TSeq ((fa ++ fb) ++ adds') so (fc + N.of_nat (length adds) + N.of_nat (length adds')) ea)
      with (TSeq (fa ++ (fb ++ adds')) so (fc + N.of_nat (length (fb ++ adds'))) ea)
      by (rewrite app_assoc, app_length; f_equal; lia).
    apply ed_seq.
    + refine (Forall2_trans_on _ _ _ fs fs2 fa IH F12 Fa).
      intros a b c Pa (Q1 & Q2 & Q3) (S1 & S2 & S3). unfold field_ext. repeat split.
      * congruence.
      * eapply Pa; eassumption.
      * destruct (fst a) eqn:Ea; try exact I. rewrite <- Q1 in S3. rewrite Q3. exact S3.
    + apply Forall_app. split; [eapply field_ext_optk; eassumption|exact Fo'].
    + intros Hn. destruct adds as [|x adds]; [|apply Hne; discriminate].
      inversion Fb; subst. apply Hne'. exact Hn.
  - inversion H2 as [| | |a1' a2' more' std' ext' F23 Hne'|]; subst; [exact H1|].
    apply Forall2_app_inv_l in F23. destruct F23 as (ca & cb & Fa & Fb & ->).
    rewrite <- app_assoc. apply ed_choice.
    + refine (Forall2_trans_on _ _ _ alts a2 ca IH F12 Fa). intros a b c Pa Q S. eapply Pa; eassumption.
    + intros Hn. destruct more as [|x more]; [|apply Hne; discriminate].
      inversion Fb; subst. apply Hne'. exact Hn.
  - inversion H2; subst; [exact H1|]. rewrite <- N.add_assoc. apply ed_enum.
Qed.

(* the worked pairs: the evolving type inside a SEQUENCE OF (root component) and inside an extension
   addition (open type) of an outer SEQUENCE at once.
      Outer ::= SEQUENCE { hdr INTEGER(0..255), body SEQUENCE OF Inner, ..., tail Inner OPTIONAL }
      Inner V1 ::= SEQUENCE { a BOOLEAN, ... }     Inner V2 ::= SEQUENCE { a BOOLEAN, ..., b OCTET STRING OPTIONAL } *)
Definition exn_inner1 : ty := TSeq [(FReq, TBool)] 0 1 (Some 0).
Definition exn_inner2 : ty := TSeq [(FReq, TBool); (FOpt, TOctets None None false)] 0 2 (Some 0).
Definition exn_outer (inner : ty) : ty :=
  TSeq [(FReq, TInt U8 (Some 0%Z) (Some 255%Z) false); (FReq, TListOf inner None None false); (FOpt, inner)]
       0 3 (Some 1).
Definition exn_V1 : ty := exn_outer exn_inner1.
Definition exn_V2 : ty := exn_outer exn_inner2.
(* V2 data: b present in the first element and in tail, absent in the second element *)
Definition exn_v2 : val :=
  VSeq [Some (VInt 7);
        Some (VList [VSeq [Some (VBool true); Some (VOctets [1; 2; 3])]; VSeq [Some (VBool false); None]]);
        Some (VSeq [Some (VBool true); Some (VOctets [9])])].
Definition exn_v2_seen_by_V1 : val :=
  VSeq [Some (VInt 7); Some (VList [VSeq [Some (VBool true)]; VSeq [Some (VBool false)]]); Some (VSeq [Some (VBool true)])].
Definition exn_v1 : val :=
  VSeq [Some (VInt 200); Some (VList [VSeq [Some (VBool false)]]); Some (VSeq [Some (VBool true)])].
Definition exn_v1_seen_by_V2 : val :=
  VSeq [Some (VInt 200); Some (VList [VSeq [Some (VBool false); None]]); Some (VSeq [Some (VBool true); None])].

(* an ENUMERATED that gained an item, inside a SEQUENCE inside a SEQUENCE OF: the new item makes the
   old reader fail with InvalidChoiceIndex, the old items decode *)
Definition exn_E1 : ty := TListOf (TSeq [(FReq, TEnum 2 2 true); (FReq, TBool)] 0 2 None) None None false.
Definition exn_E2 : ty := TListOf (TSeq [(FReq, TEnum 3 2 true); (FReq, TBool)] 0 2 None) None None false.
Definition exn_e_known : val := VList [VSeq [Some (VEnum 1); Some (VBool true)]; VSeq [Some (VEnum 0); Some (VBool false)]].
Definition exn_e_unknown : val := VList [VSeq [Some (VEnum 1); Some (VBool true)]; VSeq [Some (VEnum 2); Some (VBool false)]].

Lemma exn_inner_extends : extends_deep exn_inner1 exn_inner2.
Proof.
  apply (ed_seq [(FReq, TBool)] [(FReq, TBool)] [(FOpt, TOctets None None false)] 0 1 (Some 0)).
  - apply Forall2_field_refl.
  - repeat constructor.
  - discriminate.
Qed.

Lemma exn_extends : extends_deep exn_V1 exn_V2.
Proof.
  apply (ed_seq [(FReq, TInt U8 (Some 0%Z) (Some 255%Z) false); (FReq, TListOf exn_inner1 None None false); (FOpt, exn_inner1)]
                [(FReq, TInt U8 (Some 0%Z) (Some 255%Z) false); (FReq, TListOf exn_inner2 None None false); (FOpt, exn_inner2)]
                [] 0 3 (Some 1)).
  - repeat constructor; cbn [fst snd]; try reflexivity; try apply ed_refl; try apply ed_list; apply exn_inner_extends.
  - constructor.
  - intros C. contradiction C. reflexivity.
Qed.

Lemma exn_E_extends : extends_deep exn_E1 exn_E2.
Proof.
  apply ed_list.
  apply (ed_seq [(FReq, TEnum 2 2 true); (FReq, TBool)] [(FReq, TEnum 3 2 true); (FReq, TBool)] [] 0 2 None).
  - repeat constructor; cbn [fst snd]; try reflexivity; try apply ed_refl. apply (ed_enum 2 1 2).
  - constructor.
  - intros C. contradiction C. reflexivity.
Qed.

Ltac exn_unfold :=
  unfold exn_V1, exn_V2, exn_outer, exn_inner1, exn_inner2, exn_v1, exn_v2, exn_E1, exn_E2, exn_e_known, exn_e_unknown in *.
