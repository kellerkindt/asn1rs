(* Proofs that the byte-level model of slice.rs/buffer.rs (Bits/Copy.v) meets the naive
   bit-vector specification (Bits/Naive.v). *)
From A1 Require Import Base.ListFacts Bits.Naive Bits.Copy.
Local Open Scope N_scope.

(* [byteb] of Base/Word.v as a proposition *)
Definition byte (b : N) : Prop := b < 256.

Definition nrange (k : nat) : list N := map N.of_nat (seq 0 k).
Lemma sweep (P : N -> bool) k :
  forallb P (nrange k) = true -> forall n, n < N.of_nat k -> P n = true.
Proof. intros H n Hn. rewrite forallb_forall in H. apply H, nrange_in, Hn. Qed.

Lemma byte_high b i : b < 256 -> 8 <= i -> N.testbit b i = false.
Proof.
  intros Hb Hi. rewrite <- (N.mod_small b (2 ^ 8)) by exact Hb.
  apply N.mod_pow2_bits_high. exact Hi.
Qed.

Lemma byte_of_high_zero b : (forall i, 8 <= i -> N.testbit b i = false) -> b < 256.
Proof.
  intros H. replace b with (b mod 2 ^ 8); [apply N.mod_lt; discriminate|].
  apply N.bits_inj. intros i. destruct (N.lt_ge_cases i 8) as [Hi|Hi].
  - apply N.mod_pow2_bits_low. exact Hi.
  - rewrite (H i Hi). apply N.mod_pow2_bits_high. exact Hi.
Qed.

Lemma byte_bits_ext x (f : N -> bool) :
  (forall i, i < 8 -> N.testbit x i = f i) -> byte_bits x = map f [7; 6; 5; 4; 3; 2; 1; 0].
Proof.
  intros H. change (byte_bits x) with (map (N.testbit x) [7; 6; 5; 4; 3; 2; 1; 0]).
  apply map_ext_in. intros i Hi. apply H. cbv [In] in Hi. lia.
Qed.

Lemma test_mask b k : negb (N.land b (2 ^ k) =? 0) = N.testbit b k.
Proof.
  destruct (N.testbit b k) eqn:E.
  - apply negb_true_iff, N.eqb_neq. intros H.
    pose proof (f_equal (fun x => N.testbit x k) H) as C. cbv beta in C.
    rewrite N.land_spec, E, N.pow2_bits_true, N.bits_0 in C. discriminate C.
  - apply negb_false_iff, N.eqb_eq, N.bits_inj_0. intros i. rewrite N.land_spec, N.pow2_bits_eqb.
    destruct (N.eqb_spec k i) as [<-|_]; [rewrite E; reflexivity|apply andb_false_r].
Qed.

Lemma put_mask_bit b k (v : bool) i : k < 8 -> i < 8 ->
  N.testbit (if v then N.lor b (2 ^ k) else N.land b (255 - 2 ^ k)) i = if i =? k then v else N.testbit b i.
Proof.
  intros Hk Hi. rewrite (N.eqb_sym i k). destruct v.
  - rewrite N.lor_spec, N.pow2_bits_eqb. destruct (k =? i); [apply orb_true_r|apply orb_false_r].
  - change 255 with (N.ones 8). rewrite <- N.lnot_sub_low by (rewrite N.log2_pow2; lia).
    rewrite N.land_spec, N.lnot_spec_low, N.pow2_bits_eqb by exact Hi.
    destruct (k =? i); [apply andb_false_r|apply andb_true_r].
Qed.

Lemma bit_step_spec (b j : N) (v : bool) : j < 8 ->
  let mask := 2 ^ (8 - j - 1) in
  let nb := if v then N.lor b mask else N.land b (255 - mask) in
  (b < 256 -> nb < 256) /\ byte_bits nb = splice (N.to_nat j) [v] (byte_bits b)
  /\ slice (byte_bits b) (N.to_nat j) 1 = [negb (N.land b mask =? 0)].
Proof.
  intros Hj mask nb.
  (* [C]: [j] is one of 0, .., 7; with the bits of the new byte given by [put_mask_bit], each
     of the eight cases computes *)
  pose proof (nrange_in 8 j Hj) as C. cbv in C. split; [|split].
  - intros Hb. apply byte_of_high_zero. intros i Hi. unfold nb. destruct v.
    + rewrite N.lor_spec, (byte_high b i Hb Hi). unfold mask. rewrite N.pow2_bits_false by lia. reflexivity.
    + rewrite N.land_spec, (byte_high b i Hb Hi). reflexivity.
  - unfold nb, mask. rewrite (byte_bits_ext _ _ (fun i => put_mask_bit b (8 - j - 1) v i ltac:(lia))).
    repeat destruct C as [<-|C]; [reflexivity..|destruct C].
  - unfold mask. rewrite test_mask. repeat destruct C as [<-|C]; [reflexivity..|destruct C].
Qed.

(* the two halves of the unaligned whole-byte step, bit by bit: the left byte keeps the
   top [off] bits of [a] above the top [8 - off] bits of [b], the right byte takes the
   remaining [off] bits of [b] above the low [8 - off] bits of [a] *)
Lemma ul_left_bit off a b i : b < 256 -> i < 8 ->
  N.testbit (N.lor (N.land a ((255 * 2 ^ (8 - off)) mod 256)) (b / 2 ^ off)) i
  = if i <? 8 - off then N.testbit b (i + off) else N.testbit a i.
Proof.
  intros Hb Hi. rewrite N.lor_spec, N.land_spec, N.div_pow2_bits.
  change 256 with (2 ^ 8). rewrite N.mod_pow2_bits_low by exact Hi.
  destruct (N.ltb_spec i (8 - off)) as [Hlo|Hhi].
  - rewrite N.mul_pow2_bits_low by exact Hlo. rewrite andb_false_r. reflexivity.
  - replace i with (i - (8 - off) + (8 - off)) at 2 by lia.
    rewrite N.mul_pow2_bits_add. change 255 with (N.ones 8). rewrite N.ones_spec_low by lia.
    rewrite (byte_high b) by (exact Hb || lia). rewrite andb_true_r. apply orb_false_r.
Qed.

Lemma ul_right_bit off a b i : i < 8 ->
  N.testbit (N.lor (N.land a (255 / 2 ^ off)) ((b * 2 ^ (8 - off)) mod 256)) i
  = if i <? 8 - off then N.testbit a i else N.testbit b (i - (8 - off)).
Proof.
  intros Hi. rewrite N.lor_spec, N.land_spec, N.div_pow2_bits.
  change 256 with (2 ^ 8). rewrite N.mod_pow2_bits_low by exact Hi.
  change 255 with (N.ones 8).
  destruct (N.ltb_spec i (8 - off)) as [Hlo|Hhi].
  - rewrite N.ones_spec_low by lia. rewrite N.mul_pow2_bits_low by exact Hlo.
    rewrite andb_true_r. apply orb_false_r.
  - rewrite N.ones_spec_high by lia. rewrite andb_false_r.
    replace i with (i - (8 - off) + (8 - off)) at 1 by lia.
    rewrite N.mul_pow2_bits_add. reflexivity.
Qed.

Lemma ul_spec (off a b : N) : off < 8 -> b < 256 ->
  let l := N.lor (N.land a ((255 * 2 ^ (8 - off)) mod 256)) (b / 2 ^ off) in
  let r := N.lor (N.land a (255 / 2 ^ off)) ((b * 2 ^ (8 - off)) mod 256) in
  (a < 256 -> l < 256) /\ (a < 256 -> r < 256)
  /\ byte_bits l = splice (N.to_nat off) (firstn (8 - N.to_nat off) (byte_bits b)) (byte_bits a)
  /\ byte_bits r = splice 0 (skipn (8 - N.to_nat off) (byte_bits b)) (byte_bits a).
Proof.
  intros Ho Hb l r. split; [|split].
  - intros Ha. apply byte_of_high_zero. intros i Hi. unfold l.
    rewrite N.lor_spec, N.land_spec, N.div_pow2_bits, !byte_high by (assumption || lia). reflexivity.
  - intros Ha. apply byte_of_high_zero. intros i Hi. unfold r.
    rewrite N.lor_spec, N.land_spec, (byte_high a) by assumption. change 256 with (2 ^ 8).
    rewrite N.mod_pow2_bits_high by exact Hi. reflexivity.
  - unfold l, r.
    rewrite (byte_bits_ext _ _ (fun i => ul_left_bit off a b i Hb)).
    rewrite (byte_bits_ext _ _ (ul_right_bit off a b)).
    pose proof (nrange_in 8 off Ho) as C. cbv in C.
    repeat destruct C as [<-|C]; [split; reflexivity ..|destruct C].
Qed.

Lemma byte_bits_length b : length (byte_bits b) = 8%nat.
Proof. reflexivity. Qed.

Lemma bits_cons b l : bits_of_bytes (b :: l) = byte_bits b ++ bits_of_bytes l.
Proof. reflexivity. Qed.

Lemma bits_app l1 l2 : bits_of_bytes (l1 ++ l2) = bits_of_bytes l1 ++ bits_of_bytes l2.
Proof. apply flat_map_app. Qed.

Lemma bits_length l : length (bits_of_bytes l) = (8 * length l)%nat.
Proof.
  induction l as [|b l IH]; [reflexivity|].
  rewrite bits_cons, app_length, byte_bits_length, IH. cbn [length]. lia.
Qed.

Lemma splice_nil p l : splice p [] l = l.
Proof. unfold splice. cbn [app length]. rewrite Nat.add_0_r. apply firstn_skipn. Qed.

Lemma splice_length p xs l : (p + length xs <= length l)%nat -> length (splice p xs l) = length l.
Proof. intros H. unfold splice. rewrite !app_length, firstn_length, skipn_length. lia. Qed.

Lemma splice_consec p (xs ys l : bits) : (p + length xs + length ys <= length l)%nat ->
  splice (p + length xs) ys (splice p xs l) = splice p (xs ++ ys) l.
Proof.
  intros H. unfold splice. set (A := firstn p l).
  assert (LA : length A = p) by (unfold A; rewrite firstn_length; lia).
  rewrite (app_assoc A xs), <- (app_assoc xs ys), (app_assoc A xs), app_length.
  replace (p + length xs)%nat with (length (A ++ xs)) by (rewrite app_length; lia).
  destruct (firstn_skipn_app (A ++ xs) (skipn (length (A ++ xs)) l) (length ys)) as [-> ->].
  rewrite skipn_add, app_length, LA, Nat.add_assoc. reflexivity.
Qed.

Lemma splice_mid (A B C xs : bits) j : (j + length xs <= length B)%nat ->
  splice (length A + j) xs (A ++ B ++ C) = A ++ splice j xs B ++ C.
Proof.
  intros H. unfold splice.
  rewrite firstn_app_2, <- Nat.add_assoc, (proj2 (firstn_skipn_app A (B ++ C) _)).
  rewrite firstn_app, skipn_app.
  replace (j - length B)%nat with 0%nat by lia. replace (j + length xs - length B)%nat with 0%nat by lia.
  cbn [firstn skipn]. rewrite app_nil_r, <- !app_assoc. reflexivity.
Qed.

Lemma slice_length (s : bits) q n : (q + n <= length s)%nat -> length (slice s q n) = n.
Proof. intros H. unfold slice. rewrite firstn_length, skipn_length. lia. Qed.

Lemma slice_slice (s : bits) q n r k : (r + k <= n)%nat -> slice (slice s q n) r k = slice s (q + r) k.
Proof.
  intros H. unfold slice. rewrite skipn_firstn_comm, firstn_firstn, skipn_add. f_equal. lia.
Qed.

Lemma slice_app (s : bits) q a b :
  slice s q (a + b) = slice s q a ++ slice s (q + a) b.
Proof.
  unfold slice. rewrite <- (firstn_skipn a (firstn (a + b) (skipn q s))).
  f_equal.
  - rewrite firstn_firstn. f_equal. lia.
  - rewrite skipn_firstn_comm, skipn_add. f_equal. lia.
Qed.

Lemma byte_split (l : list N) i : i < blen l ->
  exists A db C, l = A ++ db :: C /\ length A = N.to_nat i.
Proof.
  intros H. destruct (nth_error l (N.to_nat i)) as [db|] eqn:E.
  - apply nth_error_split in E. destruct E as (A & C & E & L). exists A, db, C. auto.
  - apply nth_error_None in E. unfold blen in H. lia.
Qed.

Lemma getb_at l A db C i : l = A ++ db :: C -> length A = N.to_nat i -> getb l i = Ok db.
Proof.
  intros E L. subst l. unfold getb. rewrite <- L, nth_error_app2, Nat.sub_diag by lia. reflexivity.
Qed.

Lemma setb_at l A db C i nb : l = A ++ db :: C -> length A = N.to_nat i ->
  setb l i nb = Ok (A ++ nb :: C).
Proof.
  intros E L. subst l. unfold setb, blen. rewrite app_length. cbn [length].
  destruct (N.ltb_spec i (N.of_nat (length A + S (length C)))) as [_|Hc]; [|lia].
  destruct (firstn_skipn_app A (db :: C) 1) as [E1 E2].
  rewrite <- L, E1, <- Nat.add_1_r, E2. reflexivity.
Qed.

(* [dst'] is [dst] with the bits [xs] spliced in at bit [p]; same length; bytes stay bytes. The last is an
   implication and not a hypothesis, so that the copy routines, none of whose proofs needs it of the destination, are
   stated without one. *)
Definition upd (dst dst' : list N) (p : nat) (xs : bits) : Prop :=
  bits_of_bytes dst' = splice p xs (bits_of_bytes dst)
  /\ length dst' = length dst /\ (Forall byte dst -> Forall byte dst').

Lemma upd_refl dst p : upd dst dst p [].
Proof. unfold upd. rewrite splice_nil. auto. Qed.

Lemma upd_trans dst d1 d2 p xs ys :
  (p + length xs + length ys <= 8 * length dst)%nat ->
  upd dst d1 p xs -> upd d1 d2 (p + length xs) ys -> upd dst d2 p (xs ++ ys).
Proof.
  intros H (E1 & L1 & F1) (E2 & L2 & F2). unfold upd. split; [|split; [congruence|auto]].
  rewrite E2, E1. apply splice_consec. rewrite bits_length. exact H.
Qed.

Lemma upd_byte A db C nb j xs :
  (db < 256 -> nb < 256) ->
  byte_bits nb = splice j xs (byte_bits db) -> (j + length xs <= 8)%nat ->
  upd (A ++ db :: C) (A ++ nb :: C) (8 * length A + j) xs.
Proof.
  intros Hnb E Hj. unfold upd. split; [|split].
  - rewrite !bits_app, !bits_cons, E, <- (bits_length A). symmetry. apply splice_mid.
    rewrite byte_bits_length. exact Hj.
  - rewrite !app_length. reflexivity.
  - intros F. apply Forall_app in F. destruct F as [FA FC]. apply Forall_cons_iff in FC. destruct FC as [Hdb FC].
    apply Forall_app. split; [assumption|]. constructor; [exact (Hnb Hdb)|exact FC].
Qed.

Lemma upd_blen dst dst' p xs : upd dst dst' p xs -> blen dst' = blen dst.
Proof. intros (_ & L & _). unfold blen. rewrite L. reflexivity. Qed.

Lemma slice_byte l A b C : l = A ++ b :: C ->
  slice (bits_of_bytes l) (8 * length A) 8 = byte_bits b.
Proof.
  intros E. subst l. unfold slice. rewrite bits_app, bits_cons, <- (bits_length A).
  rewrite skipn_app, skipn_all, Nat.sub_diag. reflexivity.
Qed.

(* byte [i] of a byte list: what reading it returns, where its bits lie, and that writing back
   a byte that differs by a splice inside the byte is that splice on the bit level *)
Lemma byte_at l i : i < blen l ->
  exists b, getb l i = Ok b /\ (Forall byte l -> b < 256)
    /\ slice (bits_of_bytes l) (8 * N.to_nat i) 8 = byte_bits b
    /\ forall nb j xs, (b < 256 -> nb < 256) -> byte_bits nb = splice j xs (byte_bits b) -> (j + length xs <= 8)%nat ->
       exists l', setb l i nb = Ok l' /\ upd l l' (8 * N.to_nat i + j) xs.
Proof.
  intros H. destruct (byte_split l i H) as (A & b & C & E & L). rewrite <- L.
  exists b. split; [exact (getb_at _ _ _ _ _ E L)|]. split; [rewrite E; exact (Forall_elt b A C)|].
  split; [exact (slice_byte l A b C E)|].
  intros nb j xs Hnb Enb Hj. eexists. split; [exact (setb_at _ _ _ _ _ nb E L)|].
  rewrite E at 1. apply upd_byte; assumption.
Qed.

Definition copied (src : list N) (sp : N) (dst : list N) (dp len : N) (dst' : list N) : Prop :=
  upd dst dst' (N.to_nat dp) (slice (bits_of_bytes src) (N.to_nat sp) (N.to_nat len)).

Lemma copied_0 src sp dst dp : copied src sp dst dp 0 dst.
Proof. apply upd_refl. Qed.

Lemma copied_app src sp dst dp a b d1 d2 :
  sp + a <= 8 * blen src -> dp + a + b <= 8 * blen dst ->
  copied src sp dst dp a d1 -> copied src (sp + a) d1 (dp + a) b d2 -> copied src sp dst dp (a + b) d2.
Proof.
  unfold copied. intros Hs Hd U1 U2.
  assert (La : length (slice (bits_of_bytes src) (N.to_nat sp) (N.to_nat a)) = N.to_nat a)
    by (apply slice_length; rewrite bits_length; unfold blen in Hs; lia).
  replace (N.to_nat (a + b)) with (N.to_nat a + N.to_nat b)%nat by lia. rewrite slice_app.
  replace (N.to_nat (sp + a)) with (N.to_nat sp + N.to_nat a)%nat in U2 by lia.
  replace (N.to_nat (dp + a)) with (N.to_nat dp + N.to_nat a)%nat in U2 by lia.
  apply upd_trans with (d1 := d1); rewrite ?La; [|exact U1|exact U2].
  unfold slice at 1. rewrite firstn_length. unfold blen in Hd. lia.
Qed.

(* bit [p] of a byte list, as [byte_at] for a byte: the byte it lies in, that testing the mask reads it, and that
   setting or clearing the mask writes it *)
Lemma bitpos_at l p : p < 8 * blen l ->
  let mask := 2 ^ (8 - p mod 8 - 1) in
  exists b, getb l (p / 8) = Ok b
    /\ slice (bits_of_bytes l) (N.to_nat p) 1 = [negb (N.land b mask =? 0)]
    /\ forall v : bool, exists l', setb l (p / 8) (if v then N.lor b mask else N.land b (255 - mask)) = Ok l'
         /\ upd l l' (N.to_nat p) [v].
Proof.
  intros H. cbv zeta.
  (* all that is needed of the quotient and the remainder, so that [lia] meets them once *)
  assert (Hp : p / 8 < blen l /\ p mod 8 < 8 /\ N.to_nat p = (8 * N.to_nat (p / 8) + N.to_nat (p mod 8))%nat) by lia.
  destruct Hp as (Hq & Hr & ->).
  destruct (byte_at l (p / 8) Hq) as (b & Eg & _ & Sb & Hset). exists b. split; [exact Eg|]. split.
  - destruct (bit_step_spec b (p mod 8) true Hr) as (_ & _ & Eb). cbv zeta in Eb.
    rewrite <- Eb, <- Sb. symmetry. apply slice_slice. lia.
  - intros v. destruct (bit_step_spec b (p mod 8) v Hr) as (Hnb & Enb & _).
    apply (Hset _ _ _ Hnb Enb). cbn [length]. lia.
Qed.

Lemma copy_loop_upd n : forall k src sp dst dp,
  sp + k + N.of_nat n <= 8 * blen src -> dp + k + N.of_nat n <= 8 * blen dst ->
  exists dst', copy_loop n k src sp dst dp = Ok dst' /\ copied src (sp + k) dst (dp + k) (N.of_nat n) dst'.
Proof.
  induction n as [|n IH]; intros k src sp dst dp Bs Bd.
  - exists dst. split; [reflexivity|]. apply copied_0.
  - cbn [copy_loop]. unfold BYTE_LEN.
    destruct (bitpos_at src (sp + k)) as (sb & Es & Sl & _); [lia|]. rewrite Es. cbn [bind].
    set (v := negb _) in *.
    destruct (bitpos_at dst (dp + k)) as (db & Ed & _ & Hset); [lia|]. destruct (Hset v) as (d1 & Eset & U1).
    rewrite Ed. cbn [bind]. rewrite Eset. cbn [bind].
    destruct (IH (k + 1) src sp d1 dp) as (dst' & Ec & U2); [lia|rewrite (upd_blen _ _ _ _ U1); lia|].
    exists dst'. split; [exact Ec|].
    replace (N.of_nat (S n)) with (1 + N.of_nat n) by lia. rewrite !N.add_assoc in U2.
    apply copied_app with (d1 := d1); [lia|lia| |exact U2].
    unfold copied. change (N.to_nat 1) with 1%nat. rewrite Sl. exact U1.
Qed.

Lemma uadd_ok m a b : a + b < two64 -> uadd m a b = Ok (a + b).
Proof. intros H. unfold uadd. destruct (N.ltb_spec (a + b) two64); [reflexivity|lia]. Qed.
Lemma umul_ok m a b : a * b < two64 -> umul m a b = Ok (a * b).
Proof. intros H. unfold umul. destruct (N.ltb_spec (a * b) two64); [reflexivity|lia]. Qed.
Lemma usub_ok m a b : b <= a -> usub m a b = Ok (a - b).
Proof. intros H. unfold usub. destruct (N.leb_spec b a); [reflexivity|lia]. Qed.

(* the two range checks that open both copy routines, without their usize additions *)
Lemma copy_guards {A} m src sp dst dp len (k : res A) : sp + len < two64 -> dp + len < two64 ->
  (let! dend := uadd m dp len in
   if blen dst * BYTE_LEN <? dend then Err E_INSUFFICIENT_DST else
   let! send := uadd m sp len in
   if blen src * BYTE_LEN <? send then Err E_INSUFFICIENT_SRC else k)
  = if 8 * blen dst <? dp + len then Err E_INSUFFICIENT_DST
    else if 8 * blen src <? sp + len then Err E_INSUFFICIENT_SRC else k.
Proof.
  intros Os Od. rewrite (uadd_ok m dp len Od), (uadd_ok m sp len Os). cbn [bind].
  unfold BYTE_LEN. rewrite !(N.mul_comm _ 8). reflexivity.
Qed.

Lemma bit_string_copy_exact m src sp dst dp len :
  sp + len < two64 -> dp + len < two64 ->
  sp + len <= 8 * blen src -> dp + len <= 8 * blen dst ->
  exists dst', bit_string_copy m src sp dst dp len = Ok dst' /\ copied src sp dst dp len dst'.
Proof.
  intros Os Od Bs Bd. unfold bit_string_copy. rewrite copy_guards by assumption.
  replace (8 * blen dst <? dp + len) with false by lia. replace (8 * blen src <? sp + len) with false by lia.
  destruct (copy_loop_upd (N.to_nat len) 0 src sp dst dp) as (dst' & E & U); [lia|lia|].
  exists dst'. split; [exact E|]. rewrite !N.add_0_r, N2Nat.id in U. exact U.
Qed.

Lemma bitwise_short m src sp dst dp len :
  sp + len < two64 -> dp + len < two64 ->
  (8 * blen dst < dp + len -> bit_string_copy m src sp dst dp len = Err E_INSUFFICIENT_DST)
  /\ (dp + len <= 8 * blen dst -> 8 * blen src < sp + len ->
      bit_string_copy m src sp dst dp len = Err E_INSUFFICIENT_SRC).
Proof.
  intros Os Od. unfold bit_string_copy. rewrite copy_guards by assumption. split.
  - intros H. replace (8 * blen dst <? dp + len) with true by lia. reflexivity.
  - intros H1 H2. replace (8 * blen dst <? dp + len) with false by lia.
    replace (8 * blen src <? sp + len) with true by lia. reflexivity.
Qed.

Lemma bitwise_no_panic m src sp dst dp len :
  sp + len < two64 -> dp + len < two64 ->
  is_panic (bit_string_copy m src sp dst dp len) = false.
Proof.
  intros Os Od. unfold bit_string_copy. rewrite copy_guards by assumption.
  destruct (N.ltb_spec (8 * blen dst) (dp + len)); [reflexivity|].
  destruct (N.ltb_spec (8 * blen src) (sp + len)); [reflexivity|].
  destruct (copy_loop_upd (N.to_nat len) 0 src sp dst dp) as (dst' & E & _); [lia|lia|].
  rewrite E. reflexivity.
Qed.

(* slice.rs spells the mask of bit [j] both as 0x80 >> j and as 1 << (7 - j) *)
Lemma mask_pow j : j < 8 -> 128 / 2 ^ j = 2 ^ (8 - j - 1).
Proof. intros H. change 128 with (2 ^ 7). rewrite <- N.pow_sub_r by lia. f_equal. lia. Qed.

Lemma write_bit_spec dst pos bit :
  (pos < 8 * blen dst ->
     exists dst', slice_write_bit dst pos bit = Ok (dst', pos + 1) /\ upd dst dst' (N.to_nat pos) [bit])
  /\ (8 * blen dst <= pos -> slice_write_bit dst pos bit = Err E_END_OF_STREAM).
Proof.
  unfold slice_write_bit, BYTE_LEN. split; intros H.
  - destruct (N.ltb_spec (blen dst * 8) (pos + 1)); [lia|].
    destruct (bitpos_at dst pos H) as (db & Eg & _ & Hset). destruct (Hset bit) as (dst' & Es & U).
    rewrite Eg. cbn [bind]. rewrite mask_pow by lia. rewrite Es. cbn [bind].
    exists dst'. split; [reflexivity|exact U].
  - destruct (N.ltb_spec (blen dst * 8) (pos + 1)); [reflexivity|lia].
Qed.

Lemma read_bit_spec src pos :
  (pos < 8 * blen src ->
     exists v, slice_read_bit src pos = Ok (v, pos + 1) /\ slice (bits_of_bytes src) (N.to_nat pos) 1 = [v])
  /\ (8 * blen src <= pos -> slice_read_bit src pos = Err E_END_OF_STREAM).
Proof.
  unfold slice_read_bit, BYTE_LEN. split; intros H.
  - destruct (N.leb_spec (blen src * 8) pos); [lia|].
    destruct (bitpos_at src pos H) as (sb & Eg & Sl & _).
    rewrite Eg. cbn [bind]. rewrite mask_pow by lia. eexists. split; [reflexivity|exact Sl].
  - destruct (N.leb_spec (blen src * 8) pos); [reflexivity|lia].
Qed.

Lemma bits_firstn n : forall l, bits_of_bytes (firstn n l) = firstn (8 * n) (bits_of_bytes l).
Proof.
  induction n as [|n IH]; intros l; [reflexivity|].
  destruct l as [|b l]; [reflexivity|].
  cbn [firstn]. rewrite !bits_cons, IH.
  replace (8 * S n)%nat with (length (byte_bits b) + 8 * n)%nat by (rewrite byte_bits_length; lia).
  rewrite firstn_app_2. reflexivity.
Qed.

Lemma bits_skipn n l : bits_of_bytes (skipn n l) = skipn (8 * n) (bits_of_bytes l).
Proof.
  apply (app_inv_head (firstn (8 * n) (bits_of_bytes l))).
  rewrite firstn_skipn, <- bits_firstn, <- bits_app, firstn_skipn. reflexivity.
Qed.

Lemma copy_from_slice_upd src si dst di n :
  Forall byte src -> si + n <= blen src -> di + n <= blen dst ->
  exists dst', copy_from_slice src si dst di n = Ok dst' /\ copied src (8 * si) dst (8 * di) (8 * n) dst'.
Proof.
  intros Fs Bs Bd. unfold copy_from_slice.
  destruct (N.ltb_spec (blen src) (si + n)); [lia|].
  destruct (N.ltb_spec (blen dst) (di + n)); [lia|]. cbn [orb].
  eexists. split; [reflexivity|]. unfold copied, upd. rewrite !N2Nat.inj_mul. change (N.to_nat 8) with 8%nat.
  split; [|split].
  - rewrite !bits_app, bits_firstn, bits_firstn, !bits_skipn. unfold splice, slice.
    f_equal. f_equal. f_equal.
    rewrite firstn_length, skipn_length, bits_length. unfold blen in *. lia.
  - rewrite !app_length, !firstn_length, !skipn_length. unfold blen in *. lia.
  - intros Fd. apply Forall_app. split; [apply Forall_firstn; exact Fd|].
    apply Forall_app. split; [apply Forall_firstn, Forall_skipn; exact Fs|apply Forall_skipn; exact Fd].
Qed.

Lemma unaligned_loop_upd n : forall index src si dst di off,
  Forall byte src -> off < 8 ->
  index + si + N.of_nat n <= blen src -> index + di + N.of_nat n + 1 <= blen dst ->
  exists dst', unaligned_loop n index src si dst di off = Ok dst' /\
    copied src (8 * (index + si)) dst (8 * (index + di) + off) (8 * N.of_nat n) dst'.
Proof.
  induction n as [|n IH]; intros index src si dst di off Fs Ho Bs Bd.
  - exists dst. split; [reflexivity|]. apply copied_0.
  - cbn [unaligned_loop]. unfold BYTE_LEN.
    destruct (byte_at src (index + si)) as (b & Eb & Hb & Sb & _); [lia|]. specialize (Hb Fs).
    destruct (byte_at dst (index + di)) as (d0 & E0 & _ & _ & Set0); [lia|].
    rewrite Eb, E0. cbn [bind].
    (* the left byte takes the top [8 - off] bits of [b], the right byte the rest *)
    destruct (ul_spec off d0 b Ho Hb) as (Hl & _ & El & _). cbv zeta in Hl, El.
    destruct (Set0 _ _ _ Hl El) as (dst1 & Es1 & U1); [rewrite firstn_length, byte_bits_length; lia|].
    rewrite Es1. cbn [bind].
    destruct (byte_at dst1 (index + di + 1)) as (d1 & E1 & _ & _ & Set1); [rewrite (upd_blen _ _ _ _ U1); lia|].
    destruct (ul_spec off d1 b Ho Hb) as (_ & Hr & _ & Er). cbv zeta in Hr, Er.
    destruct (Set1 _ _ _ Hr Er) as (dst2 & Es2 & U2); [rewrite skipn_length, byte_bits_length; lia|].
    rewrite E1. cbn [bind]. rewrite Es2. cbn [bind].
    assert (U : upd dst dst2 (8 * N.to_nat (index + di) + N.to_nat off) (byte_bits b)).
    { rewrite <- (firstn_skipn (8 - N.to_nat off) (byte_bits b)).
      apply upd_trans with (d1 := dst1); [|exact U1|].
      - rewrite firstn_length, skipn_length, byte_bits_length. unfold blen in Bd. lia.
      - rewrite firstn_length, byte_bits_length.
        replace (8 * N.to_nat (index + di) + N.to_nat off + Nat.min (8 - N.to_nat off) 8)%nat
          with (8 * N.to_nat (index + di + 1) + 0)%nat by lia.
        exact U2. }
    destruct (IH (index + 1) src si dst2 di off Fs) as (dst' & Ec & U3);
      [exact Ho|lia|rewrite (upd_blen _ _ _ _ U); lia|].
    exists dst'. split; [exact Ec|].
    replace (8 * N.of_nat (S n)) with (8 + 8 * N.of_nat n) by lia.
    apply copied_app with (d1 := dst2); [lia|lia| |].
    + unfold copied. replace (N.to_nat (8 * (index + di) + off)) with (8 * N.to_nat (index + di) + N.to_nat off)%nat by lia.
      replace (N.to_nat (8 * (index + si))) with (8 * N.to_nat (index + si))%nat by lia.
      change (N.to_nat 8) with 8%nat. rewrite Sb. exact U.
    + replace (8 * (index + si) + 8) with (8 * (index + 1 + si)) by lia.
      replace (8 * (index + di) + off + 8) with (8 * (index + 1 + di) + off) by lia. exact U3.
Qed.

(* the head and the tail of the bulked copy are skipped when empty *)
Lemma copy_unless_empty m src sp dst dp len :
  sp + len < two64 -> dp + len < two64 ->
  sp + len <= 8 * blen src -> dp + len <= 8 * blen dst ->
  exists dst', (if len =? 0 then Ok dst else bit_string_copy m src sp dst dp len) = Ok dst'
    /\ copied src sp dst dp len dst'.
Proof.
  intros Os Od Bs Bd. destruct (N.eqb_spec len 0) as [->|_].
  - exists dst. split; [reflexivity|]. apply copied_0.
  - apply bit_string_copy_exact; assumption.
Qed.

(* the three stretches of the bulked copy in terms of quotients and remainders by 8 *)
Lemma bulk_arith sp dp len :
  let head := (8 - sp mod 8) mod 8 in
  head < 8 /\ sp + head = 8 * ((sp + head) / 8)
  /\ dp + head = 8 * ((dp + head) / 8) + (dp + head) mod 8 /\ (dp + head) mod 8 < 8
  /\ len - head = 8 * ((len - head) / 8) + (len - head) mod 8 /\ (len - head) mod 8 < 8.
Proof.
  assert (D : forall x, x = 8 * (x / 8) + x mod 8 /\ x mod 8 < 8)
    by (intros x; split; [apply N.div_mod'|apply N.mod_lt; discriminate]).
  cbv zeta. split; [apply D|]. split; [lia|]. split; [apply D|]. split; [apply D|]. apply D.
Qed.

Lemma bulk_exact_upd m src sp dst dp len :
  Forall byte src ->
  sp + len < two64 -> dp + len < two64 ->
  sp + len <= 8 * blen src -> dp + len <= 8 * blen dst ->
  exists dst', bit_string_copy_bulked m src sp dst dp len = Ok dst' /\ copied src sp dst dp len dst'.
Proof.
  intros Fs Os Od Bs Bd. unfold bit_string_copy_bulked, BYTE_LEN.
  destruct (N.leb_spec len (8 * 2)) as [Hsm|Hbig]; [apply bit_string_copy_exact; assumption|].
  rewrite copy_guards by assumption.
  replace (8 * blen dst <? dp + len) with false by lia. replace (8 * blen src <? sp + len) with false by lia.
  cbv zeta. destruct (bulk_arith sp dp len) as (Hh & Hsp & Hdp & Hr & Hlen & Ht). cbv zeta in *.
  set (head := (8 - sp mod 8) mod 8) in *. set (qs := (sp + head) / 8) in *. set (qd := (dp + head) / 8) in *.
  set (r := (dp + head) mod 8) in *. set (nb := (len - head) / 8) in *. set (t := (len - head) mod 8) in *.
  clearbody head qs qd r nb t.
  replace (N.min head len) with head by lia.
  destruct (copy_unless_empty m src sp dst dp head) as (d1 & E1 & U1); [lia..|]. rewrite E1. cbn [bind].
  replace (negb (head =? 0) && (len <=? head)) with false by lia.
  pose proof (upd_blen _ _ _ _ U1) as L1.
  assert (S2 : exists d2,
     (if r =? 0 then copy_from_slice src qs d1 qd nb
      else unaligned_loop (N.to_nat nb) 0 src qs d1 qd r) = Ok d2
     /\ copied src (sp + head) d1 (dp + head) (8 * nb) d2).
  { rewrite Hsp, Hdp. destruct (N.eqb_spec r 0) as [->|E].
    - rewrite N.add_0_r. apply copy_from_slice_upd; try assumption; lia.
    - destruct (unaligned_loop_upd (N.to_nat nb) 0 src qs d1 qd r Fs Hr) as (d2 & E2 & U2); [lia|lia|].
      exists d2. split; [exact E2|]. rewrite !N.add_0_l, N2Nat.id in U2. exact U2. }
  destruct S2 as (d2 & E2 & U2). rewrite E2. cbn [bind].
  pose proof (upd_blen _ _ _ _ U2) as L2. rewrite (N.mul_comm nb 8).
  destruct (copy_unless_empty m src (sp + head + 8 * nb) d2 (dp + head + 8 * nb) t) as (d3 & E3 & U3); [lia..|].
  exists d3. split; [exact E3|].
  replace len with (head + (8 * nb + t)) by lia.
  apply copied_app with (d1 := d1); [lia|lia|exact U1|].
  apply copied_app with (d1 := d2); [lia|lia|exact U2|exact U3].
Qed.

Lemma bulk_short m src sp dst dp len :
  sp + len < two64 -> dp + len < two64 ->
  (8 * blen dst < dp + len -> bit_string_copy_bulked m src sp dst dp len = Err E_INSUFFICIENT_DST)
  /\ (dp + len <= 8 * blen dst -> 8 * blen src < sp + len ->
      bit_string_copy_bulked m src sp dst dp len = Err E_INSUFFICIENT_SRC).
Proof.
  intros Os Od. unfold bit_string_copy_bulked, BYTE_LEN.
  destruct (N.leb_spec len (8 * 2)) as [Hsm|Hbig]; [apply bitwise_short; assumption|].
  rewrite copy_guards by assumption. split.
  - intros H. replace (8 * blen dst <? dp + len) with true by lia. reflexivity.
  - intros H1 H2. replace (8 * blen dst <? dp + len) with false by lia.
    replace (8 * blen src <? sp + len) with true by lia. reflexivity.
Qed.

Lemma write_bits_exact m dst pos src soff slen :
  Forall byte src ->
  soff + slen < two64 -> pos + slen < two64 ->
  soff + slen <= 8 * blen src -> pos + slen <= 8 * blen dst ->
  exists dst', slice_write_bits m dst pos src soff slen = Ok (dst', pos + slen)
    /\ copied src soff dst pos slen dst'.
Proof.
  intros Fs Os Od Bs Bd. unfold slice_write_bits.
  destruct (bulk_exact_upd m src soff dst pos slen Fs Os Od Bs Bd) as (dst' & E & U).
  rewrite E. cbn [bind]. rewrite (uadd_ok m pos slen Od). cbn [bind].
  exists dst'. split; [reflexivity|exact U].
Qed.

Lemma read_bits_mirror m src pos dst doff dlen :
  Forall byte src ->
  pos + dlen < two64 -> doff + dlen < two64 ->
  pos + dlen <= 8 * blen src -> doff + dlen <= 8 * blen dst ->
  exists dst', slice_read_bits m src pos dst doff dlen = Ok (dst', pos + dlen)
    /\ copied src pos dst doff dlen dst'.
Proof.
  intros Fs Os Od Bs Bd. unfold slice_read_bits.
  destruct (bulk_exact_upd m src pos dst doff dlen Fs Os Od Bs Bd) as (dst' & E & U).
  rewrite E. cbn [bind]. rewrite (uadd_ok m pos dlen Os). cbn [bind].
  exists dst'. split; [reflexivity|exact U].
Qed.

(* the invariant of a BitBuffer: exactly ceil(bit_len / 8) bytes, each a byte, every bit at or behind the write
   position zero *)
Definition padding_zero (b : bitbuffer) : Prop :=
  forall i, (N.to_nat (bb_wpos b) <= i)%nat -> nth i (bits_of_bytes (bb_buf b)) false = false.

Definition bb_inv (b : bitbuffer) : Prop :=
  blen (bb_buf b) = (bb_wpos b + 7) / 8 /\ Forall byte (bb_buf b) /\ padding_zero b.

Lemma bb_inv_empty : bb_inv bb_empty.
Proof.
  unfold bb_inv, padding_zero. cbn [bb_empty bb_buf bb_wpos]. split; [reflexivity|]. split; [constructor|].
  intros i _. destruct i; reflexivity.
Qed.

Lemma Forall_repeat0 k : Forall byte (repeat 0 k).
Proof. induction k; cbn [repeat]; constructor; [reflexivity|assumption]. Qed.

Lemma bits_repeat0 k : bits_of_bytes (repeat 0 k) = repeat false (8 * k).
Proof.
  induction k as [|k IH]; [reflexivity|].
  cbn [repeat]. rewrite bits_cons, IH. replace (8 * S k)%nat with (8 + 8 * k)%nat by lia.
  reflexivity.
Qed.

Lemma splice_nth_after (l X : bits) p i : (p <= length l)%nat -> (p + length X <= i)%nat ->
  nth i (splice p X l) false = nth i l false.
Proof.
  intros Hp Hi. unfold splice.
  assert (Lf : length (firstn p l) = p) by (rewrite firstn_length; lia).
  rewrite app_nth2 by lia. rewrite app_nth2 by lia. rewrite nth_skipn_add, Lf. f_equal. lia.
Qed.

(* writing [X] at the write position of a zero-extended buffer: padding stays zero and the
   written prefix grows by exactly [X] *)
Lemma write_preserves buf k wpos buf' X :
  (forall i, (wpos <= i)%nat -> nth i (bits_of_bytes buf) false = false) ->
  (wpos <= 8 * length buf)%nat ->
  upd (buf ++ repeat 0 k) buf' wpos X ->
  (forall i, (wpos + length X <= i)%nat -> nth i (bits_of_bytes buf') false = false)
  /\ firstn (wpos + length X) (bits_of_bytes buf') = firstn wpos (bits_of_bytes buf) ++ X.
Proof.
  intros Pz Hw (E & _ & _). rewrite E, bits_app, bits_repeat0.
  set (l := bits_of_bytes buf) in *.
  assert (Ll : length l = (8 * length buf)%nat) by apply bits_length.
  split.
  - intros i Hi. rewrite splice_nth_after by (rewrite ?app_length; lia).
    destruct (Nat.lt_ge_cases i (length l)) as [Hlt|Hge].
    + rewrite app_nth1 by exact Hlt. apply Pz. lia.
    + rewrite app_nth2 by exact Hge. apply nth_repeat.
  - unfold splice. rewrite app_assoc.
    replace (wpos + length X)%nat with (length (firstn wpos (l ++ repeat false (8 * k)) ++ X))
      by (rewrite app_length, firstn_length, app_length; lia).
    rewrite (proj1 (firstn_skipn_app _ _ 0%nat)). f_equal.
    rewrite firstn_app. replace (wpos - length l)%nat with 0%nat by lia. apply app_nil_r.
Qed.

(* below 2^63 bits ensure_can_write_additional_bits pads the buffer with zero bytes up to
   ceil((wpos + n) / 8) of them, with none if it is long enough *)
Lemma ensure_eq m b n : bb_wpos b + n < two63 ->
  ensure_can_write m b n =
  Ok {| bb_buf := bb_buf b ++ repeat 0 (N.to_nat ((bb_wpos b + n + 7) / 8 - blen (bb_buf b)));
        bb_wpos := bb_wpos b; bb_rpos := bb_rpos b |}.
Proof.
  intros Hb. unfold ensure_can_write, BYTE_LEN. unfold two63 in Hb.
  rewrite uadd_ok by (unfold two64; lia). cbn [bind].
  destruct (N.leb_spec (blen (bb_buf b) * 8) (bb_wpos b + n)) as [Hg|Hg].
  - rewrite uadd_ok by (unfold two64; lia). cbn [bind]. rewrite usub_ok by lia. cbn [bind].
    destruct (N.leb_spec two63 ((bb_wpos b + n + 7) / 8 - blen (bb_buf b))) as [Hc|Hc]; [unfold two63 in Hc; lia|reflexivity].
  - replace ((bb_wpos b + n + 7) / 8 - blen (bb_buf b)) with 0 by lia. cbn [N.to_nat repeat]. rewrite app_nil_r.
    destruct b; reflexivity.
Qed.

(* what a write of the [n] bits [X] at the write position does to the stored bytes, whatever lies behind that position:
   the byte list is first padded with zero bytes up to ceil((wpos + n) / 8) if it is shorter *)
Definition wrote (b : bitbuffer) (n : N) (X : bits) (r : res (bitbuffer * option N)) : Prop :=
  exists buf', r = Ok ({| bb_buf := buf'; bb_wpos := bb_wpos b + n; bb_rpos := bb_rpos b |}, None)
    /\ upd (bb_buf b ++ repeat 0 (N.to_nat ((bb_wpos b + n + 7) / 8 - blen (bb_buf b)))) buf' (N.to_nat (bb_wpos b)) X.

Lemma bb_write_bit_wrote m b bit : bb_wpos b + 1 < two63 -> wrote b 1 [bit] (bb_write_bit m b bit).
Proof.
  intros Hb. unfold bb_write_bit. rewrite ensure_eq by exact Hb. cbn [bind bb_buf bb_wpos bb_rpos].
  set (buf1 := _ ++ repeat 0 _). destruct (write_bit_spec buf1 (bb_wpos b) bit) as [Wok _].
  destruct Wok as (buf' & Ew & U); [unfold buf1, blen; rewrite app_length, repeat_length; lia|].
  rewrite Ew. exists buf'. split; [reflexivity|exact U].
Qed.

Lemma bb_write_bits_ol_wrote m b src soff slen :
  Forall byte src -> soff + slen < two64 -> bb_wpos b + slen < two63 ->
  soff + slen <= 8 * blen src ->
  wrote b slen (slice (bits_of_bytes src) (N.to_nat soff) (N.to_nat slen)) (bb_write_bits_ol m b src soff slen).
Proof.
  intros Fs Os Hb Hs. unfold bb_write_bits_ol, BYTE_LEN. rewrite (uadd_ok m soff slen Os). cbn [bind].
  destruct (N.ltb_spec (blen src * 8) (soff + slen)); [lia|].
  rewrite ensure_eq by exact Hb. cbn [bind bb_buf bb_wpos bb_rpos].
  set (buf1 := _ ++ repeat 0 _).
  destruct (write_bits_exact m buf1 (bb_wpos b) src soff slen Fs) as (buf' & Ew & U);
    [exact Os|unfold two63 in Hb; unfold two64; lia|exact Hs|unfold buf1, blen; rewrite app_length, repeat_length; lia|].
  rewrite Ew. exists buf'. split; [reflexivity|exact U].
Qed.

(* the write [r] on [b] succeeded and appended the [n] bits [X]: the invariant holds of the new
   buffer, only the write position has moved, and the written prefix has grown by [X] *)
Definition appended (b : bitbuffer) (n : N) (X : bits) (r : res (bitbuffer * option N)) : Prop :=
  exists b', r = Ok (b', None)
    /\ bb_inv b' /\ bb_wpos b' = bb_wpos b + n /\ bb_rpos b' = bb_rpos b
    /\ firstn (N.to_nat (bb_wpos b')) (bits_of_bytes (bb_buf b'))
       = firstn (N.to_nat (bb_wpos b)) (bits_of_bytes (bb_buf b)) ++ X.

Lemma wrote_appended b n X r : bb_inv b -> length X = N.to_nat n -> wrote b n X r -> appended b n X r.
Proof.
  intros (Hl & Hf & Hp) LX (buf' & -> & U).
  destruct (write_preserves _ _ _ _ _ Hp ltac:(unfold blen in Hl; lia) U) as (P1 & P2).
  destruct U as (_ & LU & FU).
  eexists. split; [reflexivity|]. unfold bb_inv, padding_zero. cbn [bb_buf bb_wpos bb_rpos].
  split; [split; [|split]|split; [reflexivity|split; [reflexivity|]]].
  - unfold blen in *. rewrite LU, app_length, repeat_length. lia.
  - apply FU, Forall_app. split; [exact Hf|apply Forall_repeat0].
  - intros i Hi. apply P1. lia.
  - replace (N.to_nat (bb_wpos b + n)) with (N.to_nat (bb_wpos b) + length X)%nat by lia. exact P2.
Qed.

Lemma bb_write_bit_spec m b bit : bb_inv b -> bb_wpos b + 1 < two63 ->
  appended b 1 [bit] (bb_write_bit m b bit).
Proof. intros Hi Hb. exact (wrote_appended b 1 [bit] _ Hi eq_refl (bb_write_bit_wrote m b bit Hb)). Qed.

Lemma bb_write_bits_ol_spec m b src soff slen :
  Forall byte src -> soff + slen < two64 ->
  (8 * blen src < soff + slen ->
     bb_write_bits_ol m b src soff slen = Ok (b, Some E_INSUFFICIENT_SRC))
  /\ (bb_inv b -> bb_wpos b + slen < two63 -> soff + slen <= 8 * blen src ->
     appended b slen (slice (bits_of_bytes src) (N.to_nat soff) (N.to_nat slen)) (bb_write_bits_ol m b src soff slen)).
Proof.
  intros Fs Os. split.
  - intros Hs. unfold bb_write_bits_ol, BYTE_LEN. rewrite (uadd_ok m soff slen Os). cbn [bind].
    destruct (N.ltb_spec (blen src * 8) (soff + slen)); [reflexivity|lia].
  - intros Hi Hb Hs. apply (wrote_appended _ _ _ _ Hi).
    + apply slice_length. rewrite bits_length. unfold blen in Hs. lia.
    + apply bb_write_bits_ol_wrote; assumption.
Qed.

Lemma bb_write_bits_o_eq m b src soff : soff <= 8 * blen src ->
  bb_write_bits_o m b src soff = bb_write_bits_ol m b src soff (8 * blen src - soff).
Proof.
  intros H. unfold bb_write_bits_o, BYTE_LEN. rewrite usub_ok by lia. cbn [bind].
  f_equal. lia.
Qed.

Inductive wop :=
| WBit (bit : bool)
| WBits (src : list N) (soff slen : N)
| WBitsO (src : list N) (soff : N).

Definition apply_wop (m : mode) (b : bitbuffer) (op : wop) : res (bitbuffer * option N) :=
  match op with
  | WBit bit => bb_write_bit m b bit
  | WBits src soff slen => bb_write_bits_ol m b src soff slen
  | WBitsO src soff => bb_write_bits_o m b src soff
  end.

(* the side conditions on one operation: sources are byte lists (they are [u8] in Rust) and
   the source range arithmetic does not wrap; all of these are satisfiable, e.g. by
   [WBits [1;2;3] 3 20] and [WBitsO [1;2;3] 5] (see C11_nonvacuous) *)
Definition wop_ok (op : wop) : Prop :=
  match op with
  | WBit _ => True
  | WBits src soff slen => Forall byte src /\ soff + slen < two64
  | WBitsO src soff => Forall byte src /\ soff <= 8 * blen src /\ 8 * blen src < two64
  end.

Definition wop_len (op : wop) : N :=
  match op with
  | WBit _ => 1
  | WBits _ _ slen => slen
  | WBitsO src soff => 8 * blen src - soff
  end.

Definition wops_len (ops : list wop) : N := fold_right (fun op a => wop_len op + a) 0 ops.

(* a caller that ignores error results and carries on with the buffer it is left with *)
Definition wop_step (m : mode) (r : res bitbuffer) (op : wop) : res bitbuffer :=
  let! b := r in let! (b', _) := apply_wop m b op in Ok b'.

Lemma apply_wop_inv m b op :
  bb_inv b -> wop_ok op -> bb_wpos b + wop_len op < two63 ->
  exists b' e, apply_wop m b op = Ok (b', e) /\ bb_inv b' /\ bb_wpos b' <= bb_wpos b + wop_len op.
Proof.
  intros Hi Hok Hb. destruct op as [bit|src soff slen|src soff]; cbn [apply_wop wop_ok wop_len] in *.
  - destruct (bb_write_bit_spec m b bit Hi Hb) as (b' & E & I' & W' & _).
    exists b', None. split; [exact E|]. split; [exact I'|lia].
  - destruct Hok as [Fs Os].
    destruct (bb_write_bits_ol_spec m b src soff slen Fs Os) as [Serr Sok].
    destruct (N.lt_ge_cases (8 * blen src) (soff + slen)) as [H|H].
    + exists b, (Some E_INSUFFICIENT_SRC). split; [exact (Serr H)|]. split; [exact Hi|lia].
    + destruct (Sok Hi Hb H) as (b' & E & I' & W' & _).
      exists b', None. split; [exact E|]. split; [exact I'|lia].
  - destruct Hok as (Fs & Ho & O64). rewrite (bb_write_bits_o_eq m b src soff Ho).
    destruct (bb_write_bits_ol_spec m b src soff (8 * blen src - soff) Fs) as [_ Sok]; [lia|].
    destruct (Sok Hi Hb) as (b' & E & I' & W' & _); [lia|].
    exists b', None. split; [exact E|]. split; [exact I'|lia].
Qed.

Lemma run_wops_inv m ops : forall b,
  bb_inv b -> Forall wop_ok ops -> bb_wpos b + wops_len ops < two63 ->
  exists b', fold_left (wop_step m) ops (Ok b) = Ok b' /\ bb_inv b' /\ bb_wpos b' <= bb_wpos b + wops_len ops.
Proof.
  induction ops as [|op ops IH]; intros b Hi Hok Hb.
  - exists b. cbn [fold_left wops_len fold_right]. split; [reflexivity|]. split; [exact Hi|lia].
  - cbn [wops_len fold_right] in Hb. fold (wops_len ops) in Hb.
    apply Forall_cons_iff in Hok. destruct Hok as [Hop Hok].
    destruct (apply_wop_inv m b op Hi Hop) as (b1 & e & E & I1 & W1); [lia|].
    cbn [fold_left]. unfold wop_step at 2. cbn [bind]. rewrite E. cbn [bind].
    destruct (IH b1 I1 Hok) as (b' & E' & I' & W'); [lia|].
    exists b'. split; [exact E'|]. split; [exact I'|].
    cbn [wops_len fold_right]. fold (wops_len ops). lia.
Qed.

Lemma byte_roundtrip_sweep :
  forallb (fun b : N => byte_of_bits (byte_bits b) =? b) (nrange 256) = true.
Proof. vm_compute. reflexivity. Qed.

Lemma byte_of_bits_byte_bits b : b < 256 -> byte_of_bits (byte_bits b) = b.
Proof. intros H. apply N.eqb_eq. exact (sweep _ _ byte_roundtrip_sweep b H). Qed.

Lemma bits_inj l1 : forall l2, Forall byte l1 -> Forall byte l2 ->
  bits_of_bytes l1 = bits_of_bytes l2 -> l1 = l2.
Proof.
  induction l1 as [|a l1 IH]; intros [|b l2] F1 F2 E; try reflexivity; try discriminate E.
  apply Forall_cons_iff in F1. apply Forall_cons_iff in F2. destruct F1 as [Ha F1], F2 as [Hb F2].
  rewrite !bits_cons in E.
  pose proof (f_equal (firstn 8) E) as E1. pose proof (f_equal (skipn 8) E) as E2.
  change (byte_bits a = byte_bits b) in E1.
  change (bits_of_bytes l1 = bits_of_bytes l2) in E2.
  f_equal; [|apply IH; assumption].
  rewrite <- (byte_of_bits_byte_bits a Ha), <- (byte_of_bits_byte_bits b Hb), E1. reflexivity.
Qed.

Lemma bit_ops_are_copies m buf pos : Forall byte buf ->
  pos < 8 * blen buf -> pos + 1 < two64 ->
  (forall bit, exists buf', slice_write_bit buf pos bit = Ok (buf', pos + 1)
      /\ bit_string_copy m [if bit then 128 else 0] 0 buf pos 1 = Ok buf')
  /\ (exists b, slice_read_bit buf pos = Ok (b, pos + 1)
      /\ bit_string_copy m buf pos [0] 0 1 = Ok [if b then 128 else 0]).
Proof.
  intros F Hp Ho. split.
  - intros bit. destruct (write_bit_spec buf pos bit) as [W _].
    destruct (W Hp) as (buf' & Ew & Uw). exists buf'. split; [exact Ew|].
    destruct (bit_string_copy_exact m [if bit then 128 else 0] 0 buf pos 1) as (d & Ec & Uc);
      [reflexivity|exact Ho|destruct bit; vm_compute; congruence|lia|].
    rewrite Ec. f_equal. destruct Uw as (E1 & _ & F1). destruct Uc as (E2 & _ & F2).
    apply bits_inj; [exact (F2 F)|exact (F1 F)|]. rewrite E1, E2. destruct bit; reflexivity.
  - destruct (read_bit_spec buf pos) as [R _]. destruct (R Hp) as (v & Er & Es).
    exists v. split; [exact Er|].
    assert (F0 : Forall byte [0]) by (constructor; [reflexivity|constructor]).
    destruct (bit_string_copy_exact m buf pos [0] 0 1) as (d & Ec & Uc);
      [exact Ho|reflexivity|lia|vm_compute; congruence|].
    rewrite Ec. f_equal. destruct Uc as (E2 & _ & F2).
    apply bits_inj; [exact (F2 F0)| |].
    + constructor; [|constructor]. destruct v; reflexivity.
    + rewrite E2. change (N.to_nat 1) with 1%nat. rewrite Es. destruct v; reflexivity.
Qed.
