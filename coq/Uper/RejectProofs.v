(* L2 rejection lemmas (C06): at top level a value outside a non-extensible constraint makes
   write_ty answer the constraint error.  A type without components is, without
   enclosing scope, written as its reference encoding (write_flat_eq), so these are facts of [enc]. *)
From A1 Require Import Uper.Proofs.
Local Open Scope N_scope.

Lemma to_i64_id v : is_i64 v -> to_i64 v = v.
Proof. intros H. unfold to_i64. apply u64_i64_roundtrip. exact H. Qed.

Lemma flat_write_err m t v w e : flat t = true -> w_scope w = None ->
  enc m t v = Err e -> write_ty m t v w = Err e.
Proof. intros Hf Hs He. rewrite write_flat_eq, He by assumption. reflexivity. Qed.

Lemma int_reject m k lo hi v w :
  w_scope w = None -> is_i64 v -> (v < lo \/ hi < v)%Z ->
  write_ty m (TInt k (Some lo) (Some hi) false) (VInt v) w = Err E_VALUE_RANGE.
Proof.
  intros Hs Hv Hr. apply flat_write_err; [reflexivity|exact Hs|]. cbn [enc]. unfold int_enc.
  rewrite to_i64_id by exact Hv. cbn [is_some negb andb opt_or].
  rewrite constrained_reject by exact Hr. reflexivity.
Qed.

Lemma octets_reject m lo hi bs w :
  w_scope w = None -> blen bs < opt_or lo 0 \/ opt_or hi I64_MAX < blen bs ->
  write_ty m (TOctets lo hi false) (VOctets bs) w = Err E_SIZE_RANGE.
Proof. intros Hs Hr. apply flat_write_err; [reflexivity|exact Hs|]. apply octetstring_reject, Hr. Qed.

Lemma bits_reject m lo hi bs bl w :
  w_scope w = None -> bl < opt_or lo 0 \/ opt_or hi I64_MAX < bl ->
  write_ty m (TBitStr lo hi false) (VBits bs bl) w = Err E_SIZE_RANGE.
Proof. intros Hs Hr. apply flat_write_err; [reflexivity|exact Hs|]. apply bitstring_reject, Hr. Qed.

Lemma index_reject_nonext m std i : std <= i -> w_enumeration_index m std false i = Err E_INVALID_CHOICE.
Proof. intros H. apply index_reject. apply x_index_none. auto. Qed.

Lemma enum_reject m vc std i w :
  w_scope w = None -> std <= i ->
  write_ty m (TEnum vc std false) (VEnum i) w = Err E_INVALID_CHOICE.
Proof. intros Hs Hr. apply flat_write_err; [reflexivity|exact Hs|]. apply index_reject_nonext, Hr. Qed.

Lemma choice_reject m alts std i x w :
  w_scope w = None -> std <= i ->
  write_ty m (TChoice alts std false) (VChoice i x) w = Err E_INVALID_CHOICE.
Proof.
  intros Hs Hr. cbn [write_ty]. rewrite entry_none by exact Hs. cbn [bind].
  unfold scope_stashed, w_put. rewrite index_reject_nonext by exact Hr. reflexivity.
Qed.

Lemma alphabet_reject m c lo hi ext chars w :
  w_scope w = None -> c <> Utf8 -> find_invalid c chars = true ->
  write_ty m (TStr c lo hi ext) (VStr chars) w = Err E_INVALID_STRING.
Proof.
  intros Hs Hc Hf. apply flat_write_err; [reflexivity|exact Hs|]. rewrite enc_str_eq, Hf by exact Hc. reflexivity.
Qed.

Lemma len_hdr_reject m lo hi up n : n < opt_or lo 0 \/ opt_or hi up < n ->
  len_hdr m false lo hi up n = Err E_SIZE_RANGE.
Proof.
  intros H. unfold len_hdr.
  assert ((n <? opt_or lo 0) || (opt_or hi up <? n) = true) as -> by lia. reflexivity.
Qed.

Lemma ext_len_reject m w min max upper len :
  len < opt_or min 0 \/ opt_or max upper < len ->
  write_ext_bit_and_length m w false min max upper len = Err E_SIZE_RANGE.
Proof. intros H. rewrite write_ext_bit_and_length_eq, len_hdr_reject by exact H. reflexivity. Qed.

Lemma string_size_reject m c lo hi chars w :
  w_scope w = None -> c <> Utf8 -> find_invalid c chars = false ->
  N.of_nat (length chars) < opt_or lo 0 \/ opt_or hi U64_MAX < N.of_nat (length chars) ->
  write_ty m (TStr c lo hi false) (VStr chars) w = Err E_SIZE_RANGE.
Proof.
  intros Hs Hc Hf Hr. apply flat_write_err; [reflexivity|exact Hs|].
  rewrite enc_str_eq, Hf, len_hdr_reject by assumption. reflexivity.
Qed.

Lemma list_size_reject m e lo hi vs w :
  w_scope w = None ->
  N.of_nat (length vs) < opt_or lo 0 \/ opt_or hi I64_MAX < N.of_nat (length vs) ->
  write_ty m (TListOf e lo hi false) (VList vs) w = Err E_SIZE_RANGE.
Proof.
  intros Hs Hr. rewrite write_ty_list_eq, entry_none by exact Hs. cbn [bind].
  rewrite with_buffer_none by exact Hs. unfold scope_stashed at 1.
  rewrite ext_len_reject by exact Hr. reflexivity.
Qed.
