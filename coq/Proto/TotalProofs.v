(* C04 for the protobuf reader model: on every byte list the Reader of Rw.v neither
   panics nor runs out of fuel (the model's rendering of "loops forever"), and never holds a byte range
   that leaves the source or the enclosing window -- for every type without a list of lists
   ([Known_proto_unbounded], F17-3) that is not a bare top-level SEQUENCE OF. *)
From A1 Require Import Base.ListFacts Proto.Rw Proto.RwLemmas Proto.RoundtripProofs.
Local Open Scope N_scope.

(* the varint loop: shift + 7 * fuel is the same in every round (77 in read_varint); 71 or more means that shift
   reaches 64 before the fuel is used up *)
Lemma rvl_spec : forall fuel value shift bs, (1 <= fuel)%nat -> 71 <= shift + 7 * N.of_nat fuel ->
  okp (fun '(_, rest) => exists pre, bs = pre ++ rest /\ (length pre <= fuel)%nat /\ (shift < 64 -> (1 <= length pre)%nat))
      (read_varint_loop fuel value shift bs).
Proof.
  induction fuel as [|fuel IH]; intros value shift bs Hf Hs; [lia|].
  cbn [read_varint_loop]. destruct (shift <? 64) eqn:Hlt.
  - destruct bs as [|b rest]; [exact I|]. cbv zeta.
    destruct (N.land b 128 =? 0).
    + exists [b]. split; [reflexivity|]. cbn [length]. split; lia.
    + eapply okp_imp; [apply (IH _ (shift + 7) rest); lia|].
      intros [v r] (pre & -> & Hl & _). exists (b :: pre). split; [reflexivity|]. cbn [length]. split; lia.
  - exists []. split; [reflexivity|]. cbn [length]. split; lia.
Qed.

Lemma read_varint_spec bs :
  okp (fun '(_, rest) => exists pre, bs = pre ++ rest /\ (1 <= length pre <= 11)%nat) (read_varint bs).
Proof.
  unfold read_varint. eapply okp_imp; [apply (rvl_spec 11 0 0 bs); lia|].
  intros [v r] (pre & E & H1 & H2). exists pre. split; [exact E|lia].
Qed.

Lemma read_tag_spec bs :
  okp (fun '(_, _, rest) => exists pre, bs = pre ++ rest /\ (1 <= length pre <= 11)%nat) (read_tag bs).
Proof.
  unfold read_tag. apply (okp_bind (read_varint_spec bs)). intros [v r] H.
  destruct (format_from (N.land (u32_of_u64 v) 7)) as [f|e|p] eqn:Ef; cbn [bind]; [exact H|exact I|].
  unfold format_from in Ef. destruct (N.land (u32_of_u64 v) 7) as [|[[[]|[]|]|[[]|[]|]|]]; discriminate Ef.
Qed.

Lemma read_tag_shorter bs : okp (fun '(_, _, rest) => nlen rest < nlen bs) (read_tag bs).
Proof. apply (okp_imp (read_tag_spec bs)). intros [[t f] r] (pre & -> & H). unfold nlen. rewrite app_length. lia. Qed.

Lemma varint_then {A} (Q : A -> Prop) bs (f : N * list N -> res A) :
  (forall x, okp Q (f x)) -> okp Q (bind (read_varint bs) f).
Proof. intros H. apply (okp_bind (read_varint_spec bs)). intros x _. apply H. Qed.

Lemma read_bool_total bs : okp (fun _ => True) (read_bool bs).
Proof. apply varint_then. intros [v r]. exact I. Qed.

Lemma number_read_total k bs : okp (fun _ => True) (number_read k bs).
Proof.
  unfold number_read, read_uint32, read_uint64, read_sint32, read_sint64. destruct (kind_sel k).
  - apply (okp_bind (P := fun _ => True)); [apply varint_then; intros [v r]; exact I|intros [v r] _; exact I].
  - apply varint_then. intros [v r]. exact I.
  - apply (okp_bind (P := fun _ => True)); [apply varint_then; intros [v r]; exact I|intros [v r] _; exact I].
  - apply (okp_bind (P := fun _ => True)); [apply varint_then; intros [v r]; exact I|intros [v r] _; exact I].
Qed.

Definition rng_ok (src : list N) (r : range) : Prop := fst r <= snd r /\ snd r <= nlen src.
Definition rng_in (w r : range) : Prop := fst w <= fst r /\ fst r <= snd r /\ snd r <= snd w.
Definition ent_rng (e : tagentry) : range := snd e.
Definition st_ok (src : list N) (st : rstate) : Prop :=
  match st with
  | Root r => rng_ok src r
  | Enclosed _ tags => Forall (fun e => rng_ok src (ent_rng e)) tags
  end.
Definition is_encl (st : rstate) : bool := match st with Enclosed _ _ => true | Root _ => false end.

Lemma rng_in_ok src w r : rng_ok src w -> rng_in w r -> rng_ok src r.
Proof. unfold rng_ok, rng_in. lia. Qed.

Lemma slice_ok src r : rng_ok src r -> exists sl, slice src r = Ok sl /\ nlen sl = snd r - fst r.
Proof.
  destruct r as [s e]. unfold rng_ok, slice. cbn [fst snd]. intros [H1 H2]. assert ((e <? s) = false) as -> by lia.
  assert ((N.of_nat (length src) <? e) = false) as -> by (unfold nlen in H2; lia).
  eexists. split; [reflexivity|]. unfold nlen in *. rewrite firstn_length, skipn_length. lia.
Qed.

Lemma slice_inv src s e sl : slice src (s, e) = Ok sl ->
  s <= e /\ e <= nlen src /\ sl = firstn (N.to_nat (e - s)) (skipn (N.to_nat s) src).
Proof.
  unfold slice. destruct (e <? s) eqn:E1; [discriminate|].
  destruct (N.of_nat (length src) <? e) eqn:E2; [discriminate|]. intros H. injection H as <-.
  unfold nlen. repeat split; lia.
Qed.

Lemma slice_zero src : slice src (0, 0) = Ok [].
Proof. unfold slice. cbn. destruct src; reflexivity. Qed.

Lemma checked_end_spec a b e : okp (fun c => c = a + b /\ c <= e) (checked_end a b e).
Proof.
  unfold checked_end. destruct (usize_max <? a + b); [exact I|].
  destruct (e <? a + b) eqn:E; [exact I|]. cbn. lia.
Qed.

Lemma content_off_len_spec f sl : okp (fun '(off, _) => off <= nlen sl) (content_off_len f sl).
Proof.
  destruct f; cbn [content_off_len okp]; try lia.
  - apply varint_then. intros [v r]. cbn. lia.
  - apply varint_then. intros [v r]. cbn. lia.
Qed.

Lemma ie_loop_spec : forall fuel src lo position e tags,
  e <= nlen src -> lo <= position -> (N.to_nat (e - position) < fuel)%nat ->
  Forall (fun t => rng_in (lo, e) (ent_rng t)) tags ->
  okp (Forall (fun t => rng_in (lo, e) (ent_rng t))) (ie_loop fuel src position e tags).
Proof.
  induction fuel as [|fuel IH]; intros src lo position e tags He Hlo Hfuel Htags; [lia|].
  cbn [ie_loop]. destruct (position <? e) eqn:Hlt; [|exact Htags].
  destruct (slice_ok src (position, e)) as (sl & -> & Hsl); [split; cbn [fst snd]; lia|]. cbn [bind fst snd] in *.
  apply (okp_bind (read_tag_shorter sl)). intros [[tag fmt] rest] Htl.
  apply (okp_bind (content_off_len_spec fmt rest)). intros [off clen] Hc.
  apply (okp_bind (checked_end_spec _ _ _)). intros ce [Ece Hce].
  apply IH; try assumption; try lia.
  apply Forall_app. split; [exact Htags|]. constructor; [|constructor].
  unfold rng_in, ent_rng. cbn [fst snd]. lia.
Qed.

Lemma index_enclosed_spec src r :
  rng_ok src r ->
  okp (fun st => exists tags, st = Enclosed 1 tags /\ Forall (fun t => rng_in r (ent_rng t)) tags) (index_enclosed src r).
Proof.
  intros [H1 H2]. unfold index_enclosed. destruct r as [s e]. cbn [fst snd] in *.
  eapply okp_bind; [apply (ie_loop_spec (length src + 2) src s s e [] H2 (N.le_refl s)); [unfold nlen in *; lia|constructor]|].
  intros tags H. exists tags. split; [reflexivity|exact H].
Qed.

Lemma index_enclosed_ok src r :
  rng_ok src r -> okp (fun st => st_ok src st /\ is_encl st = true) (index_enclosed src r).
Proof.
  intros Hr. apply (okp_imp (index_enclosed_spec src r Hr)).
  intros st (tags & -> & Ht). split; [|reflexivity]. cbn [st_ok].
  eapply Forall_impl; [|exact Ht]. intros t. apply rng_in_ok, Hr.
Qed.

Lemma take_tag_ok src next filter : forall tags r rest,
  Forall (fun e => rng_ok src (ent_rng e)) tags -> take_tag next filter tags = Some (r, rest) ->
  rng_ok src r /\ Forall (fun e => rng_ok src (ent_rng e)) rest.
Proof.
  induction tags as [|[[tag f] rg] tags IH]; intros r rest Hf H; [discriminate|].
  cbn [take_tag] in H. inversion Hf as [|? ? H1 H2]; subst.
  destruct ((tag =? next) && match filter with Some g => format_eqb g f | None => true end).
  - injection H as <- <-. split; assumption.
  - destruct (take_tag next filter tags) as [[r' rest']|] eqn:E; [|discriminate]. injection H as <- <-.
    destruct (IH r' rest' H2 eq_refl) as [I1 I2]. split; [exact I1|constructor; assumption].
Qed.

Lemma next_tag_range_ok src incr filter st : st_ok src st ->
  let '(o, st') := next_tag_range incr filter st in
  st_ok src st' /\ is_encl st' = is_encl st /\ rng_ok src (unwrap_or o (0, 0)).
Proof.
  assert (Z : rng_ok src (0, 0)) by (unfold rng_ok; cbn; lia).
  intros H. destruct st as [r|tc tags]; cbn [next_tag_range].
  - split; [exact H|split; [reflexivity|exact H]].
  - destruct (take_tag tc filter tags) as [[r rest]|] eqn:E.
    + destruct (take_tag_ok src tc filter tags r rest H E) as [H1 H2]. split; [exact H2|split; [reflexivity|exact H1]].
    + split; [exact H|split; [reflexivity|exact Z]].
Qed.

Lemma next_reader_ok src f st : st_ok src st ->
  okp (fun '(_, st') => st_ok src st' /\ is_encl st' = is_encl st) (next_reader src f st).
Proof.
  intros H. unfold next_reader. pose proof (next_tag_range_ok src true (Some f) st H) as N.
  destruct (next_tag_range true (Some f) st) as [o st']. destruct N as (N1 & N2 & N3).
  destruct (slice_ok src _ N3) as (sl & -> & _). split; assumption.
Qed.

(* the one class in which the reader diverges (F17-3): a SEQUENCE OF whose element type is again a SEQUENCE OF,
   anywhere inside the type; the inner read_set_or_sequence_of runs in State::Root *)
Inductive Known_proto_unbounded : pty -> Prop :=
| KP_nested e : Known_proto_unbounded (TSeqOf (TSeqOf e))
| KP_in_seq fs o t : In (o, t) fs -> Known_proto_unbounded t -> Known_proto_unbounded (TSeq fs)
| KP_in_list t : Known_proto_unbounded t -> Known_proto_unbounded (TSeqOf t)
| KP_in_choice alts a : In a alts -> Known_proto_unbounded a -> Known_proto_unbounded (TChoice alts).

(* a SEQUENCE OF is only read inside a message (a generated type is a struct or an enum); a step keeps the kind of
   the state *)
Definition rd_safe (m : mode) (t : pty) : Prop :=
  forall src st, st_ok src st -> (is_seqof t = true -> is_encl st = true) ->
  okp (fun '(_, st') => st_ok src st' /\ is_encl st' = is_encl st) (rd m src t st).

(* the side condition of [rd_safe] is void for a type that is not a SEQUENCE OF *)
Lemma not_seqof t (P : Prop) : is_seqof t = false -> is_seqof t = true -> P.
Proof. intros H E. rewrite H in E. discriminate E. Qed.

Lemma incr_ok src st : st_ok src st -> st_ok src (increment_tag_counter st) /\ is_encl (increment_tag_counter st) = is_encl st.
Proof. destruct st; intros H; split; try exact H; reflexivity. Qed.

Lemma rd_fields_safe m src fs :
  Forall (fun p => rd_safe m (snd p)) fs -> forall st, st_ok src st -> is_encl st = true ->
  okp (fun '(_, st') => st_ok src st' /\ is_encl st' = true) (rd_fields m src fs st).
Proof.
  induction 1 as [|[o t] fs Ht _ IH]; intros st Hst He.
  - cbn. split; assumption.
  - cbn [snd] in Ht.
    assert (STEP : forall (wrap : pval -> pval),
              okp (fun '(_, st') => st_ok src st' /\ is_encl st' = true)
                  (let! (v, st1) := rd m src t st in
                   let! (vs, st2) := rd_fields m src fs st1 in Ok (wrap v :: vs, st2))).
    { intros wrap. apply (okp_bind (Ht src st Hst (fun _ => He))). intros [v st1] [R1 R2]. rewrite He in R2.
      apply (okp_bind (IH st1 R1 R2)). intros [vs st2] F. exact F. }
    destruct o; cbn [rd_fields].
    + destruct (hast_next_tag st).
      * apply (STEP (fun v => VOpt (Some v))).
      * destruct (incr_ok src st Hst) as [I1 I2]. rewrite He in I2.
        apply (okp_bind (IH _ I1 I2)). intros [vs st2] F. exact F.
    + apply (STEP (fun v => v)).
Qed.

Lemma rd_loop_safe m src t' tc : rd_safe m t' -> is_seqof t' = false ->
  forall tags, Forall (fun e => rng_ok src (ent_rng e)) tags ->
  okp (fun '(_, kept) => Forall (fun e => rng_ok src (ent_rng e)) kept) (rd_loop m src t' tc tags).
Proof.
  intros Ht Hs. induction 1 as [|[[tag f] r] tags Hr _ IH]; [constructor|].
  cbn [rd_loop]. unfold ent_rng in Hr. cbn [snd] in Hr.
  destruct (tag =? tc).
  - apply (okp_bind (Ht src (Root r) Hr (not_seqof t' _ Hs))).
    intros [v st1] _. apply (okp_bind IH). intros [vs kept] K. exact K.
  - apply (okp_bind IH). intros [vs kept] K. constructor; [exact Hr|exact K].
Qed.

Theorem reader_total m : forall t, ~ Known_proto_unbounded t -> rd_safe m t.
Proof.
  induction t as [| k | | | | | n | fs IH | t' IH | alts IH] using pty_nested_ind; intros Hk src st Hst Hroot.
  - (* bool *)
    cbn [rd]. apply (okp_bind (next_reader_ok src VarInt st Hst)). intros [sl st'] N.
    destruct (is_nil sl); [exact N|].
    apply (okp_bind (read_bool_total sl)). intros [b r] _. exact N.
  - (* int *)
    cbn [rd]. apply (okp_bind (next_reader_ok src VarInt st Hst)). intros [sl st'] N.
    destruct (is_nil sl); [exact N|].
    apply (okp_bind (number_read_total k sl)). intros z _. exact N.
  - (* string *)
    cbn [rd]. apply (okp_bind (next_reader_ok src LengthDelimited st Hst)). intros [sl st'] N.
    unfold read_string. destruct (utf8_valid sl); cbn [bind]; [exact N|exact I].
  - (* bytes *)
    cbn [rd]. apply (okp_bind (next_reader_ok src LengthDelimited st Hst)). intros [sl st'] N. exact N.
  - (* bit string: the length check in front of from_vec_with_trailing_bit_len keeps it total *)
    cbn [rd]. apply (okp_bind (next_reader_ok src LengthDelimited st Hst)). intros [sl st'] N.
    unfold read_bytes. cbn [bind]. destruct (is_nil sl); [exact N|].
    destruct (length sl <? 8)%nat eqn:E8; [exact I|]. unfold bitvec_from_trailing. rewrite E8. exact N.
  - (* null *)
    cbn [rd]. apply incr_ok, Hst.
  - (* enumerated *)
    cbn [rd]. pose proof (next_tag_range_ok src true (Some VarInt) st Hst) as N.
    destruct (next_tag_range true (Some VarInt) st) as [o st']. destruct N as (N1 & N2 & N3).
    destruct o as [[s e]|]; cbn [bind].
    + destruct (slice_ok src (s, e) N3) as (sl & -> & _). cbn [bind].
      apply (okp_bind (P := fun _ => True)); [apply varint_then; intros [v r]; exact I|]. intros v _.
      destruct (v <? n); [split; assumption|exact I].
    + destruct (0 <? n); [split; assumption|exact I].
  - (* sequence *)
    rewrite rd_seq_eq. pose proof (next_tag_range_ok src true (Some LengthDelimited) st Hst) as N.
    destruct (next_tag_range true (Some LengthDelimited) st) as [o st']. destruct N as (N1 & N2 & N3).
    apply (okp_bind (index_enclosed_ok src _ N3)). intros enc [I1 I2].
    assert (HF : Forall (fun p => rd_safe m (snd p)) fs).
    { rewrite Forall_forall in *. intros [o' t] Hin. apply (IH _ Hin). intros K. apply Hk, (KP_in_seq fs o' t Hin K). }
    apply (okp_bind (rd_fields_safe m src fs HF enc I1 I2)). intros [vs stf] _. split; assumption.
  - (* sequence of *)
    specialize (Hroot eq_refl). destruct st as [r|tc tags]; [discriminate Hroot|].
    rewrite rd_seqof_eq.
    assert (Hs : is_seqof t' = false).
    { destruct t'; try reflexivity. exfalso. apply Hk. constructor. }
    assert (Hk' : ~ Known_proto_unbounded t') by (intros K; apply Hk, KP_in_list, K).
    apply (okp_bind (rd_loop_safe m src t' tc (IH Hk') Hs tags Hst)). intros [vs kept] L. split; [exact L|reflexivity].
  - (* choice *)
    cbn [rd]. pose proof (next_tag_range_ok src true None st Hst) as N.
    destruct (next_tag_range true None st) as [o st']. destruct N as (N1 & N2 & N3).
    destruct o as [[s e]|]; [|exact I].
    destruct (slice_ok src (s, e) N3) as (sl & -> & Hsl). destruct N3 as [R1 R2]. cbn [bind unwrap_or fst snd] in *.
    apply (okp_bind (read_tag_spec sl)). intros [[tag fmt] rest] _.
    apply (okp_bind (P := fun _ => True)).
    { destruct (format_eqb fmt LengthDelimited); [|exact I]. apply varint_then. intros [v r2]. exact I. }
    intros rest' _. cbv zeta. rewrite pick_nth_alt. destruct (nth_alt alts (tag - 1)) as [a|] eqn:Ea; cbn [bind]; [|exact I].
    destruct (nth_alt_in alts (tag - 1) a Ea) as [Hin _].
    rewrite Forall_forall in IH.
    assert (Hka : ~ Known_proto_unbounded a) by (intros K; apply Hk; apply (KP_in_choice alts a Hin K)).
    set (inner := Enclosed 1 [(1, fmt, (s + (nlen sl - nlen rest'), e))]).
    assert (Hin_ok : st_ok src inner).
    { cbn [inner st_ok]. constructor; [|constructor]. unfold rng_ok, ent_rng. cbn [fst snd]. lia. }
    apply (okp_bind (P := fun _ => True)).
    + apply (okp_bind (IH a Hin Hka src inner Hin_ok (fun _ => eq_refl))). intros [v st1] _. exact I.
    + intros [v|] _; [split; assumption|exact I].
Qed.

Theorem pread_total m t bs :
  is_seqof t = false -> ~ Known_proto_unbounded t -> forall p, pread m t bs <> Panic p.
Proof.
  intros Hs Hk. apply (okp_npan (P := fun _ => True)). unfold pread.
  assert (Hst : st_ok bs (Root (0, nlen bs))) by (cbn; unfold rng_ok; cbn [fst snd]; lia).
  apply (okp_bind (reader_total m t Hk bs (Root (0, nlen bs)) Hst (not_seqof t _ Hs))).
  intros [v st'] _. exact I.
Qed.

Theorem reader_ranges_ok m t src st v st' :
  ~ Known_proto_unbounded t -> st_ok src st -> (is_seqof t = true -> is_encl st = true) ->
  rd m src t st = Ok (v, st') -> st_ok src st'.
Proof.
  intros Hk Hst Hr E. apply (okp_ok (reader_total m t Hk src st Hst Hr) E).
Qed.

Theorem index_enclosed_window src r tc tags :
  rng_ok src r -> index_enclosed src r = Ok (Enclosed tc tags) ->
  Forall (fun t => rng_in r (ent_rng t)) tags.
Proof.
  intros Hr E. destruct (okp_ok (index_enclosed_spec src r Hr) E) as (tags' & E' & H).
  injection E' as _ <-. exact H.
Qed.

(* a boolean test that every type of the class fails *)
Fixpoint no_nested_list (t : pty) : bool :=
  match t with
  | TSeq fs => forallb (fun p => no_nested_list (snd p)) fs
  | TSeqOf t' => negb (is_seqof t') && no_nested_list t'
  | TChoice alts => forallb no_nested_list alts
  | _ => true
  end.

Lemma known_unbounded_not t : Known_proto_unbounded t -> no_nested_list t = false.
Proof.
  induction 1 as [e|fs o t Hin _ IH|t _ IH|alts a Hin _ IH]; cbn [no_nested_list].
  - reflexivity.
  - apply (forallb_false_in _ fs (o, t) Hin). exact IH.
  - rewrite IH. apply andb_false_r.
  - apply (forallb_false_in _ alts a Hin). exact IH.
Qed.
