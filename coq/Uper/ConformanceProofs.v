(* L2 conformance proofs (C02): the implementation-shaped reference encoder [enc] of Uper/Spec.v
   (= the writer model, by C01_writer_is_reference) against the clause-by-clause type-level
   transcription of X.691 in Uper/X691Type.v, for descriptors inside the conformance profile
   (DESIGN.md section 4) and outside the deviation classes [Known_C02]. *)
From A1 Require Export Uper.X691Type.
From A1 Require Import Uper.Proofs.
Local Open Scope N_scope.

(* DESIGN.md section 4: INTEGER unconstrained / (A..B) / (A..B, ...): both bounds or none, an
   extension marker only after a constraint; SIZE(N) / SIZE(A..B) or none: both bounds or none *)
Fixpoint in_profile (t : ty) : Prop :=
  match t with
  | TBool | TNull | TEnum _ _ _ => True
  | TInt _ lo hi ext => is_some lo = is_some hi /\ (ext = true -> is_some lo = true)
  | TStr _ lo hi _ | TOctets lo hi _ | TBitStr lo hi _ => is_some lo = is_some hi
  | TListOf e lo hi _ => is_some lo = is_some hi /\ in_profile e
  | TSeq fs _ _ _ =>
      (fix all (fs : list (fkind * ty)) : Prop :=
         match fs with [] => True | (_, ft) :: r => in_profile ft /\ all r end) fs
  | TChoice alts _ _ =>
      (fix all (alts : list ty) : Prop :=
         match alts with [] => True | a :: r => in_profile a /\ all r end) alts
  end.

Definition in_root (lo hi : option N) (n : N) : Prop :=
  opt_or lo 0 <= n /\ match hi with Some u => n <= u | None => True end.
(* the classes of [Known_C02], numbered (1) to (7) and (2') for the witnesses at the end of the file.
   (1) F10-1 / F02-1: an in-root size under an upper bound of 64K or more *)
Definition size_upper_bound_64k (lo hi : option N) (n : N) : Prop :=
  exists u, hi = Some u /\ 65536 <= u /\ opt_or lo 0 <= n <= u.
(* (2) F02-2: 16K or more items under the unconstrained length form (no upper bound, or outside
   the root of an extensible size constraint) *)
Definition fragmentation_16k (lo hi : option N) (ext : bool) (n : N) : Prop :=
  16384 <= n /\ ((hi = None /\ opt_or lo 0 <= n) \/ (ext = true /\ ~ in_root lo hi n)).
Definition Known_C02_size (lo hi : option N) (ext : bool) (n : N) : Prop :=
  size_upper_bound_64k lo hi n \/ fragmentation_16k lo hi ext n.
(* (3) F02-3: the content of an open type encodes to zero bits *)
Definition empty_open_type (t : ty) (x : val) : Prop := x691 t x = Some [].
(* (2') F01-3 (reader side only): an open type with 16K octets of content or more *)
Definition open_type_16k (t : ty) (x : val) : Prop :=
  exists b, x691 t x = Some b /\ 16384 <= (bl b + 7) / 8.
(* (4) F02-4: a mandatory CHOICE component after the extension marker *)
Definition mandatory_choice_addition_inline (k : fkind) (ft : ty) : Prop := wraps k ft = false.

(* [presence] of Uper/Proofs.v: equal by computation on [Some x] and on an absent OPTIONAL or DEFAULT; they differ
   at [(FReq, None)] (there [presence] is true), which [wf_val] excludes.  [presents] likewise is [presences] *)
Definition present (k : fkind) (ov : option val) : bool :=
  match ov with
  | Some x => match k with FDef d => negb (val_eqb d x) | _ => true end
  | None => false
  end.
Fixpoint presents (fs : list (fkind * ty)) (vals : list (option val)) : list bool :=
  match fs, vals with
  | (k, _) :: fs', ov :: vals' => present k ov :: presents fs' vals'
  | _, _ => []
  end.
(* (5) more than 64 extension additions, one of them present; (6) the first addition absent and
   a later one present (the refusal sanctioned by C03) *)
Definition more_than_64_additions (ps : list bool) : Prop := existsb (fun p => p) ps = true /\ (64 < length ps)%nat.
Definition first_addition_absent (ps : list bool) : Prop :=
  match ps with p1 :: rest => p1 = false /\ existsb (fun p => p) rest = true | [] => False end.

Lemma presents_length : forall fs vals, length vals = length fs -> length (presents fs vals) = length fs.
Proof.
  induction fs as [|[k ft] fs IH]; intros [|ov vals] H; try discriminate H; [reflexivity|].
  cbn [presents length]. rewrite IH by (cbn [length] in H; lia). reflexivity.
Qed.

Fixpoint Known_C02 (t : ty) (v : val) {struct t} : Prop :=
  match t, v with
  | TInt _ _ _ _, VInt z => ~ is_i64 z                      (* (7) INTEGER value outside i64 *)
  | TStr Utf8 _ _ _, VStr _ => False
  | TStr _ lo hi ext, VStr cs => Known_C02_size lo hi ext (N.of_nat (length cs))
  | TOctets lo hi _, VOctets bs => size_upper_bound_64k lo hi (blen bs)
  | TBitStr lo hi ext, VBits _ n => Known_C02_size lo hi ext n
  | TListOf e lo hi ext, VList vs =>
      Known_C02_size lo hi ext (N.of_nat (length vs)) \/
      (fix any (vs : list val) : Prop :=
         match vs with [] => False | x :: r => Known_C02 e x \/ any r end) vs
  | TSeq fs _ _ ea, VSeq vals =>
      (let ps := skipn (root_len fs ea) (presents fs vals) in
       more_than_64_additions ps \/ first_addition_absent ps) \/
      (fix any (fs : list (fkind * ty)) (vals : list (option val)) (i : nat) : Prop :=
         match fs, vals with
         | (k, ft) :: fs', ov :: vals' =>
             match ov with
             | Some x => encoded k x /\
                         (Known_C02 ft x \/
                          (is_addition ea i /\
                           (mandatory_choice_addition_inline k ft \/ empty_open_type ft x \/ open_type_16k ft x)))
             | None => False
             end \/ any fs' vals' (S i)
         | _, _ => False
         end) fs vals O
  | TChoice alts std _, VChoice i x =>
      (fix pick (alts : list ty) (n : nat) : Prop :=
         match alts, n with
         | a :: _, O => Known_C02 a x \/ (std <= i /\ (empty_open_type a x \/ open_type_16k a x))
         | _ :: r, S n' => pick r n'
         | [], _ => False
         end) alts (N.to_nat i)
  | _, _ => False
  end.

(** * values of the ASN.1 type *)
Fixpoint sat (t : ty) (v : val) {struct t} : Prop :=
  match t, v with
  | TBool, VBool _ => True
  | TNull, VNull => True
  | TInt _ lo hi ext, VInt z => ext = true \/ in_range lo hi z = true
  | TEnum vc std ext, VEnum i => i < vc /\ (ext = true \/ i < std)
  | TStr c lo hi ext, VStr cs =>
      forallb (cs_valid c) cs = true /\ (ext = true \/ in_root lo hi (N.of_nat (length cs)))
  | TOctets lo hi ext, VOctets bs => ext = true \/ in_root lo hi (blen bs)
  | TBitStr lo hi ext, VBits _ n => ext = true \/ in_root lo hi n
  | TListOf e lo hi ext, VList vs =>
      (ext = true \/ in_root lo hi (N.of_nat (length vs))) /\
      (fix all (vs : list val) : Prop := match vs with [] => True | x :: r => sat e x /\ all r end) vs
  | TSeq fs _ _ _, VSeq vals =>
      (fix all (fs : list (fkind * ty)) (vals : list (option val)) : Prop :=
         match fs, vals with
         | [], [] => True
         | (k, ft) :: fs', ov :: vals' =>
             match ov with Some x => sat ft x | None => k = FOpt end /\ all fs' vals'
         | _, _ => False
         end) fs vals
  | TChoice alts std ext, VChoice i x =>
      (ext = true \/ i < std) /\
      (fix pick (alts : list ty) (n : nat) : Prop :=
         match alts, n with
         | a :: _, O => sat a x
         | _ :: r, S n' => pick r n'
         | [], _ => False
         end) alts (N.to_nat i)
  | _, _ => False
  end.

Definition agrees (o : option bits) (r : res bits) : Prop :=
  match o with Some b => r = Ok b | None => is_ok r = false end.

(* E, S: the two inductions over [ty] of this file.  [Ebody]: outside [Known_C02], [enc] agrees with [x691] and, where
   [x691] has an encoding, the value is outside the classes of C01 as well (one induction: the open-type class of C01
   speaks of [enc], that of C02 of [x691], so the second half needs the first at every component); [Sbody] (below):
   [x691] is defined on the values that satisfy the constraints, whatever the descriptor.
   "body" is the statement for one type, [Eprop] the same under [wf_ty] and [in_profile], which the induction proves *)
Definition Ebody (m : mode) (t : ty) : Prop :=
  forall v, wf_val t v -> ~ Known_C02 t v ->
  agrees (x691 t v) (enc m t v) /\ (x691 t v <> None -> ~ Known_C01 m t v).
Definition Eprop (m : mode) (t : ty) : Prop := wf_ty t -> in_profile t -> Ebody m t.

Lemma agrees_exact o e : agrees o (match o with Some b => Ok b | None => Err e end).
Proof. destruct o; reflexivity. Qed.

Lemma agrees_bind o r (f : bits -> option bits) (g : bits -> res bits) :
  agrees o r -> (forall b, agrees (f b) (g b)) ->
  agrees (match o with Some b => f b | None => None end) (bind r g).
Proof.
  destruct o as [b|]; cbn [agrees]; intros H Hg; [rewrite H; apply Hg|apply not_ok_bind; exact H].
Qed.

Lemma agrees_some o r b : agrees o r -> o = Some b -> r = Ok b.
Proof. intros H ->. exact H. Qed.
Lemma agrees_none o r : agrees o r -> o = None -> is_ok r = false.
Proof. intros H ->. exact H. Qed.

Definition all_in_profile :=
  fix all (alts : list ty) : Prop := match alts with [] => True | a :: r => in_profile a /\ all r end.
Definition all_fields_in_profile :=
  fix all (fs : list (fkind * ty)) : Prop :=
    match fs with [] => True | (_, ft) :: r => in_profile ft /\ all r end.

Lemma alt_discharge (P : ty -> Prop) a : forall alts,
  Forall (fun a => wf_ty a -> in_profile a -> P a) alts -> all_wf_ty alts -> all_in_profile alts -> In a alts -> P a.
Proof.
  induction alts as [|a0 alts IH]; intros F Hw Hp Hin; [contradiction Hin|]. destruct Hin as [->|Hin].
  - apply (Forall_inv F); [apply Hw|apply Hp].
  - apply IH; [exact (Forall_inv_tail F)|apply Hw|apply Hp|exact Hin].
Qed.

Lemma E_int m k lo hi ext : Eprop m (TInt k lo hi ext).
Proof.
  intros (Hlo & Hhi & Hle) (Hp & Hpe) v Hv Hk. destruct v; try contradiction Hv. split; [|exact (fun _ C => C)].
  cbn [Known_C02] in Hk. cbn [x691 enc]. unfold int_enc, to_i64.
  assert (Hz : is_i64 z) by (unfold is_i64 in *; lia).
  rewrite (u64_i64_roundtrip z Hz). unfold x_integer, in_range.
  destruct lo as [l|], hi as [h|]; cbn [is_some] in Hp; try discriminate Hp.
  - cbn [opt_or is_some negb andb].
    rewrite (codec_write (constrained_codec m l h z Hlo Hhi)), (unconstrained_write m z Hz). unfold x_constrained.
    destruct ((l <=? z)%Z && (z <=? h)%Z) eqn:Er, ext; try reflexivity.
    + replace ((z <? l)%Z || (h <? z)%Z) with false by lia. reflexivity.
    + replace ((z <? l)%Z || (h <? z)%Z) with true by lia. reflexivity.
  - destruct ext; [specialize (Hpe eq_refl); discriminate Hpe|].
    cbn [andb is_some negb]. rewrite (unconstrained_write m z Hz). reflexivity.
Qed.

Lemma E_enum m vc std ext : Eprop m (TEnum vc std ext).
Proof.
  intros (H1 & H2 & H3 & H4) _ v Hv _. destruct v; try contradiction Hv. split; [|exact (fun _ C => C)].
  cbn [x691 enc]. cbn [wf_val] in Hv. destruct (N.ltb_spec index vc); [|lia].
  rewrite (codec_write (index_codec m std ext index ltac:(unfold SIZE_LIMIT, two64 in *; lia) ltac:(unfold SIZE_LIMIT, two64 in *; lia))).
  apply agrees_exact.
Qed.

Lemma not_sized_known lo hi n : is_some lo = is_some hi -> ~ size_upper_bound_64k lo hi n ->
  ~ Known_C10_sized_length lo hi n.
Proof.
  intros Hp Hk [C R]. unfold Known_C10_length_semi_or_large_bound in C.
  destruct hi as [u|].
  - apply Hk. exists u. cbn [opt_or] in R. repeat split; try lia.
  - destruct lo; [discriminate Hp|]. apply C. reflexivity.
Qed.

Lemma E_octets m lo hi ext : Eprop m (TOctets lo hi ext).
Proof.
  intros Hty Hp v Hv Hk. destruct v; try contradiction Hv.
  cbn [x691 enc Known_C01]. cbn [wf_val] in Hv. cbn [Known_C02] in Hk. cbn [in_profile] in Hp.
  destruct Hv as [_ Hn]. pose proof (not_sized_known lo hi _ Hp Hk) as H10. split; [|exact (fun _ => H10)].
  rewrite octetstring_write; [apply agrees_exact|unfold SIZE_LIMIT, two63 in *; lia|exact H10].
Qed.

(* outside [fragmentation_16k] the unconstrained length form is only used below 16K *)
Lemma unc_short lo hi ext n : ~ Known_C02_size lo hi ext n ->
  (hi = None /\ opt_or lo 0 <= n) \/ (ext = true /\ ~ in_root lo hi n) -> n < 16384.
Proof. intros Hk C. destruct (N.lt_ge_cases n 16384) as [L|L]; [exact L|]. exfalso. apply Hk. right. split; assumption. Qed.

Lemma in_root_spec lo hi n :
  (opt_or lo 0 <=? n) && match hi with Some u => n <=? u | None => true end = true <-> in_root lo hi n.
Proof. unfold in_root. destruct hi; lia. Qed.
Lemma in_size_root lo hi n : in_size lo hi n = true <-> in_root lo hi n.
Proof. unfold in_size, in_root. destruct lo, hi; cbn [opt_or]; lia. Qed.
Lemma in_root_dec lo hi n : in_root lo hi n \/ ~ in_root lo hi n.
Proof. unfold in_root. destruct hi; lia. Qed.
Lemma count_in_root lo hi up n : n <= up -> count_in_range lo hi up n <-> in_root lo hi n.
Proof. unfold count_in_range, in_root. destruct hi; cbn [opt_or]; lia. Qed.

(* an encoding in the root, and outside it exactly under an extension marker *)
Lemma sized_defined unit lo hi ext n body :
  x_sized_run unit lo hi ext n body <> None <-> ext = true \/ in_root lo hi n.
Proof.
  unfold x_sized_run. change (match lo with Some l => l | None => 0 end) with (opt_or lo 0). cbv zeta. rewrite <- in_root_spec.
  destruct (_ && _) eqn:Er; [|destruct ext; intuition congruence].
  split; [auto|intros _]. apply in_root_spec in Er. destruct Er as [E1 E2]. destruct hi as [u|]; [|discriminate].
  destruct (u =? 0); [discriminate|]. destruct ((opt_or lo 0 =? u) && (u <? 65536)); [discriminate|].
  destruct (u <? 65536); [|discriminate].
  destruct (x_constrained_some (Z.of_N (opt_or lo 0)) (Z.of_N u) (Z.of_N n) ltac:(lia)) as [b ->]. discriminate.
Qed.

(* inside the profile and outside the two size classes, a count that X.691 can encode travels in one of two forms:
   constrained (in the root, under an upper bound below 64K) or short unconstrained (no bounds, or out of the root);
   neither is a length form the crate gets wrong *)
Lemma size_form lo hi ext n : is_some lo = is_some hi -> ~ Known_C02_size lo hi ext n -> ext = true \/ in_root lo hi n ->
  (exists u, hi = Some u /\ u < 65536 /\ opt_or lo 0 <= n <= u) \/
  (n < 16384 /\ ((lo = None /\ hi = None) \/ ~ in_root lo hi n)).
Proof.
  intros Hp Hk Hr. pose proof (unc_short lo hi ext n Hk) as Hs. destruct (in_root_dec lo hi n) as [[R1 R2]|R].
  - destruct hi as [u|]; [left|right; destruct lo; [discriminate Hp|auto]].
    exists u. split; [reflexivity|]. split; [|exact (conj R1 R2)].
    destruct (N.lt_ge_cases u 65536) as [L|L]; [exact L|]. exfalso. apply Hk. left. exists u. auto.
  - right. destruct Hr as [->|Hr]; [auto|contradiction].
Qed.

Lemma not_bitstring_16k lo hi ext n : is_some lo = is_some hi -> ~ Known_C02_size lo hi ext n ->
  ext = true \/ in_root lo hi n -> ~ Known_C10_bitstring_16k lo hi n.
Proof. intros Hp Hk Hr [H16 Hn]. destruct (size_form lo hi ext n Hp Hk Hr) as [V|[L _]]; [exact (Hn V)|exact (proj1 (N.lt_nge _ _) L H16)]. Qed.

Lemma not_known_len lo hi ext up n : is_some lo = is_some hi -> ~ Known_C02_size lo hi ext n ->
  ext = true \/ in_root lo hi n -> n <= up -> ~ Known_C01_len lo hi up n.
Proof.
  intros Hp Hk Hr Hup [[C B]|[H16 C]]; rewrite (count_in_root lo hi up n Hup) in C.
  - (* F10-1: in the root under a large or missing upper bound *)
    destruct (size_form lo hi ext n Hp Hk Hr) as [(u & -> & Hu & _)|[_ [[-> ->]|R]]];
      [exact (proj1 (N.lt_nge _ _) Hu B)|exact (B eq_refl)|exact (R C)].
  - (* 16K items or more under the unconstrained form *)
    destruct (size_form lo hi ext n Hp Hk Hr) as [(u & -> & _ & R)|[L _]]; [|exact (proj1 (N.lt_nge _ _) L H16)].
    destruct C as [C|[_ C]]; [exact (C R)|discriminate C].
Qed.

Lemma x_bitstring_canonical lo hi ext bytes n : canonical_bits bytes n ->
  x_bitstring lo hi ext (firstn (N.to_nat n) (bits_of_bytes bytes)) =
  x_sized_run 1 lo hi ext n (firstn (N.to_nat n) (bits_of_bytes bytes)).
Proof.
  intros Hc. destruct (canonical_content _ _ Hc) as (Hl & _). cbv zeta in Hl.
  unfold x_bitstring. fold (bl (firstn (N.to_nat n) (bits_of_bytes bytes))). rewrite Hl. reflexivity.
Qed.

Lemma E_bitstr m lo hi ext : Eprop m (TBitStr lo hi ext).
Proof.
  intros Hty Hp v Hv Hk. destruct v; try contradiction Hv.
  cbn [wf_val] in Hv. cbn [Known_C02] in Hk. cbn [in_profile] in Hp. destruct Hv as [Hc Hn].
  destruct (canonical_content _ _ Hc) as (_ & _ & Hle). cbn [x691 enc Known_C01].
  destruct (x_bitstring lo hi ext _) as [bs|] eqn:Hx; cbn [agrees]; rewrite x_bitstring_canonical in Hx by exact Hc.
  - pose proof (not_sized_known lo hi _ Hp (fun C => Hk (or_introl C))) as H10.
    pose proof (not_bitstring_16k lo hi ext _ Hp Hk (proj1 (sized_defined _ _ _ _ _ _) ltac:(rewrite Hx; discriminate))) as H16.
    split; [|tauto].
    rewrite bitstring_write; [|lia|unfold SIZE_LIMIT, two63 in *; lia|exact H10|exact H16].
    cbn [N.to_nat skipn]. rewrite x_bitstring_canonical, Hx by exact Hc. reflexivity.
  - split; [|congruence]. assert (Hr : ~ (ext = true \/ in_root lo hi bit_len)) by (intros C; exact (proj2 (sized_defined _ _ _ _ _ _) C Hx)).
    destruct ext; [contradiction Hr; left; reflexivity|]. rewrite bitstring_reject; [reflexivity|].
    unfold in_root in Hr. destruct hi; cbn [opt_or]; unfold I64_MAX, two63, SIZE_LIMIT in *; lia.
Qed.

(* the counted kinds without a writer of their own (known-multiplier strings, SEQUENCE OF): the header
   [len_hdr] followed by the items is the sized run of 16 / 17 / 30.5.7; the same five cases as for
   OCTET STRING and BIT STRING ([octetstring_write]) *)
Lemma len_hdr_run m unit lo hi ext up n body : is_some lo = is_some hi -> n <= up -> n < two63 ->
  ~ Known_C02_size lo hi ext n -> (n = 0 -> body = []) ->
  (let! h := len_hdr m ext lo hi up n in Ok (h ++ body)) =
  match x_sized_run unit lo hi ext n body with Some b => Ok b | None => Err E_SIZE_RANGE end.
Proof.
  intros Hp Hup Hn Hk Hb. pose proof (unc_short lo hi ext n Hk) as Hs.
  assert (Hk10 : ~ Known_C10_sized_length lo hi n) by (apply not_sized_known; [exact Hp|intros C; apply Hk; left; exact C]).
  unfold len_hdr. cbv zeta.
  destruct (x_sized_run_cases unit lo hi ext n body Hn Hk10 Hb) as [[Hout ->]|(Hin & root & V & ->)].
  - assert (Hr : ~ in_root lo hi n) by (unfold in_root, I64_MAX in *; destruct hi; cbn [opt_or] in *; lia).
    replace ((n <? opt_or lo 0) || (opt_or hi up <? n)) with true
      by (unfold I64_MAX in Hout; destruct lo, hi; try discriminate Hp; cbn [opt_or] in *; lia).
    destruct ext; [|reflexivity]. cbn [negb]. rewrite w_len_unc. cbn [bind app].
    rewrite x_run_short, x_len_first_short by (apply Hs; right; split; [reflexivity|exact Hr]). reflexivity.
  - replace ((n <? opt_or lo 0) || (opt_or hi up <? n)) with false by (destruct hi; cbn [opt_or] in *; lia).
    destruct V as [u lenb -> Hu Hx _ | -> ->].
    + rewrite (length_write m lo (Some u) n lenb); [|intros C; cbn in C; lia|exact Hx].
      cbn [bind]. rewrite app_assoc. reflexivity.
    + rewrite w_len_unc. cbn [bind]. rewrite x_run_short, x_len_first_short, app_assoc by (apply Hs; left; split; [reflexivity|apply N.le_0_l]). reflexivity.
Qed.

Lemma char_bits_x c ch : c <> Utf8 -> cs_valid c ch = true -> char_bits c ch = x_char c ch.
Proof.
  intros Hc Hv. pose proof (cs_valid_ascii c ch Hc Hv) as Ha.
  assert (Em : ch mod 256 = ch) by (apply N.mod_small; lia).
  destruct c; try congruence; unfold char_bits, x_char; rewrite Em.
  1,3,4: rewrite byte_bits_bov; change 8%nat with (1 + 7)%nat; rewrite bov_skipn; reflexivity.
  cbn [cs_valid] in Hv. rewrite byte_bits_bov. change 8%nat with (4 + 4)%nat. rewrite bov_skipn.
  unfold field. change (N.to_nat 4) with 4%nat. f_equal.
  destruct (N.eqb_spec (ch - 32) 0), (N.eqb_spec ch 32); lia.
Qed.

Lemma char_bits_all c cs : c <> Utf8 -> forallb (cs_valid c) cs = true ->
  flat_map (char_bits c) cs = flat_map (x_char c) cs.
Proof.
  intros Hc. induction cs as [|ch cs IH]; [reflexivity|]. cbn [forallb flat_map]. intros H.
  apply andb_true_iff in H. destruct H as [H1 H2]. rewrite (char_bits_x c ch Hc H1), (IH H2). reflexivity.
Qed.

(* the known-multiplier kinds share one clause in [x691] and the classes, as in [enc] ([enc_str_eq]) *)
Lemma x691_str c lo hi ext cs : c <> Utf8 ->
  x691 (TStr c lo hi ext) (VStr cs) =
  if forallb (cs_valid c) cs
  then x_sized_run (char_unit c) lo hi ext (N.of_nat (length cs)) (flat_map (x_char c) cs) else None.
Proof. destruct c; [congruence|reflexivity..]. Qed.
Lemma known_c02_str c lo hi ext cs : c <> Utf8 ->
  Known_C02 (TStr c lo hi ext) (VStr cs) = Known_C02_size lo hi ext (N.of_nat (length cs)).
Proof. destruct c; [congruence|reflexivity..]. Qed.

Lemma known_c01_str m c lo hi ext cs : c <> Utf8 ->
  Known_C01 m (TStr c lo hi ext) (VStr cs) = Known_C01_len lo hi U64_MAX (N.of_nat (length cs)).
Proof. destruct c; [congruence|reflexivity..]. Qed.

Lemma str_len_limit cs : blen (utf8_encode cs) < SIZE_LIMIT -> N.of_nat (length cs) < SIZE_LIMIT.
Proof. intros Hn. pose proof (utf8_encode_len cs). unfold blen in Hn. lia. Qed.

Lemma E_str m c lo hi ext : Eprop m (TStr c lo hi ext).
Proof.
  intros Hty Hp v Hv Hk. destruct v; try contradiction Hv.
  cbn [wf_val] in Hv. cbn [in_profile] in Hp. destruct Hv as [Hs Hn].
  pose proof (str_len_limit chars Hn) as Hlen. set (n := N.of_nat (length chars)) in *.
  destruct (is_Utf8_dec c) as [->|Hc].
  - split; [|exact (fun _ C => C)]. cbn [x691 enc]. fold n.
    assert (Ei : negb ext && ((n <? opt_or lo 0) || (opt_or hi U64_MAX <? n)) = negb (in_size lo hi n || ext)).
    { unfold in_size, U64_MAX, two64, SIZE_LIMIT in *. destruct lo, hi, ext; cbn [opt_or]; lia. }
    rewrite Ei. destruct (in_size lo hi n || ext); cbn [negb]; [|reflexivity].
    rewrite octetstring_write; [apply agrees_exact|unfold SIZE_LIMIT, two63 in *; lia|].
    intros [C _]. apply C. reflexivity.
  - rewrite x691_str, enc_str_eq, find_invalid_forallb, known_c01_str by exact Hc. rewrite known_c02_str in Hk by exact Hc.
    fold n in Hk |- *. destruct (forallb (cs_valid c) chars) eqn:Ef; cbn [negb]; [|split; [reflexivity|congruence]].
    assert (Hup : n <= U64_MAX) by (unfold U64_MAX, two64, SIZE_LIMIT in *; lia). split.
    + rewrite (char_bits_all c chars Hc Ef), (len_hdr_run m (char_unit c)); [apply agrees_exact|exact Hp|exact Hup| |exact Hk|].
      * unfold two63, SIZE_LIMIT in *; lia.
      * unfold n. intros E0. destruct chars; [reflexivity|cbn [length] in E0; lia].
    + intros Hd. exact (not_known_len lo hi ext U64_MAX n Hp Hk (proj1 (sized_defined _ _ _ _ _ _) Hd) Hup).
Qed.

Lemma x_all_nil {A} (f : A -> option bits) l body : x_all f l = Some body -> N.of_nat (length l) = 0 -> body = [].
Proof. destruct l; [intros H _; injection H as <-; reflexivity|cbn [length]; lia]. Qed.

(* 20: SEQUENCE OF is the sized run of its element encodings, short of fragmentation (whatever the bounds) *)
Lemma x691_list_run e lo hi ext vs : ~ Known_C02_size lo hi ext (N.of_nat (length vs)) ->
  x691 (TListOf e lo hi ext) (VList vs) =
  match x_all (x691 e) vs with
  | Some body => x_sized_run 0 lo hi ext (N.of_nat (length vs)) body
  | None => None
  end.
Proof.
  intros Hk. cbn [x691]. destruct (x_all (x691 e) vs) as [body|] eqn:Eb; [|reflexivity].
  pose proof (x_all_nil _ _ _ Eb) as Hb. set (n := N.of_nat (length vs)) in *.
  pose proof (unc_short lo hi ext n Hk) as Hf.
  unfold x_sized_run. cbv zeta. change (match lo with Some l => l | None => 0 end) with (opt_or lo 0).
  replace (in_size lo hi n) with ((opt_or lo 0 <=? n) && match hi with Some u => n <=? u | None => true end)
    by (destruct lo; cbn [in_size opt_or]; [reflexivity|rewrite (proj2 (N.leb_le 0 n)) by lia; reflexivity]).
  destruct (_ && _) eqn:Er.
  - apply in_root_spec in Er. destruct hi as [u|].
    + destruct (N.ltb_spec u 65536) as [Hu|Hu]; [|exfalso; apply Hk; left; exists u; destruct Er; auto].
      rewrite andb_true_r. destruct (N.eqb_spec u 0) as [->|E0]; [|reflexivity].
      destruct Er as [E1 E2]. assert (Hn0 : n = 0) by lia. replace (opt_or lo 0) with 0 by lia.
      rewrite (Hb Hn0), app_nil_r. reflexivity.
    + assert (Hn : n < 16384) by (apply Hf; left; split; [reflexivity|apply Er]).
      destruct (N.ltb_spec n 16384); [|lia]. rewrite x_run_short by exact Hn. reflexivity.
  - destruct ext; [|reflexivity].
    assert (Hn : n < 16384) by (apply Hf; right; split; [reflexivity|rewrite <- in_root_spec; congruence]).
    destruct (N.ltb_spec n 16384); [|lia]. rewrite x_run_short by exact Hn. reflexivity.
Qed.

Definition elems_known_c02 (e : ty) :=
  fix any (vs : list val) : Prop := match vs with [] => False | x :: r => Known_C02 e x \/ any r end.

Lemma elems_agrees m e : Ebody m e -> forall vs, all_wf_val e vs -> ~ elems_known_c02 e vs ->
  agrees (x_all (x691 e) vs) (enc_elems m e vs) /\ (x_all (x691 e) vs <> None -> ~ any_known m e vs).
Proof.
  intros IH. induction vs as [|x vs IHl]; intros Hv Hk; [split; [reflexivity|exact (fun _ C => C)]|].
  cbn [all_wf_val] in Hv. cbn [elems_known_c02] in Hk. cbn [x_all enc_elems any_known].
  destruct (IH x (proj1 Hv) ltac:(tauto)) as [HE HK]. destruct (IHl (proj2 Hv) ltac:(tauto)) as [HEl HKl]. split.
  - apply agrees_bind; [exact HE|]. intros a.
    apply (agrees_bind _ _ (fun b => Some (a ++ b))); [exact HEl|]. intros b. reflexivity.
  - destruct (x691 e x); [|congruence]. destruct (x_all (x691 e) vs); [|congruence].
    intros _ [C|C]; [exact (HK ltac:(discriminate) C)|exact (HKl ltac:(discriminate) C)].
Qed.

Lemma E_list m e lo hi ext : Eprop m e -> Eprop m (TListOf e lo hi ext).
Proof.
  intros IH (Hb & Hty) (Hp & Hpe) v Hv Hk. destruct v; try contradiction Hv.
  cbn [wf_val] in Hv. destruct Hv as [Hn Hv]. cbn [Known_C02] in Hk.
  rewrite x691_list_run, enc_list_eq by tauto.
  destruct (elems_agrees m e (IH Hty Hpe) vs Hv ltac:(tauto)) as [He HK].
  destruct (x_all (x691 e) vs) as [body|] eqn:Eb; cbn [agrees] in He.
  - assert (Hup : N.of_nat (length vs) <= I64_MAX) by (unfold I64_MAX, two63, SIZE_LIMIT in *; lia). split.
    + rewrite He. cbn [bind].
      rewrite (len_hdr_run m 0); [apply agrees_exact| |exact Hup| | |exact (x_all_nil _ _ _ Eb)]; try tauto.
      unfold two63, SIZE_LIMIT in *; lia.
    + intros Hd [C|C]; [|exact (HK ltac:(discriminate) C)].
      exact (not_known_len lo hi ext I64_MAX _ Hp (fun K => Hk (or_introl K)) (proj1 (sized_defined _ _ _ _ _ _) Hd) Hup C).
  - split; [|congruence]. destruct (len_hdr _ _ _ _ _ _); cbn [bind agrees]; [apply not_ok_bind; exact He|reflexivity..].
Qed.

Lemma x_open_type_eq b : b <> [] ->
  x_open_type b = x_unconstrained_length_run 8 ((bl b + 7) / 8) (b ++ repeat false (pad8 (length b))).
Proof.
  intros Hb. unfold x_open_type.
  destruct (bytes_of_bits b) as [|o os] eqn:E.
  - contradiction Hb. pose proof (bytes_of_bits_len b) as L. rewrite E in L. pose proof (ceil8_bounds (bl b)).
    apply bl_0_nil. change (blen []) with 0 in L. lia.
  - rewrite <- E. fold (blen (bytes_of_bits b)). rewrite bytes_of_bits_len, bits_of_bytes_of_bits. reflexivity.
Qed.

(* an open type outside [empty_open_type] and [open_type_16k]: the content is not empty and fills fewer than 16K octets, so
   the crate wraps it as X.691 says, and the same bound puts the value outside the open-type class of C01 (which speaks
   of [enc] where that of C02 speaks of [x691]) *)
Lemma open_ok m t x b : x691 t x = Some b -> enc m t x = Ok b -> ~ empty_open_type t x -> ~ open_type_16k t x ->
  wrap_open m b = Ok (x_open_type b) /\ ~ Known_C01_open_type_16k m t x.
Proof.
  intros Hx He H0 H16.
  assert (L : (bl b + 7) / 8 < 16384) by (apply N.lt_nge; intros G; apply H16; exists b; auto).
  split; [|intros (b' & Eb & G); rewrite He in Eb; injection Eb as <-; exact (proj1 (N.lt_nge _ _) L G)].
  rewrite x_open_type_eq by (intros ->; exact (H0 Hx)). apply wrap_open_x.
  pose proof (ceil8_bounds (bl b)). unfold two63. lia.
Qed.

Lemma choice_view alts std ext i x : wf_val (TChoice alts std ext) (VChoice i x) ->
  exists a, In a alts /\ wf_val a x /\ i < N.of_nat (length alts) /\
    x691 (TChoice alts std ext) (VChoice i x) =
      match x691 a x with
      | Some b => option_map (fun ib => ib ++ (if i <? std then b else x_open_type b)) (x_index std ext i)
      | None => None
      end /\
    Known_C02 (TChoice alts std ext) (VChoice i x) =
      (Known_C02 a x \/ (std <= i /\ (empty_open_type a x \/ open_type_16k a x))) /\
    (forall m, enc m (TChoice alts std ext) (VChoice i x) =
       let! ib := w_enumeration_index m std ext i in
       let! cb := enc m a x in
       if std <=? i then let! wb := wrap_open m cb in Ok (ib ++ wb) else Ok (ib ++ cb)) /\
    (forall m, Known_C01 m (TChoice alts std ext) (VChoice i x) =
       (Known_C01 m a x \/ (std <= i /\ Known_C01_open_type_16k m a x))) /\
    sat (TChoice alts std ext) (VChoice i x) = ((ext = true \/ i < std) /\ sat a x).
Proof.
  intros Hv. cbn [wf_val] in Hv. rewrite fix_pick_nth in Hv.
  destruct (nth_error alts (N.to_nat i)) as [a|] eqn:En; [|contradiction Hv].
  assert (Li : i < N.of_nat (length alts)).
  { pose proof (proj1 (nth_error_Some alts (N.to_nat i)) ltac:(congruence)). lia. }
  exists a. split; [exact (nth_error_In _ _ En)|]. split; [exact Hv|]. split; [exact Li|].
  repeat split; intros; cbn [x691 Known_C02 enc Known_C01 sat]; rewrite fix_pick_nth, En; try reflexivity.
  destruct (N.leb_spec (N.of_nat (length alts)) i); [lia|]. destruct (x691 a x); [|reflexivity].
  unfold x_index. destruct (i <? std); [|destruct ext; reflexivity].
  destruct (x_constrained 0 (Z.of_N std - 1) (Z.of_N i)); [|reflexivity]. destruct ext; reflexivity.
Qed.

Lemma E_choice m alts std ext : Forall (Eprop m) alts -> Eprop m (TChoice alts std ext).
Proof.
  intros IH (H1 & H2 & H3 & H4 & Hty) Hp v Hv Hk. destruct v; try contradiction Hv.
  rename index into i, v into x.
  destruct (choice_view alts std ext i x Hv) as (a & Hin & Hva & Li & Ex & Ek & Ee & E1 & _).
  rewrite Ex, Ee, E1. rewrite Ek in Hk.
  destruct (alt_discharge (Ebody m) a alts IH Hty Hp Hin x Hva ltac:(tauto)) as [Hb HK].
  assert (Hs : std < two64 /\ i < two64) by (unfold SIZE_LIMIT, two64 in *; lia). destruct Hs as [Hs Hi].
  destruct (x691 a x) as [b|] eqn:Eb; cbn [agrees] in Hb.
  - assert (Ho := fun L : std <= i => open_ok m a x b Eb Hb ltac:(tauto) ltac:(tauto)). split.
    + rewrite Hb, (codec_write (index_codec m std ext i Hs Hi)).
      destruct (x_index std ext i) as [ib|]; cbn [option_map agrees bind]; [|reflexivity].
      destruct (N.leb_spec std i) as [L|L]; destruct (N.ltb_spec i std); try lia; [|reflexivity].
      rewrite (proj1 (Ho L)). reflexivity.
    + intros _ [C|[L C]]; [exact (HK ltac:(discriminate) C)|exact (proj2 (Ho L) C)].
  - split; [|congruence]. destruct (w_enumeration_index m std ext i); try reflexivity. cbn [bind]. apply not_ok_bind. exact Hb.
Qed.

(* a component as [x691] sees it: (OPTIONAL or DEFAULT, present, its encoding); read by [c_opt], [c_present], [c_bits].
   [x_comps] and [x_seq_assemble]: the anonymous pieces of the SEQUENCE clause of [x691] (Uper/X691Type.v) under names;
   the bodies repeat the originals, so the equation [x691_seq_eq] holds by conversion *)
Definition comp := (bool * bool * bits)%type.
Definition x_comps :=
  fix go (fs : list (fkind * ty)) (vals : list (option val)) : option (list comp) :=
    match fs, vals with
    | [], [] => Some []
    | (FReq, ft) :: fs', Some x :: vals' =>
        match x691 ft x, go fs' vals' with
        | Some b, Some r => Some ((false, true, b) :: r) | _, _ => None end
    | (FOpt, ft) :: fs', None :: vals' => option_map (cons (true, false, [])) (go fs' vals')
    | (FOpt, ft) :: fs', Some x :: vals' =>
        match x691 ft x, go fs' vals' with
        | Some b, Some r => Some ((true, true, b) :: r) | _, _ => None end
    | (FDef d, ft) :: fs', Some x :: vals' =>
        if val_eqb d x then option_map (cons (true, false, [])) (go fs' vals')
        else match x691 ft x, go fs' vals' with
             | Some b, Some r => Some ((true, true, b) :: r) | _, _ => None end
    | _, _ => None
    end.

Definition c_opt (c : comp) : bool := fst (fst c).
Definition c_present (c : comp) : bool := snd (fst c).
Definition c_bits (c : comp) : bits := snd c.

Definition x_seq_assemble (nroot : nat) (ea : option N) (cs : list comp) : bits :=
  let root := firstn nroot cs in
  let adds := skipn nroot cs in
  let any_add := existsb c_present adds in
  let ext_bit := match ea with Some _ => [any_add] | None => [] end in
  let preamble := flat_map (fun c : comp => if c_opt c then [c_present c] else []) root in
  let root_body := flat_map (fun c : comp => if c_present c then c_bits c else []) root in
  let add_part :=
    if any_add then
      x_normally_small_length (N.of_nat (length adds))
        ++ map c_present adds
        ++ flat_map (fun c : comp => if c_present c then x_open_type (c_bits c) else []) adds
    else [] in
  ext_bit ++ preamble ++ root_body ++ add_part.

Lemma x691_seq_eq fs so fc ea vals :
  x691 (TSeq fs so fc ea) (VSeq vals) =
  match x_comps fs vals with
  | None => None
  | Some cs => Some (x_seq_assemble (root_len fs ea) ea cs)
  end.
Proof. reflexivity. Qed.

Definition x_comp (f : fkind * ty) (ov : option val) : option comp :=
  match ov with
  | Some x =>
      if present (fst f) ov then option_map (fun b => (is_optk (fst f), true, b)) (x691 (snd f) x)
      else Some (is_optk (fst f), false, [])
  | None => match fst f with FOpt => Some (true, false, []) | _ => None end
  end.

Lemma x_comps_cons f fs ov vals :
  x_comps (f :: fs) (ov :: vals) =
  match x_comp f ov, x_comps fs vals with Some c, Some r => Some (c :: r) | _, _ => None end.
Proof.
  destruct f as [[| |d] ft], ov as [x|]; cbn [x_comps x_comp present is_optk fst snd negb]; try reflexivity;
    try destruct (val_eqb d x); try destruct (x691 ft x); cbn [option_map]; try reflexivity;
    destruct (x_comps fs vals); reflexivity.
Qed.

(* [fes]: what the crate writes for the components [fs] from position [i] on; [cs]: the same components
   as X.691 sees them *)
Inductive comps_rel (m : mode) (ea : option N) : nat -> list (fkind * ty) -> list fenc -> list comp -> Prop :=
| cr_nil i : comps_rel m ea i [] [] []
| cr_cons i k ft p b fs fes cs :
    (p = false -> b = []) ->
    (p = true -> is_addition ea i -> wraps k ft = true /\ wrap_open m b = Ok (x_open_type b)) ->
    comps_rel m ea (S i) fs fes cs ->
    comps_rel m ea i ((k, ft) :: fs) ((p, b) :: fes) ((is_optk k, p, b) :: cs).

Definition known_field (ea : option N) (i : nat) (k : fkind) (ft : ty) (ov : option val) : Prop :=
  match ov with
  | Some x => encoded k x /\
              (Known_C02 ft x \/
               (is_addition ea i /\
                (mandatory_choice_addition_inline k ft \/ empty_open_type ft x \/ open_type_16k ft x)))
  | None => False
  end.
Definition fields_known_c02 (ea : option N) :=
  fix any (fs : list (fkind * ty)) (vals : list (option val)) (i : nat) : Prop :=
    match fs, vals with
    | (k, ft) :: fs', ov :: vals' => known_field ea i k ft ov \/ any fs' vals' (S i)
    | _, _ => False
    end.
Lemma known_c02_seq fs so fc ea vals :
  Known_C02 (TSeq fs so fc ea) (VSeq vals) =
  ((more_than_64_additions (skipn (root_len fs ea) (presents fs vals)) \/
    first_addition_absent (skipn (root_len fs ea) (presents fs vals))) \/ fields_known_c02 ea fs vals 0).
Proof. reflexivity. Qed.

Lemma present_encoded k x : present k (Some x) = true <-> encoded k x.
Proof.
  destruct k as [| |d]; cbn [present encoded]; [tauto|tauto|]. destruct (val_eqb d x); cbn [negb]; intuition congruence.
Qed.
Lemma enc_field_some m k ft x :
  enc_field m (k, ft) (Some x) =
  if present k (Some x) then let! b := enc m ft x in Ok (true, b) else Ok (false, []).
Proof. destruct k as [| |d]; cbn [enc_field present]; try reflexivity. destruct (val_eqb d x); reflexivity. Qed.

Lemma field_agrees m ea i k ft ov : Ebody m ft ->
  match ov with Some x => wf_val ft x | None => k = FOpt end -> ~ known_field ea i k ft ov ->
  match x_comp (k, ft) ov with
  | Some c => (exists b, enc_field m (k, ft) ov = Ok (present k ov, b) /\ c = (is_optk k, present k ov, b) /\
      (present k ov = false -> b = []) /\
      (present k ov = true -> is_addition ea i -> wraps k ft = true /\ wrap_open m b = Ok (x_open_type b))) /\
      ~ match ov with
        | Some x => encoded k x /\
            (Known_C01 m ft x \/ (is_addition ea i /\ wraps k ft = true /\ Known_C01_open_type_16k m ft x))
        | None => False
        end
  | None => is_ok (enc_field m (k, ft) ov) = false
  end.
Proof.
  intros IH Hv Hk. destruct ov as [x|]; [|subst k; split; [exists []; repeat split; discriminate|exact (fun C => C)]].
  cbn [x_comp fst snd]. rewrite enc_field_some. unfold known_field in Hk.
  destruct (present k (Some x)) eqn:Ep.
  2: { split; [exists []; repeat split; discriminate|]. intros [He _]. apply present_encoded in He. congruence. }
  apply present_encoded in Ep. destruct (IH x Hv ltac:(tauto)) as [Hb HK].
  destruct (x691 ft x) as [b|] eqn:Eb; cbn [agrees option_map] in *; [|apply not_ok_bind; exact Hb].
  unfold mandatory_choice_addition_inline in Hk.
  assert (Ho := fun Ha : is_addition ea i => open_ok m ft x b Eb Hb ltac:(tauto) ltac:(tauto)). split.
  - exists b. rewrite Hb. split; [reflexivity|]. split; [reflexivity|]. split; [discriminate|]. intros _ Ha. split; [|apply (Ho Ha)].
    destruct (wraps k ft); [reflexivity|tauto].
  - intros [_ [C|(Ha & _ & C)]]; [exact (HK ltac:(discriminate) C)|exact (proj2 (Ho Ha) C)].
Qed.

Lemma fields_agree m ea : forall fs, Forall (fun f => Eprop m (snd f)) fs -> all_wf_fields fs -> all_fields_in_profile fs ->
  forall vals i, all_wf_vals fs vals -> ~ fields_known_c02 ea fs vals i ->
  match x_comps fs vals with
  | Some cs => (exists fes, enc_fields m fs vals = Ok fes /\ map fst fes = presents fs vals /\ comps_rel m ea i fs fes cs) /\
               ~ any_known_f m ea fs vals i
  | None => is_ok (enc_fields m fs vals) = false
  end.
Proof.
  induction fs as [|[k ft] fs IHl]; intros F Hw Hp [|ov vals] i Hv Hk; try contradiction Hv.
  - split; [exists []; repeat split; constructor|exact (fun C => C)].
  - cbn [all_wf_vals] in Hv. destruct Hv as [Hv1 Hv]. cbn [fields_known_c02] in Hk.
    rewrite x_comps_cons, enc_fields_cons.
    pose proof (field_agrees m ea i k ft ov (Forall_inv F (proj1 Hw) (proj1 Hp)) Hv1 ltac:(tauto)) as H1.
    pose proof (IHl (Forall_inv_tail F) (proj2 (proj2 Hw)) (proj2 Hp) vals (S i) Hv ltac:(tauto)) as H2.
    destruct (x_comp (k, ft) ov) as [c|]; [|apply not_ok_bind; exact H1].
    destruct H1 as ((b & E1 & -> & E4 & E5) & K1). rewrite E1. cbn [bind].
    destruct (x_comps fs vals) as [r|]; [|apply not_ok_bind; exact H2].
    destruct H2 as ((fes & I1 & I2 & I3) & K2). split; [|cbn [any_known_f]; tauto].
    exists ((present k ov, b) :: fes). rewrite I1. cbn [bind].
    split; [reflexivity|]. split; [cbn [map presents fst]; rewrite I2; reflexivity|]. constructor; assumption.
Qed.

Lemma comps_rel_length m ea i fs fes cs : comps_rel m ea i fs fes cs -> length fes = length fs /\ length cs = length fs.
Proof. induction 1 as [|i k ft p b fs fes cs _ _ _ [IH1 IH2]]; cbn [length]; auto. Qed.

Lemma comps_rel_split m ea n : forall i fs fes cs, comps_rel m ea i fs fes cs ->
  comps_rel m ea i (firstn n fs) (firstn n fes) (firstn n cs) /\
  comps_rel m ea (i + n) (skipn n fs) (skipn n fes) (skipn n cs).
Proof.
  induction n as [|n IH]; intros i fs fes cs H.
  - rewrite Nat.add_0_r. split; [constructor|exact H].
  - destruct H as [i|i k ft p b fs fes cs H1 H2 H]; [split; constructor|].
    destruct (IH _ _ _ _ H) as [Ha Hb]. replace (i + S n)%nat with (S i + n)%nat by lia.
    split; [constructor; assumption|exact Hb].
Qed.

Lemma flags_rel m ea i fs fes cs : comps_rel m ea i fs fes cs ->
  flags_of fs fes = flat_map (fun c : comp => if c_opt c then [c_present c] else []) cs.
Proof. induction 1 as [|i k ft p b fs fes cs _ _ _ IH]; [reflexivity|]. cbn [flags_of flat_map]. rewrite IH. reflexivity. Qed.

Lemma payload_rel m ea i fs fes cs : comps_rel m ea i fs fes cs ->
  payload_of fes = flat_map (fun c : comp => if c_present c then c_bits c else []) cs.
Proof.
  unfold payload_of. induction 1 as [|i k ft p b fs fes cs Hb _ _ IH]; [reflexivity|].
  cbn [map concat flat_map snd]. rewrite IH. unfold c_present, c_bits. cbn [fst snd].
  destruct p; [reflexivity|]. rewrite (Hb eq_refl). reflexivity.
Qed.

Lemma present_rel m ea i fs fes cs : comps_rel m ea i fs fes cs -> map c_present cs = map fst fes.
Proof. induction 1 as [|i k ft p b fs fes cs _ _ _ IH]; [reflexivity|]. cbn [map]. rewrite IH. reflexivity. Qed.

Lemma existsb_map {A} (f : A -> bool) l : existsb f l = existsb (fun p => p) (map f l).
Proof. induction l as [|a l IH]; [reflexivity|]. cbn [existsb map]. rewrite IH. reflexivity. Qed.

Lemma add_payloads_x m e i afs afe cs : comps_rel m (Some e) i afs afe cs -> (N.to_nat e < i)%nat ->
  add_payloads m afs afe = Ok (flat_map (fun c : comp => if c_present c then x_open_type (c_bits c) else []) cs).
Proof.
  induction 1 as [|i k ft p b afs afe cs Hb Ho _ IH]; intros Hi; [reflexivity|].
  cbn [add_payloads flat_map]. rewrite IH by lia. unfold c_present, c_bits. cbn [fst snd].
  destruct p.
  - destruct (Ho eq_refl Hi) as [-> ->]. reflexivity.
  - cbn [andb]. rewrite (Hb eq_refl). reflexivity.
Qed.

(* 11.9.3.4: the count of additions travels as the normally small number count - 1 *)
Lemma x_normally_small_length_shift n : 1 <= n <= 64 -> x_normally_small_length n = x_normally_small (n - 1).
Proof.
  intros H. unfold x_normally_small_length, x_normally_small.
  destruct (N.leb_spec n 64); [|lia]. destruct (N.leb_spec (n - 1) 63); [reflexivity|lia].
Qed.

Lemma ext_part_x m e i afs afe cs : comps_rel m (Some e) i afs afe cs -> (N.to_nat e < i)%nat ->
  N.of_nat (length afe) < two64 ->
  ~ more_than_64_additions (map fst afe) -> ~ first_addition_absent (map fst afe) ->
  ext_part m afs afe =
  Ok (existsb c_present cs,
      if existsb c_present cs then
        x_normally_small_length (N.of_nat (length cs)) ++ map c_present cs
          ++ flat_map (fun c : comp => if c_present c then x_open_type (c_bits c) else []) cs
      else []).
Proof.
  intros R Hi Hn H64 Hfa. unfold ext_part. unfold fenc in *.
  destruct (comps_rel_length _ _ _ _ _ _ R) as [L1 L2].
  rewrite (existsb_map c_present), (present_rel _ _ _ _ _ _ R), L2, <- L1.
  destruct afe as [|[p1 b1] rest]; [reflexivity|].
  cbn [map fst existsb] in *. destruct p1; cbn [orb].
  - rewrite normally_small_write by lia. rewrite (add_payloads_x m e i afs _ cs R Hi). cbn [bind map fst].
    rewrite x_normally_small_length_shift; [reflexivity|].
    unfold fenc. (* one name for the element type, or [lia] sees two different lengths *)
    destruct (Nat.le_gt_cases (length ((true, b1) :: rest)) 64) as [L|L]; [cbn [length] in L |- *; lia|]. exfalso. apply H64.
    split; [reflexivity|]. cbn [length] in *. rewrite map_length. lia.
  - rewrite (existsb_map fst rest). destruct (existsb (fun p => p) (map fst rest)) eqn:Ee.
    + exfalso. apply Hfa. cbn [first_addition_absent]. split; [reflexivity|exact Ee].
    + reflexivity.
Qed.

Lemma E_seq m fs so fc ea : Forall (fun f => Eprop m (snd f)) fs -> Eprop m (TSeq fs so fc ea).
Proof.
  intros IH Hty Hp v Hv Hk. destruct v; try contradiction Hv. rename fields into vals.
  apply wf_ty_seq in Hty. destruct Hty as [(Hfc & Hlim & Hea & Hso) Hf].
  rewrite x691_seq_eq, enc_seq_eq. rewrite known_c02_seq in Hk.
  pose proof (fields_agree m ea fs IH Hf Hp vals 0%nat Hv ltac:(tauto)) as Hc.
  destruct (x_comps fs vals) as [cs|]; [|split; [apply not_ok_bind; exact Hc|congruence]].
  destruct Hc as ((fes & E1 & E2 & R) & HK). split; [|exact (fun _ => HK)]. cbn [agrees].
  rewrite E1. cbn [bind]. unfold x_seq_assemble. cbv zeta.
  destruct (comps_rel_length _ _ _ _ _ _ R) as [L1 L2].
  destruct (comps_rel_split m ea (root_len fs ea) _ _ _ _ R) as [Rr Ra]. cbn [Nat.add] in Ra.
  rewrite <- (flags_rel _ _ _ _ _ _ Rr), <- (payload_rel _ _ _ _ _ _ Rr).
  destruct ea as [e|].
  - cbn [root_len] in *. set (kr := S (N.to_nat e)) in *.
    rewrite (seq_assemble_some m fs fes e kr eq_refl).
    rewrite <- E2, skipn_map in Hk.
    rewrite (ext_part_x m e kr _ _ _ Ra); [|lia|rewrite skipn_length; unfold SIZE_LIMIT, two64 in *; lia|tauto|tauto].
    reflexivity.
  - cbn [root_len seq_assemble] in *. rewrite (firstn_all fs), (firstn_all2 (n := length fs) fes) by lia.
    rewrite (skipn_all2 (n := length fs) cs) by lia. cbn [existsb app]. rewrite app_nil_r. reflexivity.
Qed.

Theorem conforms m t : Eprop m t.
Proof.
  induction t using ty_ind'.
  - intros _ _ v Hv _. destruct v; try contradiction Hv. split; [reflexivity|exact (fun _ C => C)].
  - intros _ _ v Hv _. destruct v; try contradiction Hv. split; [reflexivity|exact (fun _ C => C)].
  - apply E_int.
  - apply E_str.
  - apply E_octets.
  - apply E_bitstr.
  - apply E_list; assumption.
  - apply E_seq; assumption.
  - apply E_choice; assumption.
  - apply E_enum.
Qed.

Theorem enc_agrees m t : wf_ty t -> in_profile t -> forall v, wf_val t v -> ~ Known_C02 t v ->
  agrees (x691 t v) (enc m t v).
Proof. intros Hty Hp v Hv Hk. apply (conforms m t Hty Hp v Hv Hk). Qed.

(* the classes of C01 (reader side) are inside [Known_C02] *)
Theorem known_c01_c02 m t : wf_ty t -> in_profile t -> forall v bs, wf_val t v -> x691 t v = Some bs ->
  ~ Known_C02 t v -> ~ Known_C01 m t v.
Proof. intros Hty Hp v bs Hv Hx Hk. apply (conforms m t Hty Hp v Hv Hk). congruence. Qed.

Theorem enc_is_x691 m t : wf_ty t -> in_profile t -> forall v bs, wf_val t v -> ~ Known_C02 t v ->
  x691 t v = Some bs -> enc m t v = Ok bs.
Proof. intros Hty Hp v bs Hv Hk. apply agrees_some, enc_agrees; assumption. Qed.

Theorem reference_is_x691 m t v : wf_ty t -> wf_val t v -> in_profile t -> x691 t v <> None ->
  ~ Known_C02 t v -> exists bs, x691 t v = Some bs /\ enc m t v = Ok bs.
Proof.
  intros Hty Hv Hp Hs Hk. destruct (x691 t v) as [bs|] eqn:E; [|congruence].
  exists bs. split; [reflexivity|]. exact (enc_is_x691 m t Hty Hp v bs Hv Hk E).
Qed.

Theorem writer_exact m t v w : wf_ty t -> wf_val t v -> in_profile t -> ~ Known_C02 t v ->
  wst_wf w -> w_scope w = None ->
  match x691 t v with
  | Some bs => write_ty m t v w = Ok (w_append w bs)
  | None => is_ok (write_ty m t v w) = false
  end.
Proof.
  intros Hty Hv Hp Hk Hw Hs. pose proof (write_enc m t Hty v w Hw Hs) as S.
  pose proof (enc_agrees m t Hty Hp v Hv Hk) as E. unfold wsim in S.
  destruct (x691 t v) as [bs|]; cbn [agrees] in E.
  - rewrite E in S. exact S.
  - destruct (enc m t v); [discriminate E|exact S|exact S].
Qed.

Definition Sbody (t : ty) : Prop :=
  forall v, wf_val t v -> sat t v -> ~ Known_C02 t v -> x691 t v <> None.

Definition all_elems_sat (e : ty) :=
  fix all (vs : list val) : Prop := match vs with [] => True | x :: r => sat e x /\ all r end.
Definition all_fields_sat :=
  fix all (fs : list (fkind * ty)) (vals : list (option val)) : Prop :=
    match fs, vals with
    | [], [] => True
    | (k, ft) :: fs', ov :: vals' =>
        match ov with Some x => sat ft x | None => k = FOpt end /\ all fs' vals'
    | _, _ => False
    end.

Lemma S_elems e : Sbody e -> forall vs, all_wf_val e vs -> all_elems_sat e vs -> ~ elems_known_c02 e vs ->
  x_all (x691 e) vs <> None.
Proof.
  intros HS. induction vs as [|y vs IHl]; intros Hv Hs Hk; [discriminate|].
  cbn [x_all]. cbn [all_wf_val] in Hv. cbn [all_elems_sat] in Hs. cbn [elems_known_c02] in Hk.
  pose proof (HS y (proj1 Hv) (proj1 Hs) ltac:(tauto)) as H1.
  pose proof (IHl (proj2 Hv) (proj2 Hs) ltac:(tauto)) as H2.
  destruct (x691 e y); [|congruence]. destruct (x_all (x691 e) vs); [discriminate|congruence].
Qed.

Lemma S_fields ea : forall fs, Forall (fun f => Sbody (snd f)) fs ->
  forall vals i, all_wf_vals fs vals -> all_fields_sat fs vals -> ~ fields_known_c02 ea fs vals i ->
  x_comps fs vals <> None.
Proof.
  induction fs as [|[k ft] fs IHl]; intros F [|ov vals] i Hv Hs Hk; try contradiction Hv.
  - discriminate.
  - cbn [all_wf_vals] in Hv. destruct Hv as [Hv1 Hv]. cbn [all_fields_sat] in Hs. destruct Hs as [Hs1 Hs].
    cbn [fields_known_c02] in Hk. rewrite x_comps_cons.
    pose proof (IHl (Forall_inv_tail F) vals (S i) Hv Hs ltac:(tauto)) as Hr.
    destruct (x_comps fs vals) as [r|]; [|congruence].
    assert (Hc : x_comp (k, ft) ov <> None).
    { destruct ov as [x|]; [|subst k; discriminate].
      cbn [x_comp fst snd]. destruct (present k (Some x)) eqn:Ep; [|discriminate].
      apply present_encoded in Ep. unfold known_field in Hk.
      pose proof (Forall_inv F x Hv1 Hs1 ltac:(tauto)) as Hn. cbn [snd] in Hn.
      destruct (x691 ft x); [discriminate|congruence]. }
    destruct (x_comp (k, ft) ov); [discriminate|congruence].
Qed.

(* no hypothesis on the descriptor: [x691] is defined on the values of any type *)
Theorem sat_defined_any t : Sbody t.
Proof.
  induction t using ty_ind'; intros v Hv Hs Hk; destruct v; try contradiction Hv.
  - discriminate.
  - discriminate.
  - cbn [x691 sat] in *. unfold x_integer.
    destruct (in_range lo hi z) eqn:Er.
    + unfold in_range in Er. destruct lo as [l|], hi as [h|]; try discriminate.
      * destruct (x_constrained_some l h z ltac:(lia)) as [b ->]. discriminate.
      * unfold x_semi_constrained. destruct (Z.leb_spec l z); [discriminate|lia].
    + destruct Hs as [->|Hs]; [discriminate|discriminate Hs].
  - (* strings *)
    cbn [sat wf_val] in *. destruct Hs as [Hf Hs].
    destruct (is_Utf8_dec c) as [->|Hc].
    + cbn [x691]. replace (in_size lo hi (N.of_nat (length chars)) || e) with true.
      * apply sized_defined. right. unfold in_root. cbn [opt_or]. split; [lia|exact I].
      * destruct Hs as [->|Hs]; [rewrite orb_true_r; reflexivity|]. apply in_size_root in Hs. rewrite Hs. reflexivity.
    + rewrite x691_str, Hf by exact Hc. apply sized_defined. exact Hs.
  - cbn [x691 sat] in *. apply sized_defined. exact Hs.
  - cbn [x691 sat wf_val] in *. rewrite x_bitstring_canonical by apply Hv. apply sized_defined. exact Hs.
  - (* SEQUENCE OF *)
    cbn [wf_val] in Hv. destruct Hv as [Hn Hv]. cbn [Known_C02] in Hk. cbn [sat] in Hs. destruct Hs as [Hs1 Hs].
    rewrite x691_list_run by tauto.
    pose proof (S_elems t IHt vs Hv Hs ltac:(tauto)) as Ha.
    destruct (x_all (x691 t) vs) as [body|]; [apply sized_defined; exact Hs1|congruence].
  - (* SEQUENCE *)
    rename fields into vals. rewrite x691_seq_eq. rewrite known_c02_seq in Hk.
    pose proof (S_fields ea fs H vals 0%nat Hv Hs ltac:(tauto)) as Hc.
    destruct (x_comps fs vals); [discriminate|congruence].
  - (* CHOICE *)
    rename index into i, v into x.
    destruct (choice_view alts std ext i x Hv) as (a & Hin & Hva & Li & Ex & Ek & _ & _ & Es).
    rewrite Ex. rewrite Ek in Hk. rewrite Es in Hs. destruct Hs as [Hs1 Hs].
    rewrite Forall_forall in H. pose proof (H a Hin x Hva Hs ltac:(tauto)) as Hb.
    destruct (x691 a x) as [b|]; [|congruence].
    destruct (x_index std ext i) eqn:Ei; [discriminate|].
    apply x_index_none in Ei. destruct Ei as [L ->]. destruct Hs1 as [Hs1|Hs1]; [discriminate Hs1|lia].
  - cbn [x691 sat wf_val] in *. destruct Hs as [Hs1 Hs2]. destruct (N.ltb_spec index vc); [|lia].
    intros Ei. apply x_index_none in Ei. destruct Ei as [L ->]. destruct Hs2 as [Hs2|Hs2]; [discriminate Hs2|lia].
Qed.

Theorem sat_defined t : wf_ty t -> in_profile t -> Sbody t.
Proof. intros _ _. apply sat_defined_any. Qed.

(** * witnesses of the deviation classes *)
Definition x691_res (t : ty) (v : val) : res bits :=
  match x691 t v with Some b => Ok b | None => Err 0 end.
(* the reference encoder (= the writer) and X.691 disagree: different bits, or only one of them
   has an encoding *)
Definition deviates (m : mode) (t : ty) (v : val) : bool :=
  match enc m t v, x691 t v with
  | Ok a, Some b => negb (list_eqb Bool.eqb a b)
  | Ok _, None => true
  | _, Some _ => true
  | _, None => false
  end.
Lemma list_eqb_bool_refl (a : bits) : list_eqb Bool.eqb a a = true.
Proof. induction a as [|x a IH]; [reflexivity|]. cbn [list_eqb]. rewrite IH. destruct x; reflexivity. Qed.

Ltac wf_by_compute :=
  vm_compute; repeat first [split | apply Forall_cons | apply Forall_nil];
  try discriminate; try reflexivity; try (vm_compute; reflexivity).

Lemma list_eqb_longer (a : bits) x q : list_eqb Bool.eqb a (a ++ x :: q) = false.
Proof. induction a as [|y a IH]; [reflexivity|]. cbn [list_eqb app]. rewrite IH. apply andb_false_r. Qed.

Lemma x_chars_length c cs : bl (flat_map (x_char c) cs) = N.of_nat (length cs) * char_unit c.
Proof.
  induction cs as [|ch cs IH]; [reflexivity|]. cbn [flat_map length]. rewrite bl_app, IH.
  replace (bl (x_char c ch)) with (char_unit c) by (destruct c; symmetry; apply field_length). lia.
Qed.

Lemma str_16k_deviates m c cs : c <> Utf8 -> forallb (cs_valid c) cs = true -> N.of_nat (length cs) = 16384 ->
  deviates m (TStr c None None false) (VStr cs) = true.
Proof.
  intros Hc Hf Hn. unfold deviates.
  rewrite x691_str, enc_str_eq, find_invalid_forallb, Hf, Hn by exact Hc. cbn [negb].
  unfold len_hdr. cbn [opt_or negb]. change (16384 <? 0) with false. change (U64_MAX <? 16384) with false.
  cbn [orb]. rewrite w_len_unc. cbn [bind app]. rewrite (char_bits_all c cs Hc Hf).
  unfold x_sized_run. change (0 <=? 16384) with true. cbn [andb app].
  rewrite x_run_16k by (rewrite x_chars_length, Hn; reflexivity).
  change (x_len_first 16384) with [true; true; false; false; false; false; false; true].
  rewrite app_assoc, list_eqb_longer. reflexivity.
Qed.

(* (3) SEQUENCE { a BOOLEAN, ..., b NULL OPTIONAL } with b present: open type of length 0 *)
Definition w3_ty : ty := TSeq [(FReq, TBool); (FOpt, TNull)] 0 2 (Some 0).
Definition w3_val : val := VSeq [Some (VBool true); Some VNull].

(* (4) SEQUENCE { a BOOLEAN, ..., c CHOICE { x BOOLEAN } } : the mandatory CHOICE addition is inline *)
Definition w4_ty : ty := TSeq [(FReq, TBool); (FReq, TChoice [TBool] 1 false)] 0 2 (Some 0).
Definition w4_val : val := VSeq [Some (VBool true); Some (VChoice 0 (VBool true))].

(* (5) 65 extension additions, all present: 11.9.3.4 second form against a normally small number *)
Definition w5_ty : ty := TSeq ((FReq, TBool) :: repeat (FOpt, TBool) 65) 0 66 (Some 0).
Definition w5_val : val := VSeq (repeat (Some (VBool true)) 66).

(* (6) first addition absent, second present: refused (C03), X.691 has an encoding *)
Definition w6_ty : ty := TSeq [(FReq, TBool); (FOpt, TBool); (FOpt, TBool)] 0 3 (Some 0).
Definition w6_val : val := VSeq [Some (VBool true); None; Some (VBool true)].

(* (2') an open type of 16K octets: the writer fragments as X.691 says, the reader does not follow *)
Definition reader_misses_x691 (m : mode) (t : ty) (v : val) : bool :=
  match x691 t v with
  | Some bs =>
      match read_ty m t (r_of_src (src_of_bits bs (bl bs))) with
      | Ok (v', r) => negb (val_eqb v v' && (s_pos (r_src r) =? bl bs))
      | _ => true
      end
  | None => false
  end.
(* the writer wraps an extension addition as X.691 says, whatever the number of fragments; with 16K
   octets or more the reader does not follow ([open16k_misread]) *)
Lemma open16k_x691 ft c x cb : x691 ft x = Some cb -> cb <> [] ->
  x691 (open16k_ty ft) (VSeq [Some (VBool c); Some x]) =
  Some (true :: c :: x_normally_small 0 ++ true ::
        x_unconstrained_length_run 8 ((bl cb + 7) / 8) (cb ++ repeat false (pad8 (length cb)))).
Proof.
  intros Hx Hb. unfold open16k_ty. rewrite x691_seq_eq. cbn [x_comps x691]. rewrite Hx.
  rewrite <- (x_open_type_eq cb Hb). unfold x_seq_assemble.
  cbn [root_len N.to_nat firstn skipn existsb c_present c_opt c_bits fst snd orb flat_map map app length].
  rewrite app_nil_r. reflexivity.
Qed.

Lemma open16k_conforms_unread m ft c x cb : enc m ft x = Ok cb -> x691 ft x = Some cb -> cb <> [] ->
  16384 <= (bl cb + 7) / 8 -> bl cb < two63 ->
  deviates m (open16k_ty ft) (VSeq [Some (VBool c); Some x]) = false /\
  reader_misses_x691 m (open16k_ty ft) (VSeq [Some (VBool c); Some x]) = true.
Proof.
  intros He Hx Hb Hn Hl. unfold deviates, reader_misses_x691.
  rewrite (open16k_enc m ft c x cb He Hl), (open16k_x691 ft c x cb Hx Hb).
  split; [apply negb_false_iff, list_eqb_bool_refl|exact (open16k_misread m ft c cb _ Hn Hl)].
Qed.

Lemma ex_not_known : ~ Known_C02 ex_ty ex_val.
Proof.
  intros K. unfold ex_ty, ex_val, ex_inner in K. cbn [Known_C02] in K. cbv zeta in K.
  change (N.to_nat 2) with 2%nat in K.
  unfold open_type_16k, empty_open_type, mandatory_choice_addition_inline, Known_C02_size,
    size_upper_bound_64k, fragmentation_16k, more_than_64_additions, in_root, encoded, is_addition in K.
  (* [K] is a disjunction of conjunctions of closed atoms: 31 cases, each with an atom that evaluates to False *)
  repeat match goal with
  | H : False |- _ => contradiction H
  | H : _ \/ _ |- _ => destruct H as [H|H]
  | H : _ /\ _ |- _ => let L := fresh in destruct H as [L H]
  | H : exists _, _ |- _ => destruct H as [? H]
  end.
  all: try discriminate.
  all: try lia.
  all: try match goal with H : ~ is_i64 _ |- _ => apply H; vm_compute; split; [discriminate|reflexivity] end.
  all: try match goal with H : Some _ = Some _ |- _ => injection H as <-; lia end.
  all: try match goal with H : (_ < _)%nat |- _ => vm_compute in H; lia end.
  all: try match goal with H : _ <= _ |- _ => vm_compute in H; exact (H eq_refl) end.
  all: try match goal with H : first_addition_absent _ |- _ => vm_compute in H; destruct H; discriminate end.
  all: match goal with H : x691 _ _ = Some ?b, H16 : 16384 <= _ |- _ =>
         vm_compute in H; injection H as <-; vm_compute in H16; exact (H16 eq_refl) end.
Qed.

Lemma nonvacuous_c02 :
  wf_ty ex_ty /\ wf_val ex_ty ex_val /\ in_profile ex_ty /\ ~ Known_C02 ex_ty ex_val /\
  exists bs, x691 ex_ty ex_val = Some bs /\ enc dev_mode ex_ty ex_val = Ok bs /\
             enc release_mode ex_ty ex_val = Ok bs /\ bl bs = 128 /\
             write_ty dev_mode ex_ty ex_val w_empty = Ok (w_append w_empty bs) /\
             read_ty dev_mode ex_ty (r_of_src (src_of_bits (bs ++ [true; false]) (bl bs + 2)))
             = Ok (ex_val, r_of_src (src_adv (src_of_bits (bs ++ [true; false]) (bl bs + 2)) (bl bs) [true; false])).
Proof.
  split; [wf_by_compute|]. split; [wf_by_compute|]. split; [wf_by_compute|].
  split; [exact ex_not_known|].
  eexists. split; [vm_compute; reflexivity|]. vm_compute. repeat split; reflexivity.
Qed.

Example nonvacuous_sat : sat ex_ty ex_val.
Proof. vm_compute. intuition (try reflexivity; try discriminate). Qed.
