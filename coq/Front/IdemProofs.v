(* Front/IdemProofs.v -- the fixed points of rust.rs rust_variant_name (= rust_struct_or_enum_name): when a second mangling
   changes a name (Props/C09.v) *)
From A1 Require Import Front.Codegen Front.CodegenProofs.
Local Open Scope N_scope.

Definition peek_lower (rest : list N) : bool := match rest with n :: _ => is_lower n | [] => false end.
(* no separator, and no upper-case letter that follows an upper-case letter unless a lower-case letter comes next *)
Fixpoint stable_go (s : list N) (prev_upper : bool) : bool :=
  match s with
  | [] => true
  | c :: rest => negb (is_sep c) && negb (prev_upper && negb (peek_lower rest) && is_upper c) && stable_go rest (is_upper c)
  end.
Definition variant_stable (s : list N) : bool :=
  match s with
  | [] => true
  | c :: rest => negb (is_sep c) && negb (is_lower c) && stable_go rest true
  end.

Lemma variant_go_length : forall s nu pu, (length (variant_go s nu pu) <= length s)%nat.
Proof.
  induction s as [|c rest IH]; intros nu pu; cbn [variant_go length]; [lia|].
  destruct (is_sep c); [specialize (IH true false); lia|].
  destruct (nu && negb pu); cbn [length]; [specialize (IH false true) | specialize (IH nu (is_upper c))]; lia.
Qed.

(* a dropped separator is never made up for *)
Lemma variant_go_shorter c rest nu pu : variant_go rest nu pu <> c :: rest.
Proof. intros H. pose proof (variant_go_length rest nu pu) as Hl. rewrite H in Hl. cbn [length] in Hl. lia. Qed.

Lemma to_lower_fix c : to_lower c = c <-> is_upper c = false.
Proof. unf. destruct ((65 <=? c) && (c <=? 90)) eqn:E; split; intros H; try reflexivity; try discriminate; lia. Qed.
Lemma to_upper_fix c : to_upper c = c <-> is_lower c = false.
Proof. unf. destruct ((97 <=? c) && (c <=? 122)) eqn:E; split; intros H; try reflexivity; try discriminate; lia. Qed.

Lemma cons_eq_iff {A} (x y : A) l m : x :: l = y :: m <-> x = y /\ l = m.
Proof. split; [intros [= -> ->]; auto | intros [-> ->]; reflexivity]. Qed.

Lemma stable_go_iff : forall s pu, variant_go s false pu = s <-> stable_go s pu = true.
Proof.
  induction s as [|c rest IH]; intros pu; cbn [variant_go stable_go]; [split; reflexivity|].
  destruct (is_sep c) eqn:Es; cbn [negb andb].
  - split; [|discriminate]. intros H. exfalso. exact (variant_go_shorter _ _ _ _ H).
  - fold (peek_lower rest). rewrite cons_eq_iff, andb_true_iff, negb_true_iff, (IH (is_upper c)).
    apply and_iff_compat_r. destruct (pu && negb (peek_lower rest)); [apply to_lower_fix | split; reflexivity].
Qed.

Lemma variant_stable_iff s : rust_variant_name s = s <-> variant_stable s = true.
Proof.
  unfold rust_variant_name. destruct s as [|c rest]; [split; reflexivity|]. cbn [variant_go variant_stable].
  destruct (is_sep c) eqn:Es; cbn [negb andb].
  - split; [|discriminate]. intros H. exfalso. exact (variant_go_shorter _ _ _ _ H).
  - rewrite cons_eq_iff, andb_true_iff, negb_true_iff, stable_go_iff. apply and_iff_compat_r, to_upper_fix.
Qed.
