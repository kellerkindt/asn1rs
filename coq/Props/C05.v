(* C05 — extension additions are forward/backward compatible.  This file states the theorems.  Each is
   proved by a lemma of Uper/CompatProofs.v (step level) or Uper/CompatNestedProofs.v (end to end), or
   derived here in a few lines: the top-level statements from the ones at any depth, C05_sequence_compat
   from the SEQUENCE/SET reader theorem [R_seq_conv] of Uper/Proofs.v, the sentinel corollaries from the
   statement they extend; the closed examples are evaluated here.
   - step level (suffix _partial): the reader's handling of the transmitted presence range;
   - end to end (C05_forward, C05_backward, C05_sentinel_forward, C05_sentinel_backward): schema pairs [extends V1 V2]
     (appended OPTIONAL/DEFAULT extension additions of an extensible SEQUENCE/SET, appended extension
     alternatives of an extensible CHOICE, appended items of an extensible ENUMERATED, at top level),
     every value outside the excluded classes of C01 ([Known_C01]: open types of 16K octets or more etc.),
     both cargo profiles ([forall m]), any reader source positioned at the message followed by an
     arbitrary tail ([rsrc s bs tail]); the reader's final state [src_adv s (bl bs) tail] is "exactly at the
     end of the message".  The relation and the values the readers return are defined in
     Uper/CompatFullProofs.v; the pairs are instances of the relation at any depth below
     (C05_extends_is_deep) and the statements corollaries.  All of it is over the executable model
     Uper/Writer.v, Uper/Reader.v and the reference encoder [enc] of Uper/Spec.v ([enc] is what the writer
     produces: C01_writer_is_reference).
   - at any depth (C05_forward_deep, C05_backward_deep, C05_sentinel_forward_deep, C05_sentinel_backward_deep):
     schema pairs [extends_deep V1 V2] (Uper/CompatNestedProofs.v): reflexivity, the top-level steps above
     (C05_extends_is_deep), and congruence -- a SEQUENCE/SET whose component types evolve pointwise (root
     components and extension additions, i.e. inside open types) and which may gain additions at the same
     node, a SEQUENCE OF whose element type evolves, a CHOICE whose alternatives evolve pointwise and which
     may gain extension alternatives at the same node, an ENUMERATED that gains items; any nesting depth,
     several nested types evolving at once; transitive (C05_extends_deep_trans).  Forward: the V2 reader
     returns [pad_deep V1 V2 v] (additions absent / default at every nested position).  Backward: the V1 reader
     returns [forget_deep V1 V2 v] (unknown additions dropped at every nested position); when that is
     undefined the reader fails with InvalidChoiceIndex, and it is undefined only if the value, read
     positionally against V1, contains a CHOICE alternative / ENUMERATED item V1 does not have
     ([has_unknown V1 v]) -- an error, never a wrong value.  In both directions the reader ends exactly at
     the end of the message.  Hypotheses beyond the property text: the descriptor constants of both versions
     are consistent ([wf_ty], part of [extends] at top level), the C01 exclusion classes ([Known_C01]), and,
     inside the relation, a DEFAULT component keeps its type (its default value is part of the component
     kind and would have to change with the type; not covered). *)
From A1 Require Import Uper.CompatProofs.
From A1 Require Import Uper.Proofs Uper.CompatFullProofs Uper.CompatNestedProofs.
Local Open Scope N_scope.

(* forward (old data, new reader): an addition beyond the transmitted presence bits is absent *)
Theorem C05_beyond_transmitted_is_absent_partial : forall r a b is_opt,
  b <= a -> read_from_field_simple r (AllBitField a b) is_opt = Ok (f_ok (Some false), r).
Proof. exact beyond_transmitted_is_absent. Qed.

(* no extension bit: every addition is absent, whatever the local addition count *)
Theorem C05_no_extension_is_absent_partial : forall r is_opt,
  read_from_field_simple r ExtSeqEmpty is_opt = Ok (f_ok (Some false), r).
Proof. reflexivity. Qed.

(* backward (new data, old reader): with no unknown addition left the skip is the identity *)
Theorem C05_skip_nothing_partial : forall m r b,
  r_scope r = Some (AllBitField b b) -> skip_unknown_extension_additions m r = Ok r.
Proof.
  intros m r b H. unfold skip_unknown_extension_additions. rewrite H.
  rewrite skip_loop_done by apply N.le_refl. rewrite <- H. destruct r; reflexivity.
Qed.

(* an absent unknown addition costs nothing: the walk moves to the next presence bit *)
Theorem C05_skip_absent_step_partial : forall f m r p stop,
  p < stop -> r_bit_at (r_src r) p = Ok false ->
  skip_unknown_loop (S f) m r p stop = skip_unknown_loop f m r (p + 1) stop.
Proof. exact skip_absent_step. Qed.

(* a present unknown addition is skipped by exactly its open-type length *)
Theorem C05_skip_present_step_partial : forall f m r p stop len r1,
  p < stop -> r_bit_at (r_src r) p = Ok true ->
  r_get r (r_length_determinant m None None) = Ok (len, r1) ->
  len * 8 < two64 -> s_pos (r_src r1) + len * 8 < two64 ->
  s_pos (r_src r1) + len * 8 <= s_len (r_src r1) ->
  skip_unknown_loop (S f) m r p stop =
    skip_unknown_loop f m (r_set_src r1 (src_set_pos (r_src r1) (s_pos (r_src r1) + len * 8))) (p + 1) stop.
Proof. exact skip_present_step. Qed.

Example C05_nonvacuous :
  (* V2 = SEQUENCE { a BOOLEAN, ..., b BOOLEAN OPTIONAL, c OCTET STRING OPTIONAL } written, V1 = without c read *)
  let v2 := TSeq [(FReq, TBool); (FOpt, TBool); (FOpt, TOctets None None false)] 0 3 (Some 0) in
  let v1 := TSeq [(FReq, TBool); (FOpt, TBool)] 0 2 (Some 0) in
  let sentinel := TInt U8 (Some 0%Z) (Some 255%Z) false in
  match write_ty dev_mode v2 (VSeq [Some (VBool true); Some (VBool false); Some (VOctets [1; 2; 3])]) w_empty with
  | Ok w =>
      match write_ty dev_mode sentinel (VInt 165) w with
      | Ok w' =>
          let b := w_bits w' in
          match read_ty dev_mode v1 (r_of_src (src_of_bytes (bytes_of_bits b) (N.of_nat (length b)))) with
          | Ok (v, r) => v = VSeq [Some (VBool true); Some (VBool false)] /\
                         exists r', read_ty dev_mode sentinel r = Ok (VInt 165, r')
          | _ => False
          end
      | _ => False
      end
  | _ => False
  end.
Proof. vm_compute. split; [reflexivity|eexists; reflexivity]. Qed.

(** * end to end *)
(* forward (old data, new reader): every V1 encoding decodes under V2 to the same components with the
   new additions absent (DEFAULT additions take their default), the reader ending exactly at the end *)
Theorem C05_forward : forall m V1 V2 v bs s tail,
  extends V1 V2 -> wf_val V1 v -> ~ Known_C01 m V1 v -> enc m V1 v = Ok bs -> rsrc s bs tail ->
  read_ty m V2 (r_of_src s) = Ok (pad_absent V1 V2 v, r_of_src (src_adv s (bl bs) tail)).
Proof.
  intros m V1 V2 v bs s tail Hext Hv Hk He Hs. destruct (extends_is_deep V1 V2 Hext) as (Hd & H1 & H2).
  rewrite <- (pad_deep_extends V1 V2 v Hext Hv). apply forward_deep; assumption.
Qed.

(* backward (new data, old reader): every V2 encoding decodes under V1 to the components V1 knows,
   unknown additions skipped; an alternative / item V1 does not know is reported as InvalidChoiceIndex,
   never as a value *)
Theorem C05_backward : forall m V1 V2 v bs s tail,
  extends V1 V2 -> wf_val V2 v -> ~ Known_C01 m V2 v -> enc m V2 v = Ok bs -> rsrc s bs tail ->
  (known_index V1 v ->
     read_ty m V1 (r_of_src s) = Ok (project_root V1 V2 v, r_of_src (src_adv s (bl bs) tail))) /\
  (~ known_index V1 v -> read_ty m V1 (r_of_src s) = Err E_INVALID_CHOICE).
Proof.
  intros m V1 V2 v bs s tail Hext Hv Hk He Hs. destruct (extends_is_deep V1 V2 Hext) as (Hd & H1 & H2).
  destruct (conv_deep_extends V1 V2 v Hext Hv) as [Ek Eu].
  destruct (backward_deep m V1 V2 v bs s tail Hd H1 H2 Hv Hk He Hs) as (A & B & _).
  split; intros Hi; [apply A, Ek, Hi|apply B, Eu, Hi].
Qed.

(* the SEQUENCE/SET case in its general form: writer components fsC ++ wx, reader components fsC ++ rx,
   one of wx / rx empty *)
Theorem C05_sequence_compat : forall m fsC wx rx so fcW fcR e vals bs s tail,
  wf_ty (TSeq (fsC ++ wx) so fcW (Some e)) -> wf_ty (TSeq (fsC ++ rx) so fcR (Some e)) ->
  (S (N.to_nat e) <= length fsC)%nat ->
  Forall optk rx -> Forall optk wx -> (rx = [] \/ wx = []) ->
  wf_val (TSeq (fsC ++ wx) so fcW (Some e)) (VSeq vals) ->
  ~ Known_C01 m (TSeq (fsC ++ wx) so fcW (Some e)) (VSeq vals) ->
  enc m (TSeq (fsC ++ wx) so fcW (Some e)) (VSeq vals) = Ok bs -> rsrc s bs tail ->
  read_ty m (TSeq (fsC ++ rx) so fcR (Some e)) (r_of_src s) =
  Ok (VSeq (firstn (length fsC) vals ++ pad_of rx), r_of_src (src_adv s (bl bs) tail)).
Proof.
  intros m fsC wx rx so fcW fcR e vals bs s tail HtyW HtyR Hkr Frx Fwx Hdisj Hv Hk He Hs.
  destruct (proj1 (wf_ty_seq _ _ _ _) HtyW) as [_ Htf]. apply all_wf_fields_app in Htf. destruct Htf as [Htf _].
  assert (FC : Forall2 (comp_ok m (fun _ _ y => Some y)) fsC fsC).
  { apply comp_ok_same; [|exact Htf]. apply Forall_forall. intros f _. apply read_enc. }
  rewrite (R_seq_conv m _ fsC fsC wx rx so fcW fcR (Some e) HtyW HtyR FC Frx Fwx Hdisj ltac:(discriminate)
             (VSeq vals) bs He Hv Hk s tail Hs).
  cbn [conv_seq]. rewrite (conv_vals_same fsC wx vals Hv). reflexivity.
Qed.

(* data following the message decodes correctly, in both directions *)
Theorem C05_sentinel_forward : forall m V1 V2 v bs T x bs' s tail,
  extends V1 V2 -> wf_val V1 v -> ~ Known_C01 m V1 v -> enc m V1 v = Ok bs ->
  wf_ty T -> wf_val T x -> ~ Known_C01 m T x -> enc m T x = Ok bs' ->
  rsrc s (bs ++ bs') tail ->
  exists r1, read_ty m V2 (r_of_src s) = Ok (pad_absent V1 V2 v, r1) /\
             read_ty m T r1 = Ok (x, r_of_src (src_adv s (bl (bs ++ bs')) tail)).
Proof.
  intros m V1 V2 v bs T x bs' s tail Hext Hv Hk He. apply then_read. intros tl. apply C05_forward; assumption.
Qed.

Theorem C05_sentinel_backward : forall m V1 V2 v bs T x bs' s tail,
  extends V1 V2 -> wf_val V2 v -> ~ Known_C01 m V2 v -> enc m V2 v = Ok bs -> known_index V1 v ->
  wf_ty T -> wf_val T x -> ~ Known_C01 m T x -> enc m T x = Ok bs' ->
  rsrc s (bs ++ bs') tail ->
  exists r1, read_ty m V1 (r_of_src s) = Ok (project_root V1 V2 v, r1) /\
             read_ty m T r1 = Ok (x, r_of_src (src_adv s (bl (bs ++ bs')) tail)).
Proof.
  intros m V1 V2 v bs T x bs' s tail Hext Hv Hk He Hi. apply then_read. intros tl Hs.
  exact (proj1 (C05_backward m V1 V2 v bs s tl Hext Hv Hk He Hs) Hi).
Qed.

(* V1 = SEQUENCE { a BOOLEAN, b INTEGER(0..255) OPTIONAL, ..., c BOOLEAN OPTIONAL } (one addition),
   V2 = V1 + { d OCTET STRING OPTIONAL, e INTEGER(0..255) DEFAULT 7 } (three additions); d carries 130
   octets (open type of 132 octets: two-octet length); both directions with a sentinel octet after the
   message; the hypotheses of C05_forward / C05_backward hold for the pair and the two values *)
Example C05_full_nonvacuous :
  extends ex5_V1 ex5_V2 /\
  (wf_val ex5_V1 ex5_v1 /\ ~ Known_C01 dev_mode ex5_V1 ex5_v1) /\
  (wf_val ex5_V2 ex5_v2 /\ ~ Known_C01 dev_mode ex5_V2 ex5_v2) /\
  compat_run dev_mode ex5_V1 ex5_V2 ex5_v1 ex5_sentinel (VInt 165)
    = Some (pad_absent ex5_V1 ex5_V2 ex5_v1, VInt 165, true) /\
  pad_absent ex5_V1 ex5_V2 ex5_v1
    = VSeq [Some (VBool true); Some (VInt 9); Some (VBool false); None; Some (VInt 7)] /\
  compat_run dev_mode ex5_V2 ex5_V1 ex5_v2 ex5_sentinel (VInt 165)
    = Some (project_root ex5_V1 ex5_V2 ex5_v2, VInt 165, true) /\
  compat_run release_mode ex5_V2 ex5_V1 ex5_v2 ex5_sentinel (VInt 165)
    = Some (project_root ex5_V1 ex5_V2 ex5_v2, VInt 165, true) /\
  project_root ex5_V1 ex5_V2 ex5_v2 = VSeq [Some (VBool true); None; Some (VBool true)] /\
  match enc dev_mode (TOctets None None false) (VOctets (repeat 171 130)) with
  | Ok b => (bl b + 7) / 8 = 132
  | _ => False
  end.
Proof.
  split; [exact ex5_extends|].
  split; [split; [wf_value ex5_unfold|not_known ex5_unfold]|].
  split; [split; [wf_value ex5_unfold|not_known ex5_unfold]|].
  repeat split; vm_compute; reflexivity.
Qed.

(** * at any depth *)
(* the top-level pairs are instances of the deep relation *)
Theorem C05_extends_is_deep : forall V1 V2, extends V1 V2 -> extends_deep V1 V2 /\ wf_ty V1 /\ wf_ty V2.
Proof. exact extends_is_deep. Qed.

Theorem C05_extends_deep_trans : forall A B C, extends_deep A B -> extends_deep B C -> extends_deep A C.
Proof. exact extends_deep_trans. Qed.

(* forward (old data, new reader), the evolving types anywhere inside: root content unchanged, the new
   additions absent at every nested position, the reader ending exactly at the end *)
Theorem C05_forward_deep : forall m V1 V2 v bs s tail,
  extends_deep V1 V2 -> wf_ty V1 -> wf_ty V2 -> wf_val V1 v -> ~ Known_C01 m V1 v ->
  enc m V1 v = Ok bs -> rsrc s bs tail ->
  read_ty m V2 (r_of_src s) = Ok (pad_deep V1 V2 v, r_of_src (src_adv s (bl bs) tail)).
Proof. exact forward_deep. Qed.

(* backward (new data, old reader): unknown additions skipped at every nested position (inside an open
   type the outer reader repositions to the end of the window); an alternative / item V1 does not have,
   anywhere in an encoded position, is reported as InvalidChoiceIndex -- never a value -- and that is the
   only way the old reader fails *)
Theorem C05_backward_deep : forall m V1 V2 v bs s tail,
  extends_deep V1 V2 -> wf_ty V1 -> wf_ty V2 -> wf_val V2 v -> ~ Known_C01 m V2 v ->
  enc m V2 v = Ok bs -> rsrc s bs tail ->
  (forall v', forget_deep V1 V2 v = Some v' ->
     read_ty m V1 (r_of_src s) = Ok (v', r_of_src (src_adv s (bl bs) tail))) /\
  (forget_deep V1 V2 v = None ->
     read_ty m V1 (r_of_src s) = Err E_INVALID_CHOICE /\ has_unknown V1 v) /\
  (~ has_unknown V1 v -> exists v', forget_deep V1 V2 v = Some v').
Proof. exact backward_deep. Qed.

Theorem C05_sentinel_forward_deep : forall m V1 V2 v bs T x bs' s tail,
  extends_deep V1 V2 -> wf_ty V1 -> wf_ty V2 -> wf_val V1 v -> ~ Known_C01 m V1 v -> enc m V1 v = Ok bs ->
  wf_ty T -> wf_val T x -> ~ Known_C01 m T x -> enc m T x = Ok bs' ->
  rsrc s (bs ++ bs') tail ->
  exists r1, read_ty m V2 (r_of_src s) = Ok (pad_deep V1 V2 v, r1) /\
             read_ty m T r1 = Ok (x, r_of_src (src_adv s (bl (bs ++ bs')) tail)).
Proof.
  intros m V1 V2 v bs T x bs' s tail Hext H1 H2 Hv Hk He. apply then_read. intros tl. apply C05_forward_deep; assumption.
Qed.

Theorem C05_sentinel_backward_deep : forall m V1 V2 v v' bs T x bs' s tail,
  extends_deep V1 V2 -> wf_ty V1 -> wf_ty V2 -> wf_val V2 v -> ~ Known_C01 m V2 v -> enc m V2 v = Ok bs ->
  forget_deep V1 V2 v = Some v' ->
  wf_ty T -> wf_val T x -> ~ Known_C01 m T x -> enc m T x = Ok bs' ->
  rsrc s (bs ++ bs') tail ->
  exists r1, read_ty m V1 (r_of_src s) = Ok (v', r1) /\
             read_ty m T r1 = Ok (x, r_of_src (src_adv s (bl (bs ++ bs')) tail)).
Proof.
  intros m V1 V2 v v' bs T x bs' s tail Hext H1 H2 Hv Hk He Hf. apply then_read. intros tl Hs.
  exact (proj1 (C05_backward_deep m V1 V2 v bs s tl Hext H1 H2 Hv Hk He Hs) v' Hf).
Qed.

(* Outer ::= SEQUENCE { hdr INTEGER(0..255), body SEQUENCE OF Inner, ..., tail Inner OPTIONAL } with
   Inner evolving from { a BOOLEAN, ... } to { a BOOLEAN, ..., b OCTET STRING OPTIONAL }: V2 data with b
   present inside the SEQUENCE OF and inside the open type of tail, read under V1 and followed by a
   sentinel octet (both profiles); V1 data under V2; and an ENUMERATED that gained an item inside a
   SEQUENCE inside a SEQUENCE OF: the new item makes the old reader fail with InvalidChoiceIndex.  The
   hypotheses of C05_forward_deep / C05_backward_deep hold for the pairs and the values *)
Example C05_nested_nonvacuous :
  extends_deep exn_V1 exn_V2 /\ wf_ty exn_V1 /\ wf_ty exn_V2 /\
  (wf_val exn_V2 exn_v2 /\ ~ Known_C01 dev_mode exn_V2 exn_v2) /\
  (wf_val exn_V1 exn_v1 /\ ~ Known_C01 dev_mode exn_V1 exn_v1) /\
  forget_deep exn_V1 exn_V2 exn_v2 = Some exn_v2_seen_by_V1 /\
  compat_run dev_mode exn_V2 exn_V1 exn_v2 ex5_sentinel (VInt 165) = Some (exn_v2_seen_by_V1, VInt 165, true) /\
  compat_run release_mode exn_V2 exn_V1 exn_v2 ex5_sentinel (VInt 165) = Some (exn_v2_seen_by_V1, VInt 165, true) /\
  pad_deep exn_V1 exn_V2 exn_v1 = exn_v1_seen_by_V2 /\
  compat_run dev_mode exn_V1 exn_V2 exn_v1 ex5_sentinel (VInt 165) = Some (exn_v1_seen_by_V2, VInt 165, true) /\
  extends_deep exn_E1 exn_E2 /\ wf_ty exn_E1 /\ wf_ty exn_E2 /\
  (wf_val exn_E2 exn_e_unknown /\ ~ Known_C01 dev_mode exn_E2 exn_e_unknown) /\
  forget_deep exn_E1 exn_E2 exn_e_unknown = None /\ has_unknown exn_E1 exn_e_unknown /\
  forget_deep exn_E1 exn_E2 exn_e_known = Some exn_e_known /\
  match enc dev_mode exn_E2 exn_e_unknown with
  | Ok bs => read_ty dev_mode exn_E1 (r_of_src (src_of_bits bs (bl bs))) = Err E_INVALID_CHOICE
  | _ => False
  end.
Proof.
  split; [exact exn_extends|].
  do 2 (split; [wf_ty_closed|]).
  do 2 (split; [split; [wf_value exn_unfold|not_known exn_unfold]|]).
  do 5 (split; [vm_compute; reflexivity|]).
  split; [exact exn_E_extends|].
  do 2 (split; [wf_ty_closed|]).
  split; [split; [wf_value exn_unfold|not_known exn_unfold]|].
  split; [vm_compute; reflexivity|].
  split; [cbn; right; left; left; vm_compute; discriminate|].
  split; [vm_compute; reflexivity|].
  vm_compute. reflexivity.
Qed.

Print Assumptions C05_beyond_transmitted_is_absent_partial.
Print Assumptions C05_no_extension_is_absent_partial.
Print Assumptions C05_skip_nothing_partial.
Print Assumptions C05_skip_absent_step_partial.
Print Assumptions C05_skip_present_step_partial.
Print Assumptions C05_forward.
Print Assumptions C05_backward.
Print Assumptions C05_sequence_compat.
Print Assumptions C05_sentinel_forward.
Print Assumptions C05_sentinel_backward.
Print Assumptions C05_full_nonvacuous.
Print Assumptions C05_extends_is_deep.
Print Assumptions C05_extends_deep_trans.
Print Assumptions C05_forward_deep.
Print Assumptions C05_backward_deep.
Print Assumptions C05_sentinel_forward_deep.
Print Assumptions C05_sentinel_backward_deep.
Print Assumptions C05_nested_nonvacuous.
