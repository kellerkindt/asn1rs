(* Front/ParseTotalProofs.v -- totality of the whole parser model (C14).

   One invariant, [stp root cur d rest P r], is proved for every function of Front/Parse.v:
     * r is a value or an error value: never a panic, never fuel exhaustion;
     * a value leaves a suffix of the root token list that is at least d tokens shorter than the list [cur] the
       function was started on  (this is the termination argument: every loop iteration consumes a token, so the
       fuel `S (length tokens)` of the token loops and `2 * length tokens + 4` of the type grammar suffice);
     * an error value without a token is UnexpectedEndOfStream (or MissingModuleName at the very beginning), an
       error value with a token carries a token of the root list -- except InvalidLiteral, whose token is
       synthesised by read_literal from the location of the literal's first token and the collected text. *)
From Coq Require Import String.
From A1 Require Import Front.Parse Front.ParseProofs.
Local Open Scope N_scope.

Definition sub (r ts : toks) : Prop := exists pre, ts = (pre ++ r)%list.

Lemma sub_refl : forall ts, sub ts ts.
Proof. intros ts. exists []. reflexivity. Qed.

Lemma sub_nil : forall root, sub [] root.
Proof. intros root. exists root. symmetry. apply app_nil_r. Qed.

Lemma sub_trans : forall a b c, sub a b -> sub b c -> sub a c.
Proof. intros a b c [p1 H1] [p2 H2]. exists (p2 ++ p1)%list. subst. rewrite app_assoc. reflexivity. Qed.

Lemma sub_cons : forall t r, sub r (t :: r).
Proof. intros t r. exists [t]. reflexivity. Qed.

Lemma sub_tail : forall t r root, sub (t :: r) root -> sub r root.
Proof. intros t r root H. eapply sub_trans; [apply sub_cons | exact H]. Qed.

Lemma sub_len : forall r ts, sub r ts -> (length r <= length ts)%nat.
Proof. intros r ts [p H]. subst. rewrite app_length. lia. Qed.

Lemma sub_in : forall r ts t, sub r ts -> In t r -> In t ts.
Proof. intros r ts t [p H] Hin. subst. apply in_or_app. right. exact Hin. Qed.

Lemma sub_head : forall t r root, sub (t :: r) root -> In t root.
Proof. intros t r root H. eapply sub_in; [exact H | left; reflexivity]. Qed.

Definition tok_from (root : toks) (k : N) (t : token) : Prop :=
  In t root \/
  (k = E_INVALID_LITERAL /\ exists p, In p root /\ tok_line t = tok_line p /\ tok_column t = tok_column p).

Definition errok (root : toks) (k : N) (o : option token) : Prop :=
  match o with
  | None => k = E_END_OF_STREAM \/ k = E_MISSING_MODULE_NAME
  | Some t => tok_from root k t
  end.

Definition outcome {A : Type} (root : toks) (Q : A -> Prop) (r : pres A) : Prop :=
  match r with
  | POk a => Q a
  | PErr k o => errok root k o
  | PPanic _ | POutOfFuel => False
  end.

Lemma out_bind : forall (A B : Type) root (Q : A -> Prop) (Q' : B -> Prop) (r : pres A) (f : A -> pres B),
  outcome root Q r -> (forall a, Q a -> outcome root Q' (f a)) -> outcome root Q' (pbind r f).
Proof. intros A B root Q Q' [a | k o | p |] f H Hf; cbn [pbind outcome] in *; auto. Qed.

Lemma outcome_safe : forall (A : Type) root (Q : A -> Prop) (r : pres A), outcome root Q r -> safe r.
Proof. intros A root Q [a | k o | p |] H; cbn [outcome safe] in *; auto. Qed.

(* stp ("step"): what one call of a parser function, started on cur, does to the token list root -- the three clauses of
   the head comment; rest projects the tokens left over out of the value (id: the value is that list, snd: its last
   component), P is what else is claimed of the value (tt1: nothing) *)
Definition stp {A : Type} (root cur : toks) (d : nat) (rest : A -> toks) (P : A -> Prop) (r : pres A) : Prop :=
  outcome root (fun a => sub (rest a) root /\ (d + length (rest a) <= length cur)%nat /\ P a) r.

Definition tt1 {A : Type} (_ : A) : Prop := True.

Lemma eos_ok : forall root, errok root E_END_OF_STREAM None.
Proof. intros root. left. reflexivity. Qed.

Lemma tok_ok : forall root k t, In t root -> errok root k (Some t).
Proof. intros root k t H. left. exact H. Qed.

Lemma mmn_ok : forall root, errok root E_MISSING_MODULE_NAME None.
Proof. intros root. right. reflexivity. Qed.

Section Laws.
  Context {A B : Type} (root : toks) (d : nat) (rest : B -> toks) (P : B -> Prop).

  Lemma stp_ret : forall cur b, sub (rest b) root -> (d + length (rest b) <= length cur)%nat -> P b ->
    stp root cur d rest P (POk b).
  Proof. intros cur b H1 H2 H3. exact (conj H1 (conj H2 H3)). Qed.

  Lemma stp_err : forall cur k o, errok root k o -> stp root cur d rest P (PErr k o).
  Proof. intros cur k o H. exact H. Qed.

  (* from a parser started further down the list, or one that owes or claims more *)
  Lemma stp_weaken : forall cur' d' (P' : B -> Prop) cur (r : pres B),
    stp root cur' d' rest P' r -> (d + length cur' <= d' + length cur)%nat -> (forall b, P' b -> P b) ->
    stp root cur d rest P r.
  Proof.
    intros cur' d' P' cur [b | k o | p |] H Hd HP; cbn [stp outcome] in *; try exact H.
    destruct H as (H1 & H2 & H3). repeat split; [exact H1 | lia | auto].
  Qed.

  (* the continuation starts on what the first parser left; it owes what is left of d *)
  Lemma stp_bind : forall cur d1 (rest1 : A -> toks) P1 (r : pres A) (f : A -> pres B),
    stp root cur d1 rest1 P1 r ->
    (forall a, sub (rest1 a) root -> (d1 + length (rest1 a) <= length cur)%nat -> P1 a ->
               stp root (rest1 a) (d - d1) rest P (f a)) ->
    stp root cur d rest P (pbind r f).
  Proof.
    intros cur d1 rest1 P1 r f H Hf. eapply out_bind; [exact H|]. intros a (Hs & Hl & Ha).
    eapply stp_weaken; [exact (Hf a Hs Hl Ha) | lia | auto].
  Qed.

  (* a parser of one token value consumes nothing *)
  Lemma stp_bind_val : forall cur (Q : A -> Prop) (r : pres A) (f : A -> pres B),
    outcome root Q r -> (forall a, Q a -> stp root cur d rest P (f a)) -> stp root cur d rest P (pbind r f).
  Proof. intros cur Q r f. apply out_bind. Qed.

  (* the head token is consumed by a pattern match *)
  Lemma stp_tl : forall t cur (r : pres B), stp root cur (d - 1) rest P r -> stp root (t :: cur) d rest P r.
  Proof. intros t cur r H. eapply stp_weaken; [exact H | cbn [length]; lia | auto]. Qed.

  (* next_is_sep and next_is_text_ic unfold to this match: the head token is consumed when it passes the test *)
  Lemma stp_cond_next : forall (test : token -> bool) cur (f : bool -> toks -> pres B), sub cur root ->
    (forall r, sub r root -> (1 + length r <= length cur)%nat -> stp root r (d - 1) rest P (f true r)) ->
    stp root cur d rest P (f false cur) ->
    stp root cur d rest P (let (b, r) := match cur with
                                         | t :: r => if test t then (true, r) else (false, cur)
                                         | [] => (false, [])
                                         end in f b r).
  Proof.
    intros test [|t r] f Hs Ht Hf; [exact Hf|]. cbv iota.
    destruct (test t); [|exact Hf]. apply stp_tl, Ht; [eapply sub_tail, Hs | cbn [length]; lia].
  Qed.
End Laws.

(* The hint database holds one stp (or outcome) lemma per parser, found by its head, and the side conditions
   they leave: a suffix of root, a token of root, a fuel bound.  Parsers that are one match with different tests
   (stp_next_if, out_tok_value) share a lemma stated on that match: the hint applies after unfolding them. *)
Create HintDb stp discriminated.
#[local] Hint Resolve sub_refl sub_nil sub_tail sub_head eos_ok mmn_ok tok_ok : stp.
#[local] Hint Extern 1 (_ < _)%nat => lia : stp.
#[local] Hint Extern 1 (_ <= _)%nat => lia : stp.

Lemma pbind_assoc : forall (A B C : Type) (r : pres A) (f : A -> pres B) (g : B -> pres C),
  pbind (pbind r f) g = pbind r (fun a => pbind (f a) g).
Proof. intros A B C [a | k o | p |] f g; reflexivity. Qed.

(* what a bound result is made of, and what stp says of it *)
Ltac intro_res :=
  let a := fresh "a" in
  intros a; repeat match goal with x : (_ * _)%type |- _ => destruct x end;
  unfold id, tt1; cbn [fst snd Nat.sub]; intros.
(* a value or an error value *)
Ltac fin :=
  first [ apply stp_err | apply stp_ret; unfold id, tt1; cbn [fst snd length]; [ | first [apply le_n | lia] | ] ];
  eauto with stp.
(* a call whose result is returned unchanged *)
Ltac tail := eapply stp_weaken; [solve [eauto with stp] | cbn [Nat.sub]; auto | auto].
(* one step along the body of a parser: the lemma of the function called is looked up in the database *)
Ltac stp_step :=
  lazymatch goal with
  | |- stp _ _ _ _ _ (POk _) => fin
  | |- stp _ _ _ _ _ (PErr _ _) => fin
  | |- stp _ _ _ _ _ (pbind (POk _) _) => cbn [pbind]
  | |- stp _ _ _ _ _ (pbind (PErr _ _) _) => cbn [pbind]
  | |- stp _ _ _ _ _ (pbind (pbind _ _) _) => rewrite pbind_assoc
  | |- stp _ _ _ _ _ (pbind ?x _) =>
      first [ eapply stp_bind; [solve [eauto with stp] | intro_res]
            | eapply stp_bind_val; [solve [eauto with stp] | intro_res]
            | lazymatch x with
              | if ?b then _ else _ => destruct b
              | match ?y with _ => _ end => destruct y
              end ]
  | |- stp _ _ _ _ _ (if ?b then _ else _) => destruct b
  | |- stp _ _ _ _ _ (let (_, _) := _ in _) =>
      apply stp_cond_next; [solve [eauto with stp] | intros; cbn [Nat.sub] | ]; cbv beta iota
  | |- stp _ _ _ _ _ (match ?x with _ => _ end) => destruct x
  | |- stp _ _ _ _ _ _ => tail
  end.

Lemma stp_next_or_err : forall root cur, sub cur root ->
  stp root cur 1 snd (fun a => In (fst a) root) (next_or_err cur).
Proof. intros root [|t r] Hs; cbn [next_or_err]; fin. Qed.

Lemma stp_next_text_or_err : forall root cur, sub cur root ->
  stp root cur 1 snd tt1 (next_text_or_err cur).
Proof. intros root [|[l c s | l c ch] r] Hs; cbn [next_text_or_err]; fin. Qed.

(* next_text_eq_ic_or_err, next_text_eq_any_ic_or_err and next_if_sep unfold to this match *)
Lemma stp_next_if : forall (test : token -> bool) k root cur, sub cur root ->
  stp root cur 1 snd (fun a => In (fst a) root /\ test (fst a) = true)
      (match cur with
       | [] => PErr E_END_OF_STREAM None
       | t :: r => if test t then POk (t, r) else PErr k (Some t)
       end).
Proof. intros test k root [|t r] Hs; [fin|]. destruct (test t) eqn:E; fin. Qed.
#[local] Hint Resolve stp_next_or_err stp_next_text_or_err stp_next_if : stp.

Lemma stp_next_sep_or_err : forall c root cur, sub cur root ->
  stp root cur 1 id tt1 (next_sep_or_err c cur).
Proof. intros c root cur Hs. unfold next_sep_or_err. repeat stp_step. Qed.
#[local] Hint Resolve stp_next_sep_or_err : stp.

Lemma stp_three_dots : forall root cur, sub cur root -> stp root cur 1 id tt1 (three_dots cur).
Proof. intros root cur Hs. unfold three_dots. repeat stp_step. Qed.
#[local] Hint Resolve stp_three_dots : stp.

Lemma out_loop_ctrl : forall root t, In t root -> outcome root tt1 (loop_ctrl t).
Proof.
  intros root t H. unfold loop_ctrl.
  destruct (eq_separator t C_COMMA); [exact I|]. destruct (eq_separator t C_RBRACE); [exact I|]. apply tok_ok, H.
Qed.

(* parse_tag_number, constant_i64_parser and constant_u64_parser unfold to this match, and the hint is found for all three *)
Lemma out_tok_value : forall (V : Type) (f : str -> option V) k root t, In t root ->
  outcome root tt1
    (match tok_text t with
     | Some s => match f s with Some v => POk v | None => PErr k (Some t) end
     | None => PErr k (Some t)
     end).
Proof. intros V f k root t H. destruct (tok_text t) as [s|]; [destruct (f s)|]; try exact I; apply tok_ok, H. Qed.

Lemma out_into_text_or : forall root k t, In t root -> outcome root tt1 (into_text_or k t).
Proof. intros root k [l c s | l c ch] H; [exact I | apply tok_ok, H]. Qed.
#[local] Hint Resolve out_loop_ctrl out_tok_value out_into_text_or : stp.

Lemma stp_read_oid_loop : forall fuel root cur acc, sub cur root -> (length cur < fuel)%nat ->
  stp root cur 0 snd tt1 (read_oid_loop fuel cur acc).
Proof.
  induction fuel as [|fuel IH]; intros root cur acc Hs Hf; [lia|].
  cbn [read_oid_loop]. destruct cur as [|t r]; [fin|]. cbn [length] in Hf. apply stp_tl. repeat stp_step.
Qed.

Lemma stp_read_oid : forall root cur, sub cur root -> stp root cur 0 snd tt1 (read_oid cur).
Proof. intros root cur Hs. unfold read_oid. apply stp_read_oid_loop; [exact Hs | lia]. Qed.
#[local] Hint Resolve stp_read_oid : stp.

Lemma stp_maybe_read_oid : forall root cur, sub cur root -> stp root cur 0 snd tt1 (maybe_read_oid cur).
Proof. intros root cur Hs. unfold maybe_read_oid. repeat stp_step. Qed.
#[local] Hint Resolve stp_maybe_read_oid : stp.

Lemma stp_read_imports_loop : forall fuel root cur what acc, sub cur root -> (length cur < fuel)%nat ->
  stp root cur 0 snd tt1 (read_imports_loop fuel cur what acc).
Proof.
  induction fuel as [|fuel IH]; intros root cur what acc Hs Hf; [lia|].
  cbn [read_imports_loop]. destruct cur as [|t r]; [fin|]. cbn [length] in Hf. apply stp_tl. repeat stp_step.
Qed.

Lemma stp_read_imports : forall root cur, sub cur root -> stp root cur 0 snd tt1 (read_imports cur).
Proof. intros root cur Hs. unfold read_imports. apply stp_read_imports_loop; [exact Hs | lia]. Qed.
#[local] Hint Resolve stp_read_imports : stp.

Lemma stp_read_tag : forall root cur, sub cur root -> stp root cur 1 snd tt1 (read_tag cur).
Proof. intros root cur Hs. unfold read_tag. repeat stp_step. Qed.
#[local] Hint Resolve stp_read_tag : stp.

Lemma stp_next_with_opt_tag : forall root cur, sub cur root ->
  stp root cur 1 snd (fun a => In (fst (fst a)) root) (next_with_opt_tag cur).
Proof. intros root cur Hs. unfold next_with_opt_tag. repeat stp_step. Qed.

Lemma stp_read_size : forall root cur, sub cur root -> stp root cur 1 snd tt1 (read_size cur).
Proof. intros root cur Hs. unfold read_size. repeat stp_step. Qed.
#[local] Hint Resolve stp_next_with_opt_tag stp_read_size : stp.

Lemma stp_maybe_read_size : forall root cur, sub cur root -> stp root cur 0 snd tt1 (maybe_read_size cur).
Proof. intros root cur Hs. unfold maybe_read_size. repeat stp_step. Qed.
#[local] Hint Resolve stp_maybe_read_size : stp.

Section ConstTotal.
  Variable V : Type.
  Variable parser : token -> pres V.
  Hypothesis Hp : forall root t, In t root -> outcome root tt1 (parser t).

  Lemma stp_read_constant : forall root cur, sub cur root ->
    stp root cur 1 snd tt1 (read_constant V parser cur).
  Proof. intros root cur Hs. unfold read_constant. repeat stp_step. Qed.
  #[local] Hint Resolve stp_read_constant : stp.

  Lemma stp_read_constants_loop : forall fuel root cur acc, sub cur root -> (length cur < fuel)%nat ->
    stp root cur 0 snd tt1 (read_constants_loop V parser fuel cur acc).
  Proof.
    induction fuel as [|fuel IH]; intros root cur acc Hs Hf; [lia|].
    cbn [read_constants_loop]. repeat stp_step.
  Qed.

  Lemma stp_maybe_read_constants : forall root cur, sub cur root ->
    stp root cur 0 snd tt1 (maybe_read_constants V parser cur).
  Proof.
    intros root cur Hs. unfold maybe_read_constants. repeat stp_step. apply stp_read_constants_loop; [assumption | lia].
  Qed.
End ConstTotal.
#[local] Hint Resolve stp_maybe_read_constants : stp.

Lemma stp_range_result : forall root cur lo hi e consts r, sub r root -> (length r <= length cur)%nat ->
  stp root cur 0 snd tt1 (range_result lo hi e consts r).
Proof. intros root cur lo hi e consts r Hs Hl. unfold range_result. repeat stp_step. Qed.
#[local] Hint Resolve stp_range_result : stp.

Lemma stp_read_integer : forall root cur, sub cur root -> stp root cur 0 snd tt1 (read_integer cur).
Proof.
  intros root cur Hs. rewrite read_integer_eq. unfold read_integer_rest. repeat stp_step.
Qed.

Lemma stp_read_enumerated_loop : forall fuel root cur acc ext, sub cur root -> (length cur < fuel)%nat ->
  stp root cur 0 snd tt1 (read_enumerated_loop fuel cur acc ext).
Proof.
  induction fuel as [|fuel IH]; intros root cur acc ext Hs Hf; [lia|].
  cbn [read_enumerated_loop].
  destruct cur as [|t r]; cbn [next_if_sep]; [|destruct (eq_separator t C_DOT); [apply stp_tl; cbn [length] in Hf|]];
    repeat stp_step.
Qed.

Lemma stp_read_enumerated : forall root cur, sub cur root -> stp root cur 1 snd tt1 (read_enumerated cur).
Proof.
  intros root cur Hs. unfold read_enumerated. stp_step. apply stp_read_enumerated_loop; [assumption | lia].
Qed.
#[local] Hint Resolve stp_read_integer stp_read_enumerated : stp.

Lemma stp_read_value_constraint : forall fuel root cur level, sub cur root -> (length cur < fuel)%nat ->
  stp root cur 0 id tt1 (read_value_constraint fuel level cur).
Proof.
  induction fuel as [|fuel IH]; intros root cur level Hs Hf; [lia|].
  cbn [read_value_constraint]. repeat stp_step.
Qed.

Lemma stp_read_presence_constraint : forall root cur, sub cur root ->
  stp root cur 1 id tt1 (read_presence_constraint cur).
Proof. intros root cur Hs. unfold read_presence_constraint. repeat stp_step. Qed.
#[local] Hint Resolve stp_read_value_constraint stp_read_presence_constraint : stp.

Lemma stp_read_itc_entries : forall fuel root cur, sub cur root -> (length cur < fuel)%nat ->
  stp root cur 0 id tt1 (read_itc_entries fuel cur).
Proof.
  induction fuel as [|fuel IH]; intros root cur Hs Hf; [lia|].
  cbn [read_itc_entries]. repeat stp_step.
Qed.
#[local] Hint Resolve stp_read_itc_entries : stp.

Lemma stp_read_inner_type_constraints : forall root cur, sub cur root ->
  stp root cur 1 id tt1 (read_inner_type_constraints cur).
Proof. intros root cur Hs. unfold read_inner_type_constraints. repeat stp_step. Qed.
#[local] Hint Resolve stp_read_inner_type_constraints : stp.

Lemma stp_maybe_read_with_components : forall root cur, sub cur root ->
  stp root cur 0 id tt1 (maybe_read_with_components cur).
Proof. intros root cur Hs. unfold maybe_read_with_components. repeat stp_step. Qed.
#[local] Hint Resolve stp_maybe_read_with_components : stp.

(* LiteralValue::try_from_asn_str panics (slice range) on the one-character string consisting of a quotation
   mark and on the two-character strings apostrophe + h / H / b / B, and on nothing else (literal_outcome).
   lit_shape excludes these and, being cruder than necessary, every other two-character string that starts
   with an apostrophe *)
Definition lit_shape (s : str) : Prop :=
  match s with
  | [c] => c <> 34
  | [a; _] => a <> 39
  | _ => True
  end.

Lemma literal_outcome : forall s,
  (exists o, literal_of_asn_str s = POk o) \/
  (literal_of_asn_str s = PPanic P_SLICE_RANGE /\
   (s = [34] \/ exists x, s = [39; x] /\ (x = 104 \/ x = 72 \/ x = 98 \/ x = 66))).
Proof.
  intros s. unfold literal_of_asn_str.
  destruct (eq_ignore_case s (KW "true")); [left; eexists; reflexivity|].
  destruct (eq_ignore_case s (KW "false")); [left; eexists; reflexivity|].
  (* s = a ++ suffix: the slice panics when a is empty; otherwise destructing a shows the characters it asks for *)
  destruct (match s with 34 :: _ => true | _ => false end && ends_with s [34]) eqn:E1.
  { apply andb_true_iff in E1. destruct E1 as [_ E1]. apply ends_with_split in E1. destruct E1 as [[|x a] ->].
    - right. auto.
    - left. destruct a; eexists; reflexivity. }
  destruct (is_int_text s); [left; eexists; reflexivity|].
  assert (Hq : forall (b : bool) x1 x2, b && (ends_with s [39; x1] || ends_with s [39; x2]) = true ->
            (exists c1 c2 c3 r, s = c1 :: c2 :: c3 :: r) \/ s = [39; x1] \/ s = [39; x2]).
  { intros b x1 x2 E. apply andb_true_iff in E. destruct E as [_ E]. apply orb_true_iff in E.
    destruct E as [E | E]; apply ends_with_split in E; destruct E as [[|c1 [|c2 [|c3 a]]] ->]; cbn [app]; eauto 7. }
  destruct (match s with 39 :: _ => true | _ => false end && (ends_with s [39; 104] || ends_with s [39; 72])) eqn:E2.
  { destruct (Hq _ _ _ E2) as [(c1 & c2 & c3 & r & ->) | [-> | ->]]; [| right; split; [reflexivity | right; eexists; split; [reflexivity | auto]] ..].
    destruct (forallb is_hexdigit (removelast (removelast (c2 :: c3 :: r)))); left; eexists; reflexivity. }
  destruct (match s with 39 :: _ => true | _ => false end && (ends_with s [39; 98] || ends_with s [39; 66])) eqn:E3.
  { destruct (Hq _ _ _ E3) as [(c1 & c2 & c3 & r & ->) | [-> | ->]]; [| right; split; [reflexivity | right; eexists; split; [reflexivity | auto]] ..].
    destruct (forallb (fun c0 => (c0 =? 48) || (c0 =? 49)) (removelast (removelast (c2 :: c3 :: r))));
      left; eexists; reflexivity. }
  left. eexists; reflexivity.
Qed.

Lemma literal_total : forall s, lit_shape s -> exists o, literal_of_asn_str s = POk o.
Proof.
  intros s H. destruct (literal_outcome s) as [Ho | [_ [-> | (x & -> & _)]]]; [exact Ho | |]; exfalso; apply H; reflexivity.
Qed.

(* the panics of try_from_asn_str exist (direct calls), but read_literal never passes such a string *)
Example literal_of_asn_str_panics :
  literal_of_asn_str [34] = PPanic P_SLICE_RANGE /\ literal_of_asn_str [39; 72] = PPanic P_SLICE_RANGE /\
  literal_of_asn_str [39; 98] = PPanic P_SLICE_RANGE.
Proof. repeat split; vm_compute; reflexivity. Qed.

Lemma stp_read_string_loop : forall fuel root cur delim acc x pc, sub cur root -> (length cur < fuel)%nat ->
  stp root cur 1 snd (fun a => exists mid, fst a = (acc ++ mid ++ [delim])%list)
      (read_string_loop fuel delim cur (acc ++ x) pc).
Proof.
  induction fuel as [|fuel IH]; intros root cur delim acc x pc Hs Hf; [lia|].
  cbn [read_string_loop]. eapply stp_bind; [apply stp_next_or_err, Hs|]. intros [t r] Hs1 Hl _. cbn [fst snd] in *.
  destruct (eq_separator t delim).
  - fin. exists x. symmetry. apply app_assoc.
  - destruct t as [l c s | l c ch]; rewrite <- app_assoc; tail.
Qed.

Lemma stp_read_string_literal : forall root cur delim, sub cur root ->
  stp root cur 1 snd (fun a => exists mid, fst a = delim :: (mid ++ [delim])%list) (read_string_literal delim cur).
Proof.
  intros root cur delim Hs. unfold read_string_literal. stp_step. stp_step.
  eapply stp_weaken; [apply (stp_read_string_loop _ _ _ _ [delim]); [assumption | lia] | lia | auto].
Qed.
#[local] Hint Resolve stp_read_string_literal : stp.

Lemma stp_read_hex_or_bit : forall root cur, sub cur root ->
  stp root cur 1 snd (fun a => lit_shape (fst a)) (read_hex_or_bit_string_literal cur).
Proof.
  intros root cur Hs. unfold read_hex_or_bit_string_literal.
  eapply stp_bind; [apply stp_read_string_literal, Hs|]. intros [s r] Hs1 _ [mid Hm]. cbn [fst snd] in *. subst s.
  eapply stp_bind; [apply stp_next_if, Hs1|]. intros [t r'] Hs2 _ [Hin Hkw]. cbn [fst snd] in *.
  destruct t as [l c suffix | l c ch]; [|fin].
  (* the suffix is H or B in either case, so not empty: at least three characters *)
  fin. destruct suffix as [|x suffix]; [discriminate Hkw|]. destruct mid as [|y [|z mid]]; exact I.
Qed.

Lemma lit_shape_of_text : forall s,
  eq_ignore_case s (KW "true") || eq_ignore_case s (KW "false") || is_int_text s = true -> lit_shape s.
Proof.
  intros s H. destruct s as [|a [|b [|c r]]]; cbn [lit_shape]; try exact I.
  - intros ->. vm_compute in H. discriminate.
  - intros ->. vm_compute in H. discriminate.
Qed.

Lemma stp_read_literal : forall root cur, sub cur root -> stp root cur 1 snd tt1 (read_literal cur).
Proof.
  intros root cur Hs. unfold read_literal. destruct cur as [|p cur']; [fin|].
  eapply stp_bind with (d1 := 1%nat) (rest1 := snd) (P1 := fun a => lit_shape (fst a)).
  - destruct (peek_is_text_ic (KW "true") (p :: cur') || peek_is_text_ic (KW "false") (p :: cur')
              || match tok_text p with Some s => is_int_text s | None => false end) eqn:Ec.
    + destruct p as [l c s | l c ch]; cbn [next_text_or_err]; [|fin].
      fin. apply lit_shape_of_text. exact Ec.
    + destruct (peek_is_sep C_QUOTE (p :: cur')).
      * eapply stp_weaken; [apply stp_read_string_literal, Hs | lia |].
        intros [s r] [mid Hm]. cbn [fst] in *. subst s.
        destruct mid as [|x [|y mid]]; cbn [app lit_shape]; try exact I. discriminate.
      * destruct (peek_is_sep C_APOS (p :: cur')); [|fin].
        apply stp_read_hex_or_bit, Hs.
  - intros [s r] Hs1 Hl1 Hsh. cbn [fst snd] in *.
    destruct (literal_total s Hsh) as [o ->]. cbn [pbind].
    destruct o as [v|]; [fin|].
    (* the token is made up from the position of the literal's first token *)
    apply stp_err. right. split; [reflexivity|].
    exists p. split; [eauto with stp | split; reflexivity].
Qed.
#[local] Hint Resolve stp_read_literal : stp.

Lemma stp_field_clause : forall root cur ty0 t1, sub cur root -> In t1 root ->
  stp root cur 0 snd (fun a => In (snd (fst a)) root) (field_clause ty0 t1 cur).
Proof.
  intros root cur ty0 t1 Hs Ht. unfold field_clause.
  destruct (eq_text_ic t1 (KW "OPTIONAL")); [repeat stp_step|].
  destruct (eq_text_ic t1 (KW "DEFAULT")); [|fin].
  eapply stp_bind with (d1 := 1%nat) (rest1 := snd) (P1 := tt1); [|intro_res; repeat stp_step].
  pose proof (stp_read_literal root cur Hs) as Hl.
  destruct (read_literal cur) as [[v r'] | k [tk|] | p |]; try exact Hl.
  destruct ((k =? E_UNSUPPORTED_LITERAL) && is_text tk); [repeat stp_step | exact Hl].
Qed.
#[local] Hint Resolve stp_field_clause : stp.

(* Fuel is handed down, one unit per call and per loop iteration; a list of n tokens needs at most 2n + 4 units
   in read_role_given_text / the two loops and 2n + 3 in the other three.  Two units per token: of two calls in a row one
   consumes a token -- read_role_given_text and the two loops (d = 0) may consume nothing, but they call one of
   read_components / read_field / read_choice (d = 1), which always does, or have consumed one themselves; so every
   chain role -> components -> loop -> field -> role and every loop iteration makes progress.  The bound is not tight
   (that chain spends four units on three tokens), n + 1 is too small (Props/C14.v, C14_fuel_length_plus_1_insufficient). *)
Lemma stp_type_grammar : forall fuel,
  (forall root cur text, sub cur root -> (2 * length cur + 4 <= fuel)%nat ->
     stp root cur 0 snd tt1 (read_role_given_text fuel text cur)) /\
  (forall root cur, sub cur root -> (2 * length cur + 3 <= fuel)%nat ->
     stp root cur 1 snd tt1 (read_components fuel cur)) /\
  (forall root cur acc ext, sub cur root -> (2 * length cur + 4 <= fuel)%nat ->
     stp root cur 0 snd tt1 (components_loop fuel cur acc ext)) /\
  (forall root cur, sub cur root -> (2 * length cur + 3 <= fuel)%nat ->
     stp root cur 1 snd tt1 (read_field fuel cur)) /\
  (forall root cur, sub cur root -> (2 * length cur + 3 <= fuel)%nat ->
     stp root cur 1 snd tt1 (read_choice fuel cur)) /\
  (forall root cur acc ext, sub cur root -> (2 * length cur + 4 <= fuel)%nat ->
     stp root cur 0 snd tt1 (choice_loop fuel cur acc ext)).
Proof.
  induction fuel as [|fuel IH].
  { repeat split; intros; lia. }
  destruct IH as (IHr & IHc & IHl & IHf & IHch & IHcl).
  repeat split.
  - intros root cur text Hs Hf. cbn [read_role_given_text]. repeat stp_step.
  - intros root cur Hs Hf. cbn [read_components]. repeat stp_step.
  - intros root cur acc ext Hs Hf. rewrite components_loop_S. repeat stp_step.
  - intros root cur Hs Hf. rewrite read_field_S. repeat stp_step.
  - intros root cur Hs Hf. cbn [read_choice]. repeat stp_step.
  - intros root cur acc ext Hs Hf. rewrite choice_loop_S.
    destruct cur as [|t r]; cbn [next_if_sep]; [|destruct (eq_separator t C_DOT); [apply stp_tl; cbn [length] in Hf|]];
      repeat stp_step.
Qed.

Lemma stp_read_role_given_text : forall fuel root cur text, sub cur root -> (2 * length cur + 4 <= fuel)%nat ->
  stp root cur 0 snd tt1 (read_role_given_text fuel text cur).
Proof. intros fuel. exact (proj1 (stp_type_grammar fuel)). Qed.
#[local] Hint Resolve stp_read_role_given_text : stp.

Lemma stp_read_role : forall fuel root cur, sub cur root -> (2 * length cur + 4 <= fuel)%nat ->
  stp root cur 1 snd tt1 (read_role fuel cur).
Proof. intros fuel root cur Hs Hf. unfold read_role. repeat stp_step. Qed.

Lemma stp_definition_sep : forall root cur, sub cur root -> stp root cur 1 id tt1 (definition_sep cur).
Proof. intros root cur Hs. unfold definition_sep. repeat stp_step. Qed.
#[local] Hint Resolve stp_read_role stp_definition_sep : stp.

Lemma stp_read_definition : forall fuel root cur, sub cur root -> (2 * length cur + 4 <= fuel)%nat ->
  stp root cur 1 snd tt1 (read_definition fuel cur).
Proof. intros fuel root cur Hs Hf. unfold read_definition. repeat stp_step. Qed.

Lemma stp_read_value_reference : forall fuel root cur, sub cur root -> (2 * length cur + 4 <= fuel)%nat ->
  stp root cur 1 snd tt1 (read_value_reference fuel cur).
Proof. intros fuel root cur Hs Hf. unfold read_value_reference. repeat stp_step. Qed.
#[local] Hint Resolve stp_read_definition stp_read_value_reference : stp.

Lemma stp_skip_until_after : forall kw root cur, sub cur root -> stp root cur 0 id tt1 (skip_until_after kw cur).
Proof.
  intros kw root cur. induction cur as [|t r IH]; intros Hs; cbn [skip_until_after]; [fin|].
  destruct (eq_text_ic t kw); [fin|]. apply stp_tl, IH. eauto with stp.
Qed.
#[local] Hint Resolve stp_skip_until_after : stp.

(* a module is the whole input: nothing is left over *)
Lemma stp_module_loop : forall fuel tfuel root cur name oid imports defs vals,
  sub cur root -> (length cur < fuel)%nat -> (2 * length cur + 4 <= tfuel)%nat ->
  stp root cur 0 (fun _ => []) tt1 (module_loop fuel tfuel cur name oid imports defs vals).
Proof.
  induction fuel as [|fuel IH]; intros tfuel root cur name oid imports defs vals Hs Hf Ht; [lia|].
  cbn [module_loop]. destruct cur as [|t r]; [fin|]. cbn [length] in Hf, Ht. apply stp_tl. repeat stp_step.
Qed.

Theorem stp_parse_module : forall ts fuel, (2 * length ts + 4 <= fuel)%nat ->
  stp ts ts 0 (fun _ => []) tt1 (parse_module fuel ts).
Proof.
  intros ts fuel Hf. unfold parse_module. destruct ts as [|[l c name | l c ch] r]; [fin | | fin].
  pose proof (sub_refl (Text l c name :: r)) as Hs. cbn [length] in Hf.
  apply stp_tl. repeat stp_step. apply stp_module_loop; [assumption | lia | lia].
Qed.

Theorem parse_module_total : forall ts fuel, (2 * length ts + 4 <= fuel)%nat -> safe (parse_module fuel ts).
Proof. intros ts fuel Hf. eapply outcome_safe. apply stp_parse_module. exact Hf. Qed.

Theorem parse_total : forall ts, safe (parse ts).
Proof. intros ts. unfold parse. apply parse_module_total. unfold parse_fuel. lia. Qed.
