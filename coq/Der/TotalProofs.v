(* Totality facts used by C04: the DER readers never panic. *)
From A1 Require Import Der.Prim Per.Proofs.
Local Open Scope N_scope.

Lemma read_exact_np k inp : np (read_exact k inp).
Proof. unfold read_exact. auto with np. Qed.
#[export] Hint Resolve read_exact_np : np.

Lemma read_integer_bits_np n inp : np (read_integer_bits n inp).
Proof. unfold read_integer_bits. auto with np. Qed.
#[export] Hint Resolve read_integer_bits_np : np.

Lemma read_length_np inp : np (read_length inp).
Proof. unfold read_length. auto with np. Qed.

Lemma read_identifier_np inp : np (read_identifier inp).
Proof. unfold read_identifier. auto with np. Qed.

Lemma read_boolean_np inp : np (read_boolean inp).
Proof. unfold read_boolean. auto with np. Qed.

Lemma read_integer_i64_np n inp : np (read_integer_i64 n inp).
Proof. unfold read_integer_i64. auto with np. Qed.
#[export] Hint Resolve read_length_np read_identifier_np read_boolean_np read_integer_i64_np : np.

Lemma r_number_np k tag inp : np (r_number k tag inp).
Proof. unfold r_number. auto 9 with np. Qed.
#[export] Hint Resolve r_number_np : np.

Lemma r_boolean_np tag inp : np (r_boolean tag inp).
Proof. unfold r_boolean. auto 9 with np. Qed.

Lemma r_enumerated_np n tag inp : np (r_enumerated n tag inp).
Proof. unfold r_enumerated. auto with np. Qed.

Lemma der_total inp :
  is_panic (read_length inp) = false /\
  is_panic (read_identifier inp) = false /\
  is_panic (read_boolean inp) = false /\
  (forall n, is_panic (read_integer_i64 n inp) = false) /\
  (forall n, is_panic (read_integer_u64 n inp) = false) /\
  (forall k tag, is_panic (r_number k tag inp) = false) /\
  (forall tag, is_panic (r_boolean tag inp) = false) /\
  (forall n tag, is_panic (r_enumerated n tag inp) = false).
Proof.
  repeat split; intros;
    [apply read_length_np | apply read_identifier_np | apply read_boolean_np | apply read_integer_i64_np
    | apply read_integer_bits_np | apply r_number_np | apply r_boolean_np | apply r_enumerated_np].
Qed.
