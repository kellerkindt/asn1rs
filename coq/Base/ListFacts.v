(* Facts about the lists of the standard library that are about no layer of the model: a prefix or
   suffix of known length, Forall2, existsb and forallb, repeated elements. *)
From Coq Require Import List PeanoNat.
Import ListNotations.

Lemma firstn_app_exact {A} (a b : list A) n : n = length a -> firstn n (a ++ b) = a.
Proof. intros ->. rewrite firstn_app, Nat.sub_diag, firstn_all. cbn [firstn]. apply app_nil_r. Qed.

Lemma skipn_app_exact {A} (a b : list A) n : n = length a -> skipn n (a ++ b) = b.
Proof. intros ->. rewrite skipn_app, Nat.sub_diag, skipn_all. reflexivity. Qed.

Lemma in_firstn {A} (n : nat) (l : list A) x : In x (firstn n l) -> In x l.
Proof. intros H. rewrite <- (firstn_skipn n l). apply in_or_app. left. exact H. Qed.

Lemma Forall2_length {A B} (R : A -> B -> Prop) l l' : Forall2 R l l' -> length l = length l'.
Proof. induction 1; cbn [length]; congruence. Qed.

Lemma existsb_false {A} (p : A -> bool) l : (forall x, In x l -> p x = false) -> existsb p l = false.
Proof.
  intros H. apply Bool.not_true_is_false. intros E. apply existsb_exists in E.
  destruct E as [x [Hin Hx]]. rewrite (H x Hin) in Hx. discriminate.
Qed.

Lemma forallb_false_in {A} (f : A -> bool) l x : In x l -> f x = false -> forallb f l = false.
Proof.
  intros Hin Hf. destruct (forallb f l) eqn:E; [|reflexivity].
  rewrite forallb_forall in E. rewrite (E x Hin) in Hf. discriminate.
Qed.

Lemma dup_split {A} (dec : forall x y : A, {x = y} + {x <> y}) (l : list A) :
  ~ NoDup l -> exists a l1 l2 l3, l = l1 ++ a :: l2 ++ a :: l3.
Proof.
  induction l as [|a l IH]; intros Hn.
  - exfalso. apply Hn. constructor.
  - destruct (in_dec dec a l) as [Hin | Hnin].
    + apply in_split in Hin. destruct Hin as [l2 [l3 ->]]. exists a, [], l2, l3. reflexivity.
    + destruct IH as [b [l1 [l2 [l3 ->]]]].
      { intros Hnd. apply Hn. constructor; assumption. }
      exists b, (a :: l1), l2, l3. reflexivity.
Qed.

Lemma skipn_add {A} b : forall a (l : list A), skipn a (skipn b l) = skipn (b + a) l.
Proof.
  induction b as [|b IH]; intros a l; [reflexivity|].
  destruct l as [|x l]; [rewrite !skipn_nil; reflexivity|]. cbn [skipn plus]. apply IH.
Qed.

Lemma firstn_skipn_app {A} (l1 l2 : list A) k :
  firstn (length l1) (l1 ++ l2) = l1 /\ skipn (length l1 + k) (l1 ++ l2) = skipn k l2.
Proof.
  split; [apply firstn_app_exact; reflexivity|].
  rewrite skipn_app, skipn_all2 by apply Nat.le_add_r. cbn [app]. rewrite Nat.add_comm, Nat.add_sub. reflexivity.
Qed.

Lemma Forall_firstn {A} (P : A -> Prop) n l : Forall P l -> Forall P (firstn n l).
Proof. intros H. rewrite <- (firstn_skipn n l) in H. apply Forall_app in H. tauto. Qed.
Lemma Forall_skipn {A} (P : A -> Prop) n l : Forall P l -> Forall P (skipn n l).
Proof. intros H. rewrite <- (firstn_skipn n l) in H. apply Forall_app in H. tauto. Qed.

Lemma nth_skipn_add {A} n : forall (l : list A) i d, nth i (skipn n l) d = nth (n + i) l d.
Proof.
  induction n as [|n IH]; intros l i d; [reflexivity|].
  destruct l as [|x l]; [destruct i; reflexivity|]. cbn [skipn plus nth]. apply IH.
Qed.

Lemma rev_append_app {A} (a b r : list A) : rev_append (a ++ b) r = rev_append b (rev_append a r).
Proof. revert r. induction a as [|x a IH]; intros r; cbn [app rev_append]; auto. Qed.

Lemma split_at_len {A} (l : list A) k : (k <= length l)%nat -> exists a b, l = a ++ b /\ length a = k.
Proof.
  intros H. exists (firstn k l), (skipn k l). split; [symmetry; apply firstn_skipn|].
  apply firstn_length_le. exact H.
Qed.

Lemma list8 {A} (l : list A) : length l = 8%nat ->
  exists a b c d e f g h, l = [a; b; c; d; e; f; g; h].
Proof.
  destruct l as [|a [|b [|c [|d [|e [|f [|g [|h [|i l]]]]]]]]]; cbn [length]; intros H; try discriminate H.
  repeat eexists.
Qed.

Lemma long_repeat {A} (dec : forall x y : A, {x = y} + {x <> y}) (l dom : list A) :
  incl l dom -> length dom < length l -> exists a l1 l2 l3, l = l1 ++ a :: l2 ++ a :: l3.
Proof.
  intros Hi Hl. apply (dup_split dec). intros Hnd.
  exact (Nat.lt_irrefl _ (Nat.le_lt_trans _ _ _ (NoDup_incl_length Hnd Hi) Hl)).
Qed.

(* Walks of a graph given by its edge relation.  A walk longer than a finite domain that holds its nodes comes to some
   node twice (long_repeat), and the part between the two visits is a cycle; a node that leads to a cycle has walks of
   every length, since one step keeps "leads to a cycle".  The transitive closure is a parameter, known by its two
   constructors and its one-step inversion: closures defined elsewhere plug in as they are. *)
Section Chains.
  Variables (X : Type) (step : X -> X -> Prop).

  (* consecutive elements are edges *)
  Inductive chain : list X -> Prop :=
  | chain_one : forall a, chain [a]
  | chain_cons : forall a b l, step a b -> chain (b :: l) -> chain (a :: b :: l).

  Lemma chain_tail : forall l1 a l2, chain (l1 ++ a :: l2) -> chain (a :: l2).
  Proof.
    induction l1 as [|x l1 IH]; intros a l2 H; [exact H|]. apply IH. cbn [app] in H.
    inversion H as [|x0 b l Hs Hc E]; [destruct l1; discriminate | rewrite <- E in *; exact Hc].
  Qed.

  (* the transitive closure, in whichever way it is defined *)
  Variable path : X -> X -> Prop.
  Hypothesis path_one : forall a b, step a b -> path a b.
  Hypothesis path_cons : forall a b c, step a b -> path b c -> path a c.
  Hypothesis path_inv : forall a c, path a c -> exists b, step a b /\ (b = c \/ path b c).

  Lemma chain_path : forall l a b l', chain (a :: l ++ b :: l') -> path a b.
  Proof.
    induction l as [|x l IH]; intros a b l' H; cbn [app] in H; inversion H as [|a0 b0 l0 Hs Hc]; subst.
    - apply path_one. exact Hs.
    - eapply path_cons; [exact Hs | exact (IH _ _ _ Hc)].
  Qed.

  (* a walk that comes to the same node twice *)
  Lemma chain_repeat : forall l1 a l2 l3, chain (l1 ++ a :: l2 ++ a :: l3) -> path a a.
  Proof. intros l1 a l2 l3 H. apply chain_tail in H. exact (chain_path _ _ _ _ H). Qed.

  (* m is on a cycle or leads to one *)
  Definition to_cycle (m : X) : Prop := exists b, (b = m \/ path m b) /\ path b b.

  Lemma to_cycle_step : forall m, to_cycle m -> exists m', step m m' /\ to_cycle m'.
  Proof.
    intros m [b [Hm Hc]].
    assert (Hp : path m b) by (destruct Hm as [-> | Hp]; assumption).
    destruct (path_inv _ _ Hp) as [m' [Hs Hr]]. exists m'. split; [exact Hs|]. exists b. split; [|exact Hc].
    destruct Hr as [-> | Hr]; [left; reflexivity | right; exact Hr].
  Qed.

  (* from such a node there are walks of every length *)
  Lemma to_cycle_chain : forall k m, to_cycle m -> exists l, length l = k /\ chain (m :: l).
  Proof.
    induction k as [|k IH]; intros m H; [exists []; split; [reflexivity | constructor]|].
    destruct (to_cycle_step m H) as [m' [Hs H']]. destruct (IH m' H') as [l [Hl Hc]].
    exists (m' :: l). split; [cbn [length]; rewrite Hl; reflexivity | constructor; assumption].
  Qed.
End Chains.
