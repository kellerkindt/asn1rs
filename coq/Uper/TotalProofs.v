(* C04, UPER part: for every well-formed type outside the finding classes [Known_C04] and every source
   (byte string, declared bit length) [read_ty] answers Ok or Err, never one of the model's Panic outcomes,
   and every state reached keeps the cursor inside the declared length, so that the remaining-bit count
   cannot underflow afterwards. *)
From A1 Require Import Uper.Proofs.
From A1 Require Import Base.ListFacts Bits.Proofs.
Local Open Scope N_scope.

(* the unread bits are the suffix of the slice at the cursor; the cursor never passes the
   declared bit length; the declared length is a bit count of a Rust slice (< 2^63).
   [src_inv s] implies [src_ok s] of Uper/Proofs.v (which bounds the length by 2^64 and not the cursor);
   [same_src s s'] is [same_buf s s'] of Uper/Proofs.v with its three equations turned round *)
Definition src_inv (s : src) : Prop :=
  s_rest s = skipn (N.to_nat (s_pos s)) (s_all s) /\ s_pos s <= s_len s /\ s_len s < two63.
Definition same_src (s s' : src) : Prop :=
  s_all s' = s_all s /\ s_total s' = s_total s /\ s_len s' = s_len s.

Lemma same_src_refl s : same_src s s.
Proof. repeat split. Qed.
Lemma same_src_trans a b c : same_src a b -> same_src b c -> same_src a c.
Proof. unfold same_src. intuition congruence. Qed.

Lemma src_of_bits_inv all len : len < two63 -> src_inv (src_of_bits all len).
Proof. intros H. unfold src_inv, src_of_bits. cbn. repeat split; [lia|exact H]. Qed.

(* F04-1: the length determinant of the size constraint is read in a 63/17-bit constrained form and
   the count is allocated as it comes (a lower bound without an upper bound, or an upper bound >= 64K) *)
(* convertible with [Known_C10_length_semi_or_large_bound] of Per/Proofs.v, the name under which the lemmas
   [T_*] below take it and [read_total] hands it to them *)
Definition Known_C04_size (lo hi : option N) : Prop :=
  match hi with Some u => 65536 <= u | None => lo <> None end.
(* F04-3: a BIT STRING whose length can arrive in the unconstrained form: the fragment loop of
   read_bitstring underflows for 16384 bits or more *)
Definition Known_C04_bits_unconstrained (lo hi : option N) (ext : bool) : Prop :=
  (lo = None /\ hi = None) \/ ext = true.

Fixpoint Known_C04 (t : ty) : Prop :=
  match t with
  | TBool | TNull | TInt _ _ _ _ | TEnum _ _ _ => False
  | TStr Utf8 _ _ _ => False                      (* the size constraint is not used by the UTF8String reader *)
  | TStr _ lo hi _ => Known_C04_size lo hi
  | TOctets lo hi _ => Known_C04_size lo hi
  | TBitStr lo hi ext => Known_C04_size lo hi \/ Known_C04_bits_unconstrained lo hi ext
  | TListOf e lo hi _ => Known_C04_size lo hi \/ Known_C04 e
  | TSeq fs _ _ _ =>
      (fix any (fs : list (fkind * ty)) : Prop :=
         match fs with [] => False | (_, ft) :: r => Known_C04 ft \/ any r end) fs
  | TChoice alts _ _ =>
      (fix any (alts : list ty) : Prop :=
         match alts with [] => False | a :: r => Known_C04 a \/ any r end) alts
  end.

(* a successful L1 read leaves a source within the invariant, over the same buffer *)
Definition keeps {A} (f : src -> res (A * src)) : Prop :=
  forall s a s', src_inv s -> f s = Ok (a, s') -> src_inv s' /\ same_src s s'.

Lemma keeps_ret {A} (a : A) : keeps (fun s => Ok (a, s)).
Proof. intros s a' s' H E. injection E as _ <-. split; [exact H|apply same_src_refl]. Qed.
Lemma keeps_err {A} e : keeps (fun s => @Err (A * src) e).
Proof. intros s a' s' H E. discriminate E. Qed.
Lemma keeps_bind {A B} (f : src -> res (A * src)) (g : A -> src -> res (B * src)) :
  keeps f -> (forall a, keeps (g a)) -> keeps (fun s => let! (a, s1) := f s in g a s1).
Proof.
  intros Hf Hg s b s' H E. destruct (f s) as [[a s1]| |] eqn:E1; cbn [bind] in E; try discriminate E.
  destruct (Hf _ _ _ H E1) as [H1 S1]. destruct (Hg a _ _ _ H1 E) as [H2 S2].
  split; [exact H2|eapply same_src_trans; eassumption].
Qed.
Lemma keeps_bind_pure {A B} (c : res A) (g : A -> src -> res (B * src)) :
  (forall a, keeps (g a)) -> keeps (fun s => let! a := c in g a s).
Proof. intros Hg s b s' H E. destruct c as [a| |]; cbn [bind] in E; try discriminate E. eapply Hg; eassumption. Qed.
Lemma keeps_if {A} (c : bool) (f g : src -> res (A * src)) :
  keeps f -> keeps g -> keeps (fun s => if c then f s else g s).
Proof. destruct c; auto. Qed.
Lemma keeps_ext {A} (f g : src -> res (A * src)) : (forall s, f s = g s) -> keeps g -> keeps f.
Proof. intros E H s a s' Hs Ef. rewrite E in Ef. eapply H; eassumption. Qed.

Definition pos_le_len {A} (f : src -> res (A * src)) : Prop :=
  forall s a s', src_inv s -> f s = Ok (a, s') ->
    s_pos s' <= s_len s' /\ s_len s' = s_len s /\ src_inv s'.
Lemma keeps_pos_le_len {A} (f : src -> res (A * src)) : keeps f -> pos_le_len f.
Proof.
  intros H s a s' Hi E. destruct (H s a s' Hi E) as [H1 (_ & _ & L)]. pose proof H1 as (_ & P & _).
  split; [exact P|]. split; [exact L|exact H1].
Qed.

(* the cursor moves forward within the declared length *)
Lemma adv_keeps s n s' : adv s n s' -> src_inv s -> src_inv s' /\ same_src s s'.
Proof.
  unfold adv, rem. intros [Hn ->] (R & P & L). split; [|repeat split].
  unfold src_inv, src_adv. cbn [s_rest s_pos s_all s_len]. split; [|split; [lia|exact L]].
  rewrite R, skipn_add. f_equal. lia.
Qed.

Lemma keeps_r_bit : keeps r_bit.
Proof. intros s b s' H E. exact (adv_keeps s 1 s' (r_bit_adv _ _ _ E) H). Qed.

Lemma keeps_r_bits_into d o n : keeps (fun s => r_bits_into s d o n).
Proof. intros s b s' H E. exact (adv_keeps s n s' (proj1 (r_bits_into_adv _ _ _ _ _ _ E)) H). Qed.

Lemma src_set_pos_inv s p : src_inv s -> src_inv (src_set_pos s p) /\ same_src s (src_set_pos s p).
Proof.
  intros (R & P & L). split; [|repeat split]. unfold src_inv, src_set_pos. cbn [s_rest s_pos s_all s_len].
  split; [reflexivity|split; [lia|exact L]].
Qed.

Lemma keeps_bind_bits {B} d o n (g : bits -> src -> res (B * src)) :
  (forall a, keeps (g a)) -> keeps (fun s => let! (a, s1) := r_bits_into s d o n in g a s1).
Proof. apply (keeps_bind (fun s => r_bits_into s d o n)), keeps_r_bits_into. Qed.

(* [keeps] is closed under the combinators the L1 readers are written with; the readers met on the
   way are taken from the hint database *)
Create HintDb keeps discriminated.
#[export] Hint Resolve keeps_r_bit keeps_ret keeps_err : keeps.
Ltac keeps_tac :=
  repeat first
    [ solve [auto with keeps]
    | apply keeps_if
    | apply keeps_bind_bits; intros ?
    | apply keeps_bind_pure; intros ?
    | apply keeps_bind; [solve [auto with keeps]|intros ?] ].

Lemma keeps_len_unc : keeps r_length_determinant_unc.
Proof. unfold r_length_determinant_unc. keeps_tac. Qed.
#[export] Hint Resolve keeps_len_unc : keeps.

Lemma keeps_nnbi m lb ub : keeps (r_nnbi m lb ub).
Proof. destruct lb, ub; cbn [r_nnbi]; cbv zeta; keeps_tac. Qed.
#[export] Hint Resolve keeps_nnbi : keeps.

Lemma keeps_length m lb ub : keeps (r_length_determinant m lb ub).
Proof. unfold r_length_determinant. keeps_tac. Qed.
#[export] Hint Resolve keeps_length : keeps.

Lemma keeps_twos k : keeps (r_2s_compliment k).
Proof. unfold r_2s_compliment. keeps_tac. Qed.

Lemma keeps_constrained m lb ub : keeps (r_constrained m lb ub).
Proof. unfold r_constrained. keeps_tac. Qed.

Lemma keeps_normally_small m : keeps (r_normally_small m).
Proof. unfold r_normally_small. keeps_tac. Qed.
#[export] Hint Resolve keeps_twos keeps_normally_small : keeps.

Lemma keeps_unconstrained m : keeps (r_unconstrained m).
Proof. unfold r_unconstrained. keeps_tac. Qed.

Lemma keeps_index m std ext : keeps (r_enumeration_index m std ext).
Proof. unfold r_enumeration_index. keeps_tac. Qed.

Lemma keeps_octet_loop m : forall fuel acc, keeps (fun s => r_octet_frag_loop fuel m s acc).
Proof.
  induction fuel as [|f IH]; intros acc; cbn [r_octet_frag_loop]; [intros s a s' _ E; discriminate E|].
  keeps_tac.
Qed.

Lemma keeps_octet_rbody m n frag : keeps (octet_rbody m n frag).
Proof. unfold octet_rbody. keeps_tac. intros s. apply keeps_octet_loop. Qed.
#[export] Hint Resolve keeps_octet_rbody : keeps.

Lemma keeps_octetstring m lb ub ext : keeps (r_octetstring m lb ub ext).
Proof. apply (keeps_ext _ _ (r_octetstring_eq m lb ub ext)). unfold r_size, r_size_root. cbv zeta. keeps_tac. Qed.

(* BIT STRING: only the form without a fragment loop is total (F04-3) *)
Lemma keeps_bit_rbody m n : keeps (bit_rbody m n false).
Proof. unfold bit_rbody. cbv zeta. cbn [andb]. keeps_tac. Qed.
#[export] Hint Resolve keeps_bit_rbody : keeps.

Lemma keeps_bitstring m lb u : keeps (r_bitstring m lb (Some u) false).
Proof.
  apply (keeps_ext _ _ (r_bitstring_eq m lb (Some u) false)). unfold r_size, r_size_root. cbv zeta.
  replace (negb (is_some lb) && negb (is_some (Some u))) with false by (destruct lb; reflexivity).
  keeps_tac.
Qed.

#[export] Hint Resolve keeps_r_bits_into keeps_constrained keeps_unconstrained keeps_index keeps_octetstring
  keeps_bitstring : keeps.

(** * L2: outcomes that are Ok in a good state, or Err -- never Panic *)
(* [r] reads the buffer of [s], within the invariant *)
Definition over (s : src) (r : rst) : Prop := src_inv (r_src r) /\ same_src s (r_src r).

(* [post s Q x]: [x] is no Panic and, if it is [Ok (a, r')], then [r'] is over [s] and [Q a r'] holds;
   [anything] asks nothing more of the result, [scope_is sc] that the scope is [sc] *)
Definition post {A} (s : src) (Q : A -> rst -> Prop) : res (A * rst) -> Prop :=
  okp (fun '(a, r') => over s r' /\ Q a r').
Definition scope_is {A} (sc : option scope) (_ : A) (r : rst) : Prop := r_scope r = sc.
Definition anything {A} (_ : A) (_ : rst) : Prop := True.

(* the source moves on within the buffer: the premise is what [keeps], [src_set_pos_inv] and [adv_keeps] conclude
   and what [entry_post] says of the state after an entry call *)
Lemma over_src {s r} s' : over s r -> src_inv s' /\ same_src (r_src r) s' -> over s (r_set_src r s').
Proof. intros [_ S] [H' S']. exact (conj H' (same_src_trans _ _ _ S S')). Qed.

Lemma post_ret {A s} {Q : A -> rst -> Prop} {a r'} : over s r' -> Q a r' -> post s Q (Ok (a, r')).
Proof. exact (@conj _ _). Qed.

Lemma post_bind {A B s} {Q : A -> rst -> Prop} {Q' : B -> rst -> Prop} {x} {k : A * rst -> res (B * rst)} :
  post s Q x -> (forall a r', over s r' -> Q a r' -> post s Q' (k (a, r'))) -> post s Q' (bind x k).
Proof. intros H Hk. apply (okp_bind H). intros [a r'] [G HQ]. exact (Hk a r' G HQ). Qed.

Lemma post_mono {A} s (Q Q' : A -> rst -> Prop) x : (forall a r', Q a r' -> Q' a r') -> post s Q x -> post s Q' x.
Proof. intros HQ H. apply (okp_imp H). intros [a r'] [G H1]. exact (conj G (HQ a r' H1)). Qed.

Lemma post_get {A} (f : src -> res (A * src)) (P : src -> A -> src -> Prop) r s :
  keeps f -> (forall s1, np (f s1)) -> (forall s1 a s2, f s1 = Ok (a, s2) -> P s1 a s2) -> over s r ->
  post s (fun a r' => P (r_src r) a (r_src r')) (r_get r f).
Proof.
  intros Hk Hn HP G. unfold r_get. pose proof (Hn (r_src r)) as N1.
  destruct (f (r_src r)) as [[a s1]| |] eqn:E; [|exact I|discriminate N1].
  exact (conj (over_src s1 G (Hk _ _ _ (proj1 G) E)) (HP _ _ _ E)).
Qed.

(* [r_get] leaves the scope alone *)
Lemma get_scope {A} (f : src -> res (A * src)) (Q : A -> rst -> Prop) r s :
  post s Q (r_get r f) -> post s (fun a r' => Q a r' /\ r_scope r' = r_scope r) (r_get r f).
Proof. unfold r_get. destruct (f (r_src r)) as [[a s1]| |]; [|exact (fun H => H)..]. intros [G H]. exact (conj G (conj H eq_refl)). Qed.

Lemma post_anything {A} s (Q : A -> rst -> Prop) x : post s Q x -> post s anything x.
Proof. apply post_mono. exact (fun _ _ _ => I). Qed.

Lemma post_get_anything {A} (f : src -> res (A * src)) r s :
  keeps f -> (forall s1, np (f s1)) -> over s r -> post s anything (r_get r f).
Proof. intros Hk Hn. exact (post_get f (fun _ _ _ => True) r s Hk Hn (fun _ _ _ _ => I)). Qed.

Lemma post_bit r s : over s r -> post s anything (r_get r r_bit).
Proof. exact (post_get_anything r_bit r s keeps_r_bit r_bit_np). Qed.

Lemma r_len_unc_tot m s1 : np (r_length_determinant m None None s1).
Proof. rewrite r_len_unc_eq. apply r_len_unc_np. Qed.

Lemma size_facts lo hi : ~ Known_C10_length_semi_or_large_bound lo hi -> size_bounds_ok lo hi ->
  opt_or lo 0 < two64 /\ opt_or lo 0 <= opt_or hi I64_MAX.
Proof.
  unfold Known_C10_length_semi_or_large_bound, size_bounds_ok, I64_MAX, two64, two63.
  destruct lo as [l|], hi as [u|]; cbn [opt_or]; intros Hk Hb; try lia.
  exfalso. apply Hk. discriminate.
Qed.

(* a count from the input is small outside F04-1, in whatever form it comes (an open-type length is the form
   without bounds) *)
Lemma post_len m lo hi r s : ~ Known_C10_length_semi_or_large_bound lo hi -> size_bounds_ok lo hi -> over s r ->
  post s (fun len _ => len <= 131072) (r_get r (r_length_determinant m lo hi)).
Proof.
  intros Hk Hb. destruct (size_facts lo hi Hk Hb) as [F1 F2].
  apply (post_get _ (fun _ len _ => len <= 131072)); [apply keeps_length|intros s1; apply (r_length_np m lo hi s1 F1 Hk)|].
  intros s1 len s2 E. exact (r_length_bound m lo hi _ _ _ Hk F2 E).
Qed.

(* read_whole_sub_slice with an open-type length: the end position cannot overflow *)
Lemma sub_slice_good {A} m r len (f : rst -> res (A * rst)) s :
  len <= 131072 -> over s r -> post s anything (f r) -> post s anything (read_whole_sub_slice m r len f).
Proof.
  intros Hl [(_ & P & L) _] Hf. unfold read_whole_sub_slice, BYTE_LEN.
  rewrite umul_ok by (unfold two64; lia). cbn [bind].
  rewrite uadd_ok by (unfold two64, two63 in *; lia). cbn [bind].
  apply (post_bind Hf). intros a r' G _. exact (post_ret (over_src _ G (src_set_pos_inv _ _ (proj1 G))) I).
Qed.

Lemma framed_good {A} m (o : bool) (f : rst -> res (A * rst)) r s : over s r ->
  (forall r', r_scope r' = r_scope r -> over s r' -> post s anything (f r')) -> post s anything (framed m o f r).
Proof.
  intros G Hf. destruct o; [|exact (Hf r eq_refl G)]. unfold framed, opened.
  apply (post_bind (get_scope _ _ r s (post_len m None None r s (fun H => H eq_refl) I G))). intros len r2 G2 [Hl Hsc].
  exact (sub_slice_good m r2 len f s Hl G2 (Hf r2 Hsc G2)).
Qed.

Lemma stashed_good {A} r (f : rst -> res (A * rst)) s Q :
  post s Q (f (r_set_scope r None)) -> post s (scope_is (r_scope r)) (rscope_stashed r f).
Proof.
  intros Hf. unfold rscope_stashed. apply (post_bind Hf). intros a r' G _. apply post_ret; [exact G|reflexivity].
Qed.

(** the per-type statement: total at top level *)
Definition Tnone (m : mode) (t : ty) : Prop :=
  forall s r, r_scope r = None -> over s r -> post s anything (read_ty m t r).

(* hence total in any scope ([read_ty_factor]: the scope is stashed around the read, which is in place or inside
   an open type), from the state [r1] left by its entry call, whatever that call answered: SEQUENCE drops the
   answer, the others give up on an error *)
Lemma Tnone_in_scope m t r x r1 s : Tnone m t -> read_bit_field_entry_st m r false = Ok (x, r1) -> over s r1 ->
  post s (scope_is (r_scope r1)) (read_ty m t r).
Proof.
  intros HT He G.
  assert (W : forall o, post s (scope_is (r_scope r1)) (rscope_stashed r1 (framed m o (read_ty m t))))
    by (intros o; apply (stashed_good r1 _ _ anything), framed_good; [exact G|exact (HT s)]).
  destruct x as [ob|e]; [rewrite (read_ty_factor m t r ob r1 He); apply W|].
  destruct t as [| | |c| | | |fs so fc ea| |]; try destruct c;
    try (cbn [read_ty]; unfold read_bit_field_entry; rewrite He; exact I).
  rewrite (read_ty_factor_seq m fs so fc ea r _ r1 He). apply W.
Qed.

Lemma Tnone_scope m t r s : Tnone m t -> r_scope r = None -> over s r -> post s (scope_is None) (read_ty m t r).
Proof.
  intros HT Hsc G. rewrite <- Hsc. exact (Tnone_in_scope m t r _ r s HT (rentry_none m r Hsc) G).
Qed.

(* at top level the entry call and rwith_buffer do nothing *)
Lemma buffered_none m t (f : rst -> res (val * rst)) :
  (forall r, read_ty m t r = let! (_, r) := read_bit_field_entry m r false in rwith_buffer m r f) ->
  (forall s r, over s r -> post s anything (f r)) -> Tnone m t.
Proof.
  intros E Hf s r Hsc G. rewrite E, (rentry_none' m r Hsc). cbn [bind]. rewrite (rwith_buffer_none m r f Hsc).
  exact (Hf s r G).
Qed.

(* [e]: the walk runs in the extension form (ExtSeq / AllBitField / ExtSeqEmpty) or in the root form
   (OptBitField); [n]: components still to come; [k]: OPTIONAL/DEFAULT components still to come *)
Definition winv (e : bool) (sc : scope) (n k : N) : Prop :=
  match sc with
  | OptBitField a b => e = false /\ a <= b /\ b <= a + k
  | AllBitField _ _ => e = true
  | ExtSeqEmpty => e = true
  | ExtSeq _ opt calls _ => e = true /\ opt <> None /\ calls <= n
  end.

Lemma r_bit_at_np s p : np (r_bit_at s p).
Proof. unfold r_bit_at. apply np_bind'; [apply r_bit_np|intros [b s1]; reflexivity]. Qed.

Lemma bit_at_total r p : exists x, bit_at r p = Ok x.
Proof.
  unfold bit_at. pose proof (r_bit_at_np (r_src r) p) as N1.
  destruct (r_bit_at (r_src r) p); [eexists; reflexivity|eexists; reflexivity|discriminate N1].
Qed.

Lemma pos_failed_len_le s : src_inv s -> pos_after_failed_len_unc s <= s_len s.
Proof.
  intros H. unfold pos_after_failed_len_unc. pose proof H as (_ & P & _).
  destruct (r_bit s) as [[b1 s1]| |] eqn:E1; try exact P.
  destruct (keeps_pos_le_len _ keeps_r_bit _ _ _ H E1) as (P1 & L1 & H1).
  destruct (negb b1); [lia|].
  destruct (r_bit s1) as [[b2 s2]| |] eqn:E2; try lia.
  destruct (keeps_pos_le_len _ keeps_r_bit _ _ _ H1 E2) as (P2 & L2 & _). lia.
Qed.

Lemma pos_failed_small_le m s : src_inv s -> pos_after_failed_normally_small m s <= s_len s.
Proof.
  intros H. unfold pos_after_failed_normally_small. pose proof H as (_ & P & _).
  destruct (r_bit s) as [[big s1]| |] eqn:E1; try exact P.
  destruct (keeps_pos_le_len _ keeps_r_bit _ _ _ H E1) as (P1 & L1 & H1).
  destruct big; [|lia].
  destruct (r_length_determinant_unc s1) as [[l s2]| |] eqn:E2.
  - destruct (keeps_pos_le_len _ keeps_len_unc _ _ _ H1 E2) as (P2 & L2 & _). lia.
  - pose proof (pos_failed_len_le s1 H1). lia.
  - pose proof (pos_failed_len_le s1 H1). lia.
Qed.

(* outcome of an entry call: a state, never a panic; an OPTIONAL entry never answers None *)
Definition entry_post (e : bool) (n k : N) (o : bool) (s : src) (y : res (fres * rst)) : Prop :=
  match y with
  | Ok (x, r1) => src_inv (r_src r1) /\ same_src s (r_src r1) /\
                  (exists sc1, r_scope r1 = Some sc1 /\ winv e sc1 n k) /\ (o = true -> x <> inl None)
  | _ => False
  end.

Lemma fres_bit_not_none (x : bool + N) :
  match x with inl bit => f_ok (Some bit) | inr e => f_err e end <> f_ok None.
Proof. destruct x; discriminate. Qed.

Lemma entry_post_intro {e n k o s x r1} sc1 :
  over s r1 -> r_scope r1 = Some sc1 -> winv e sc1 n k -> (o = true -> x <> inl None) ->
  entry_post e n k o s (Ok (x, r1)).
Proof. intros [H1 H2] H3 H4 H5. exact (conj H1 (conj H2 (conj (ex_intro _ sc1 (conj H3 H4)) H5))). Qed.

Lemma simple_all_post r a b o s n k :
  over s r -> r_scope r = Some (AllBitField a b) ->
  entry_post true n k o s (read_from_field_simple r (AllBitField a b) o).
Proof.
  intros G Hsc. cbn [read_from_field_simple]. destruct (a <? b).
  - destruct (bit_at_total r a) as [x ->]. cbn [bind].
    apply (entry_post_intro (AllBitField (a + 1) b)); [exact G|reflexivity|reflexivity|].
    intros _. apply fres_bit_not_none.
  - apply (entry_post_intro _ G Hsc); [reflexivity|discriminate].
Qed.

Lemma entry_good m r sc (o e : bool) n k :
  src_inv (r_src r) -> r_scope r = Some sc -> winv e sc (n + 1) (k + (if o then 1 else 0)) ->
  entry_post e n k o (r_src r) (read_bit_field_entry_st m r o).
Proof.
  intros Hi Hsc Hw. unfold read_bit_field_entry_st. rewrite Hsc.
  pose proof (conj Hi (same_src_refl _) : over (r_src r) r) as G.
  destruct sc as [a b|a b|bp opt calls nx|]; cbn [winv] in Hw.
  - (* OptBitField *)
    destruct Hw as (-> & L1 & L2). cbn [read_from_field read_from_field_simple].
    destruct (N.leb_spec b a) as [L|L].
    + apply (entry_post_intro _ G Hsc); [cbn [winv]; repeat split; lia|discriminate].
    + destruct o.
      * destruct (bit_at_total r a) as [x ->]. cbn [bind].
        apply (entry_post_intro (OptBitField (a + 1) b)); [exact G|reflexivity|cbn [winv]; repeat split; lia|].
        intros _. apply fres_bit_not_none.
      * apply (entry_post_intro _ G Hsc); [cbn [winv]; repeat split; lia|discriminate].
  - (* AllBitField *)
    subst e. cbn [read_from_field]. exact (simple_all_post r a b o _ n k G Hsc).
  - (* ExtSeq *)
    destruct Hw as (-> & Ho & Lc). cbn [read_from_field]. destruct (N.eqb_spec calls 0) as [->|Hc].
    + destruct (bit_at_total r bp) as [x ->]. cbn [bind]. destruct x as [[|]|er].
      * pose proof (r_normally_small_np m (r_src r)) as N1.
        destruct (r_normally_small m (r_src r)) as [[nn s1]| |] eqn:E; [| |discriminate N1].
        -- pose proof (over_src s1 G (keeps_normally_small m _ _ _ Hi E)) as G1. cbv zeta.
           apply simple_all_post; [|reflexivity]. exact (over_src _ G1 (src_set_pos_inv _ _ (proj1 G1))).
        -- pose proof (pos_failed_small_le m _ Hi) as Hp.
           assert (Ha : adv (r_src r) (pos_after_failed_normally_small m (r_src r) - s_pos (r_src r)) _)
             by (split; [unfold rem; lia|reflexivity]).
           apply (entry_post_intro (ExtSeq bp opt 0 nx));
             [exact (over_src _ G (adv_keeps _ _ _ Ha Hi))|exact Hsc|cbn [winv]; repeat split; [exact Ho|lia]|discriminate].
      * cbn [read_from_field_simple].
        apply (entry_post_intro ExtSeqEmpty); [exact G|reflexivity|reflexivity|discriminate].
      * apply (entry_post_intro _ G Hsc); [cbn [winv]; repeat split; [exact Ho|lia]|discriminate].
    + destruct opt as [[a b]|]; [|exfalso; apply Ho; reflexivity]. destruct o.
      * destruct (bit_at_total r a) as [x ->]. cbn [bind].
        apply (entry_post_intro (ExtSeq bp (Some (a + 1, b)) (calls - 1) nx));
          [exact G|reflexivity|cbn [winv]; repeat split; [discriminate|lia]|].
        intros _. apply fres_bit_not_none.
      * apply (entry_post_intro (ExtSeq bp (Some (a, b)) (calls - 1) nx));
          [exact G|reflexivity|cbn [winv]; repeat split; [discriminate|lia]|discriminate].
  - (* ExtSeqEmpty *)
    subst e. cbn [read_from_field read_from_field_simple].
    apply (entry_post_intro _ G Hsc); [reflexivity|discriminate].
Qed.

Definition in_walk {A} (e : bool) (n k : N) (_ : A) (r : rst) : Prop :=
  exists sc, r_scope r = Some sc /\ winv e sc n k.

(* read_opt / read_default *)
Definition ropt (m : mode) (ft : ty) (dflt : option val) (r : rst) : res (option val * rst) :=
  let! (ob, r) := read_bit_field_entry m r true in
  match ob with
  | None => Panic P_UNWRAP
  | Some true =>
      let! (x, r) := rwith_buffer m r (fun r => rscope_stashed r (read_ty m ft)) in Ok (Some x, r)
  | Some false => Ok (dflt, r)
  end.

(* as [Tnone_in_scope]: from the state left by the entry call, which [rfield_good] makes for a component of any kind *)
Lemma ropt_good m ft dflt r x r1 e n k s : Tnone m ft ->
  read_bit_field_entry_st m r true = Ok (x, r1) -> over s r1 -> in_walk e n k x r1 -> x <> inl None ->
  post s (in_walk e n k) (ropt m ft dflt r).
Proof.
  intros HT Ee G1 W1 Hx. unfold ropt, read_bit_field_entry. rewrite Ee. cbn [bind].
  destruct x as [[[|]|]|er]; cbn [bind].
  - rewrite (stashed_read m ft r1).
    eapply post_bind; [apply (stashed_good r1 _ _ anything), framed_good; [exact G1|exact (HT _)]|].
    intros y r2 G2 Hs2. apply (post_ret G2). unfold in_walk. rewrite Hs2. exact W1.
  - exact (post_ret G1 W1).
  - contradiction Hx; reflexivity.
  - exact I.
Qed.

Lemma rfield_good m f r sc e n k s : Tnone m (snd f) -> over s r -> r_scope r = Some sc ->
  winv e sc (n + 1) (k + (if is_optk (fst f) then 1 else 0)) ->
  post s (in_walk e n k) (rfield m f r).
Proof.
  intros HT G Hsc Hw. pose proof (entry_good m r sc (is_optk (fst f)) e n k (proj1 G) Hsc Hw) as He.
  destruct (read_bit_field_entry_st m r (is_optk (fst f))) as [[x r1]| |] eqn:Ee; cbn [entry_post] in He; try contradiction.
  destruct He as (H1 & S1 & W1 & Hx). pose proof (over_src _ G (conj H1 S1) : over s r1) as G1.
  destruct f as [[| |d] ft]; cbn [fst snd is_optk] in *.
  - cbn [rfield]. eapply post_bind; [apply (Tnone_in_scope m ft r x r1 s HT Ee G1)|].
    intros v r2 G2 Hs2. apply (post_ret G2). unfold in_walk. rewrite Hs2. exact W1.
  - exact (ropt_good m ft None r x r1 e n k s HT Ee G1 W1 (Hx eq_refl)).
  - exact (ropt_good m ft (Some d) r x r1 e n k s HT Ee G1 W1 (Hx eq_refl)).
Qed.

Lemma nopt_cons f fs :
  N.of_nat (nopt (f :: fs)) = N.of_nat (nopt fs) + (if is_optk (fst f) then 1 else 0).
Proof. unfold nopt. cbn [filter]. destruct (is_optk (fst f)); cbn [length]; lia. Qed.

Lemma rfields_good m e s : forall fs, Forall (fun f => Tnone m (snd f)) fs -> forall r acc sc,
  over s r -> r_scope r = Some sc -> winv e sc (N.of_nat (length fs)) (N.of_nat (nopt fs)) ->
  post s (in_walk e 0 0) (rfields m fs r acc).
Proof.
  induction fs as [|f fs IH]; intros F r acc sc G Hsc Hw.
  - exact (post_ret G (ex_intro _ sc (conj Hsc Hw))).
  - rewrite nopt_cons in Hw.
    replace (N.of_nat (length (f :: fs))) with (N.of_nat (length fs) + 1) in Hw by (cbn [length]; lia).
    rewrite rfields_cons. eapply post_bind; [apply (rfield_good m f r sc e _ _ s (Forall_inv F) G Hsc Hw)|].
    intros ov r1 G1 (sc1 & Hsc1 & Hw1).
    apply (IH (Forall_inv_tail F) r1 (ov :: acc) sc1 G1 Hsc1 Hw1).
Qed.

Lemma skip_loop_good {A} (v : A) m sc : forall fuel r p stop s, over s r -> r_scope r = sc ->
  post s (scope_is sc) (let! r' := skip_unknown_loop fuel m r p stop in Ok (v, r')).
Proof.
  induction fuel as [|f IH]; intros r p stop s G Hsc; cbn [skip_unknown_loop]; [exact (post_ret G Hsc)|].
  destruct (stop <=? p); [exact (post_ret G Hsc)|].
  pose proof (r_bit_at_np (r_src r) p) as N1.
  destruct (r_bit_at (r_src r) p) as [[|]| |]; cbn [bind]; [|apply IH; assumption|exact I|discriminate N1].
  rewrite bind_assoc. apply (post_bind (get_scope _ _ r s (post_len m None None r s (fun H => H eq_refl) I G))). intros len r1 G1 [Hl Hsc1].
  unfold BYTE_LEN. rewrite umul_ok by (unfold two64; lia). cbn [bind].
  pose proof G1 as [(_ & P1 & L1) _]. rewrite uadd_ok by (unfold two64, two63 in *; lia). cbn [bind]. cbv zeta.
  destruct (_ =? _); [|exact I].
  apply IH; [exact (over_src _ G1 (src_set_pos_inv _ _ (proj1 G1)))|exact (eq_trans Hsc1 Hsc)].
Qed.

Definition exhausted {A} (_ : A) (r : rst) : Prop :=
  exists sc, r_scope r = Some sc /\ scope_exhausted sc = true.

Lemma skip_good {A} (v : A) m r sc s : over s r -> r_scope r = Some sc -> winv true sc 0 0 ->
  post s exhausted (let! r' := skip_unknown_extension_additions m r in Ok (v, r')).
Proof.
  intros G Hsc Hw. unfold skip_unknown_extension_additions. rewrite Hsc.
  assert (Hx : forall p (a : A) r', scope_is (Some (AllBitField p p)) a r' -> exhausted a r').
  { intros p a r' Hs. exists (AllBitField p p). split; [exact Hs|apply N.eqb_refl]. }
  destruct sc as [a b|a b|bp opt calls nx|]; cbn [winv] in Hw.
  - destruct Hw as [Hw _]. discriminate Hw.
  - cbv beta iota zeta. eapply post_mono; [apply Hx|]. apply skip_loop_good; [exact G|reflexivity].
  - destruct Hw as (_ & _ & Lc). assert (calls = 0) by lia. subst calls. cbv beta iota. rewrite bind_assoc.
    eapply post_bind; [apply (post_get_anything _ r _ (keeps_normally_small m) (r_normally_small_np m) G)|].
    intros n r1 G1 _. cbv beta iota zeta. eapply post_mono; [apply Hx|].
    apply skip_loop_good; [exact (over_src _ G1 (src_set_pos_inv _ _ (proj1 G1)))|reflexivity].
  - exact (post_ret G (ex_intro _ ExtSeqEmpty (conj Hsc eq_refl))).
Qed.

(** * scope_pushed: the debug assertion holds *)
Lemma pushed_good {A} m r sc (f : rst -> res (A * rst)) s :
  post s exhausted (f (r_set_scope r (Some sc))) -> post s anything (rscope_pushed m r sc f).
Proof.
  intros Hf. unfold rscope_pushed. apply (post_bind Hf).
  intros a r' G (sc' & Hs & Hx). rewrite Hs, Hx. cbn [negb]. rewrite andb_false_r. apply post_ret; [exact G|exact I].
Qed.

Lemma exhausted_of_winv sc : winv false sc 0 0 -> scope_exhausted sc = true.
Proof.
  destruct sc as [a b|a b|bp opt calls nx|]; cbn [winv scope_exhausted]; intros H.
  - destruct H as (_ & L1 & L2). apply N.eqb_eq. lia.
  - discriminate H.
  - destruct H as [H _]. discriminate H.
  - discriminate H.
Qed.

Lemma seq_root_good m fs r start stop s : Forall (fun f => Tnone m (snd f)) fs -> over s r ->
  start <= stop -> stop <= start + N.of_nat (nopt fs) ->
  post s anything (rscope_pushed m r (OptBitField start stop) (fun r => rfields m fs r [])).
Proof.
  intros F G L1 L2. apply pushed_good.
  eapply post_mono;
    [|apply (rfields_good m false s fs F (r_set_scope r (Some (OptBitField start stop))) [] _ G eq_refl); cbn [winv]; auto].
  intros v r' (sc' & G3 & G4). exists sc'. split; [exact G3|]. exact (exhausted_of_winv sc' G4).
Qed.

Lemma seq_ext_good m fs r bp start stop calls nx s : Forall (fun f => Tnone m (snd f)) fs -> over s r ->
  calls <= N.of_nat (length fs) ->
  post s anything (rscope_pushed m r (ExtSeq bp (Some (start, stop)) calls nx)
            (fun r => let! (v, r) := rfields m fs r [] in
                      let! r := skip_unknown_extension_additions m r in Ok (v, r))).
Proof.
  intros F G Lc. apply pushed_good. eapply post_bind.
  - apply (rfields_good m true s fs F (r_set_scope r (Some (ExtSeq bp (Some (start, stop)) calls nx))) [] _ G eq_refl).
    cbn [winv]. repeat split; [discriminate|exact Lc].
  - intros v r' G1 (sc' & G3 & G4). apply (skip_good v m r' sc' s G1 G3 G4).
Qed.

Lemma nopt_firstn_le n : forall fs, (nopt (firstn n fs) <= nopt fs)%nat.
Proof.
  intros fs. unfold nopt. rewrite <- (firstn_skipn n fs) at 2. rewrite filter_app, app_length. lia.
Qed.

Lemma remaining_ok m s : src_inv s -> src_remaining m s = Ok (s_len s - s_pos s).
Proof. intros (_ & P & _). apply usub_ok. exact P. Qed.

Lemma T_seq m fs so fc ea : seq_consts_ok fs so fc ea ->
  Forall (fun f => Tnone m (snd f)) fs -> Tnone m (TSeq fs so fc ea).
Proof.
  intros (Hfc & Hlim & Hea & Hso) F s r Hsc G.
  rewrite read_ty_seq_eq, (rentry_none m r Hsc). cbn [bind]. rewrite (rwith_buffer_none m r _ Hsc). cbv zeta.
  pose proof (nopt_firstn_le (root_len fs ea) fs) as Hno.
  eapply post_bind.
  - destruct ea; [exact (post_bit r s G)|exact (post_ret (Q := anything) G I)].
  - intros ext r1 G1 _. cbv beta iota. pose proof G1 as [H1 _].
    rewrite (remaining_ok m _ H1). cbn [bind]. pose proof H1 as (_ & P1 & L1).
    destruct (N.ltb_spec (s_len (r_src r1) - s_pos (r_src r1)) so) as [Lt|Ge]; [exact I|].
    rewrite uadd_ok by (unfold two64, two63 in *; lia). cbn [bind].
    pose proof (over_src _ G1 (src_set_pos_inv _ (s_pos (r_src r1) + so) H1)) as G2.
    destruct ea as [e|]; [destruct ext|].
    + rewrite usub_ok by lia. cbn [bind]. apply seq_ext_good; [exact F|exact G2|lia].
    + apply seq_root_good; [exact F|exact G2|lia|cbn [root_len] in *; lia].
    + apply seq_root_good; [exact F|exact G2|lia|cbn [root_len] in *; lia].
Qed.

Lemma T_bool m : Tnone m TBool.
Proof.
  apply (buffered_none m TBool _ (fun r => eq_refl)). intros s r G.
  apply (post_bind (post_bit r s G)). intros b r' G' _. exact (post_ret G' I).
Qed.

Lemma T_null m : Tnone m TNull.
Proof. apply (buffered_none m TNull _ (fun r => eq_refl)). intros s r G. exact (post_ret G I). Qed.

Lemma T_int m k lo hi ext : Tnone m (TInt k lo hi ext).
Proof.
  apply (buffered_none m (TInt k lo hi ext) _ (fun r => eq_refl)). intros s r G.
  eapply post_bind.
  - destruct ext; [exact (post_bit r s G)|exact (post_ret (Q := anything) G I)].
  - intros u r2 G2 _. eapply post_bind.
    + destruct u.
      * exact (post_get_anything _ r2 s (keeps_unconstrained m) (r_unconstrained_np m) G2).
      * exact (post_get_anything _ r2 s (keeps_constrained m _ _) (r_constrained_np m _ _) G2).
    + intros z r3 G3 _. exact (post_ret G3 I).
Qed.

Lemma utf8_good s bytes r' : over s r' -> post s anything (let! v := from_utf8 bytes in Ok (v, r')).
Proof. intros G. unfold from_utf8. destruct (utf8_decode bytes); [exact (post_ret G I)|exact I]. Qed.

Lemma T_str_utf8 m lo hi ext : Tnone m (TStr Utf8 lo hi ext).
Proof.
  apply (buffered_none m (TStr Utf8 lo hi ext) _ (fun r => eq_refl)). intros s r G.
  eapply post_bind.
  - apply post_get_anything; [apply keeps_octetstring| |exact G].
    intros s1. apply r_octetstring_np; [cbn; congruence|cbn [opt_or]; lia].
  - intros bs r2 G2 _. exact (utf8_good s _ r2 G2).
Qed.

Lemma len_ext_good m r ext lo hi s :
  ~ Known_C10_length_semi_or_large_bound lo hi -> size_bounds_ok lo hi -> over s r ->
  post s (fun len _ => len <= 131072) (read_len_ext m r ext lo hi).
Proof.
  intros Hk Hb G.
  unfold read_len_ext. destruct ext; [|exact (post_len m lo hi r s Hk Hb G)].
  apply (post_bind (post_bit r s G)). intros e r1 G1 _.
  destruct e; [exact (post_len m None None r1 s (fun H => H eq_refl) I G1)|exact (post_len m lo hi r1 s Hk Hb G1)].
Qed.

Lemma read_chars_good w : forall n r acc s, over s r ->
  post s (fun _ r' => rem (r_src r') + N.of_nat n * w = rem (r_src r)) (read_chars n w r acc).
Proof.
  induction n as [|n IH]; intros r acc s G; cbn [read_chars].
  - apply (post_ret G). lia.
  - eapply post_bind.
    + apply (post_get (fun s => r_bits_into s 8 (8 - w) w) (fun s1 _ s2 => rem s2 + w = rem s1));
        [apply keeps_r_bits_into|intros s1; apply r_bits_into_np|intros s1 bs s2 E; exact (r_bits_into_rem _ _ _ _ _ _ E)|exact G].
    + intros bs r1 G1 E1. cbv beta iota.
      eapply post_mono; [|apply (IH r1 (val_of_bits bs :: acc) s G1)].
      intros cs r' G4. cbv beta in E1, G4. lia.
Qed.

Lemma div_succ_mul_gt rm w : 0 < w -> rm < (rm / w + 1) * w.
Proof. intros Hw. pose proof (N.mul_succ_div_gt rm w ltac:(lia)). lia. Qed.

Lemma str_body_good m ext lo hi (w : N) (dcd : list N -> list N) r s :
  0 < w -> ~ Known_C10_length_semi_or_large_bound lo hi -> size_bounds_ok lo hi -> over s r ->
  post s anything (rstr m ext lo hi w dcd r).
Proof.
  intros Hw Hk Hb G.
  apply (post_bind (len_ext_good m r ext lo hi s Hk Hb G)).
  intros len r1 G1 Hl. cbv beta iota.
  rewrite alloc_ok by (unfold ALLOC_LIMIT; lia). cbn [bind]. cbv zeta.
  set (rm := s_len (r_src r1) - s_pos (r_src r1)).
  apply (post_bind (read_chars_good w (N.to_nat (N.min len (rm / w + 1))) r1 [] s G1)).
  intros codes r2 G2 G4. cbv beta iota. unfold rem in G4. fold rm in G4.
  destruct (N.ltb_spec (N.min len (rm / w + 1)) len) as [Lt|Ge].
  - exfalso. rewrite N2Nat.id in G4. replace (N.min len (rm / w + 1)) with (rm / w + 1) in G4 by lia.
    pose proof (div_succ_mul_gt rm w Hw). lia.
  - exact (utf8_good s _ r2 G2).
Qed.

Lemma T_str m c lo hi ext : ~ Known_C10_length_semi_or_large_bound lo hi -> size_bounds_ok lo hi ->
  c <> Utf8 -> Tnone m (TStr c lo hi ext).
Proof.
  intros Hk Hb Hc. apply (buffered_none m _ _ (read_ty_str_eq m c lo hi ext Hc)). intros s r G.
  apply str_body_good; [destruct c; cbn [cwidth]; lia|assumption..].
Qed.

Lemma T_octets m lo hi ext : ~ Known_C10_length_semi_or_large_bound lo hi -> size_bounds_ok lo hi ->
  Tnone m (TOctets lo hi ext).
Proof.
  intros Hk Hb. destruct (size_facts lo hi Hk Hb) as [F1 F2].
  apply (buffered_none m (TOctets lo hi ext) _ (fun r => eq_refl)). intros s r G.
  eapply post_bind.
  - apply post_get_anything; [apply keeps_octetstring| |exact G].
    intros s1. apply r_octetstring_np; assumption.
  - intros bs r2 G2 _. exact (post_ret G2 I).
Qed.

Lemma T_bits m lo u : u < 65536 -> size_bounds_ok lo (Some u) -> Tnone m (TBitStr lo (Some u) false).
Proof.
  intros Hu Hb. apply (buffered_none m (TBitStr lo (Some u) false) _ (fun r => eq_refl)). intros s r G.
  eapply post_bind.
  - apply post_get_anything; [apply keeps_bitstring| |exact G].
    intros s1. apply r_bitstring_np; [exact Hu|]. destruct lo; cbn [opt_or size_bounds_ok] in *; lia.
  - intros [[bs bl] buflen] r2 G2 _. exact (post_ret G2 I).
Qed.

Lemma T_enum m vc std ext : std < two64 -> Tnone m (TEnum vc std ext).
Proof.
  intros Hstd s r Hsc G. cbn [read_ty]. rewrite (rentry_none' m r Hsc). cbn [bind]. rewrite (rwith_buffer_none m r _ Hsc).
  eapply post_bind.
  - apply post_get_anything; [apply keeps_index|intros s1; apply r_index_np; exact Hstd|exact G].
  - intros index r1 G1 _. cbv beta iota. destruct (index <? vc); [exact (post_ret G1 I)|exact I].
Qed.

Lemma relems_good m e : Tnone m e -> forall n r acc s, r_scope r = None -> over s r ->
  post s anything (relems m e false n r acc).
Proof.
  intros HT. induction n as [|n IH]; intros r acc s Hsc G; cbn [relems].
  - exact (post_ret G I).
  - apply (post_bind (Tnone_scope m e r s HT Hsc G)).
    intros x r' G' Hsc'. cbv beta iota. cbn [andb]. exact (IH r' _ s Hsc' G').
Qed.

Lemma T_list m e lo hi ext : ~ Known_C10_length_semi_or_large_bound lo hi -> size_bounds_ok lo hi ->
  Tnone m e -> Tnone m (TListOf e lo hi ext).
Proof.
  intros Hk Hb HT. apply (buffered_none m (TListOf e lo hi ext) _ (fun r => eq_refl)). intros s r G.
  apply (post_bind (len_ext_good m r ext lo hi s Hk Hb G)).
  intros len r1 G1 Hl. cbv beta iota.
  destruct (0 <? len); [|exact (post_ret G1 I)].
  apply (post_anything s (scope_is (r_scope r1))), (stashed_good r1 _ s anything).
  rewrite alloc_ok by (unfold ALLOC_LIMIT; lia). cbn [bind]. cbv zeta.
  destruct (N.ltb_spec LOOP_LIMIT len) as [L2|L2]; [unfold LOOP_LIMIT in L2; lia|].
  fold (relems m e false). apply relems_good; [exact HT|reflexivity|exact G1].
Qed.

Lemma rpick_good m index : forall alts, Forall (Tnone m) alts -> forall i r s, r_scope r = None -> over s r ->
  post s anything (rpick m index r alts i).
Proof.
  induction alts as [|a alts IH]; intros F i r s Hsc G.
  - destruct i; exact (post_ret G I).
  - destruct i as [|i]; cbn [rpick].
    + apply (post_bind (Forall_inv F s r Hsc G)). intros x r' G' _. exact (post_ret G' I).
    + exact (IH (Forall_inv_tail F) i r s Hsc G).
Qed.

Lemma T_choice m alts std ext : std < two64 -> Forall (Tnone m) alts -> Tnone m (TChoice alts std ext).
Proof.
  intros Hstd F s r Hsc G. cbn [read_ty]. rewrite (rentry_none' m r Hsc). cbn [bind].
  apply (post_anything s (scope_is (r_scope r))), (stashed_good r _ s anything).
  eapply post_bind.
  - apply get_scope, post_get_anything; [apply keeps_index|intros s1; apply r_index_np; exact Hstd|exact G].
  - intros index r1 G1 [_ Hsc1]. cbv beta iota zeta.
    assert (Hc : forall r0, r_scope r0 = r_scope r1 -> over s r0 -> post s anything (rcontent m alts index r0)).
    { intros r0 Hsc0 G0. unfold rcontent. destruct (_ <=? _); [exact (post_ret G0 I)|].
      apply rpick_good; [exact F|exact (eq_trans Hsc0 Hsc1)|exact G0]. }
    eapply post_bind.
    + destruct (std <=? index); [exact (framed_good m true _ r1 s G1 Hc)|exact (Hc r1 eq_refl G1)].
    + intros ov r2 G2 _. cbv beta iota. destruct ov; [exact (post_ret G2 I)|exact I].
Qed.

(* what the induction over [ty] proves: [Tnone] (the statement for one type) under the hypotheses on the type *)
Definition Tprop (m : mode) (t : ty) : Prop := wf_ty t -> ~ Known_C04 t -> Tnone m t.

Lemma fields_Tnone m so fc ea : forall fs, Forall (fun f => Tprop m (snd f)) fs -> all_wf_fields fs ->
  ~ Known_C04 (TSeq fs so fc ea) -> Forall (fun f => Tnone m (snd f)) fs.
Proof.
  induction fs as [|[k ft] fs IH]; intros F Hw Hk; [constructor|].
  apply Forall_cons_iff in F. destruct F as [Hf F]. cbn [all_wf_fields] in Hw. destruct Hw as (W1 & _ & W2).
  cbn [Known_C04] in Hk. constructor.
  - cbn [snd] in *. apply Hf; [exact W1|tauto].
  - apply IH; [exact F|exact W2|tauto].
Qed.

Lemma alts_Tnone m std ext : forall alts, Forall (Tprop m) alts -> all_wf_ty alts ->
  ~ Known_C04 (TChoice alts std ext) -> Forall (Tnone m) alts.
Proof.
  induction alts as [|a alts IH]; intros F Hw Hk; [constructor|].
  apply Forall_cons_iff in F. destruct F as [Hf F]. cbn [all_wf_ty] in Hw. destruct Hw as (W1 & W2).
  cbn [Known_C04] in Hk. constructor.
  - apply Hf; [exact W1|tauto].
  - apply IH; [exact F|exact W2|tauto].
Qed.

Theorem read_total m t : Tprop m t.
Proof.
  induction t as [| |k lo hi ext|c lo hi ext|lo hi ext|lo hi ext|e lo hi ext IH|fs so fc ea IH|alts std ext IH|vc std ext]
    using ty_ind'; intros Hty Hk.
  - apply T_bool.
  - apply T_null.
  - apply T_int.
  - destruct c; [apply T_str_utf8|apply T_str; [exact Hk|exact Hty|discriminate]..].
  - apply T_octets; [exact Hk|exact Hty].
  - cbn [Known_C04] in Hk. unfold Known_C04_size, Known_C04_bits_unconstrained in Hk.
    destruct hi as [u|].
    + destruct ext; [exfalso; apply Hk; right; right; reflexivity|].
      apply T_bits; [lia|exact Hty].
    + exfalso. apply Hk. destruct lo; [left; discriminate|right; left; split; reflexivity].
  - cbn [Known_C04] in Hk. cbn [wf_ty] in Hty. destruct Hty as [Hb Hte].
    apply T_list; [tauto|exact Hb|apply IH; [exact Hte|tauto]].
  - apply wf_ty_seq in Hty. destruct Hty as [Hc Hf].
    apply T_seq; [exact Hc|]. apply (fields_Tnone m so fc ea); assumption.
  - cbn [wf_ty] in Hty. destruct Hty as (H1 & H2 & H3 & H4 & Ha).
    apply T_choice; [unfold SIZE_LIMIT in H3; unfold two64; lia|]. apply (alts_Tnone m std ext); assumption.
  - cbn [wf_ty] in Hty. destruct Hty as (H1 & H2 & H3 & H4).
    apply T_enum. unfold SIZE_LIMIT in H3; unfold two64; lia.
Qed.

Corollary remaining_callable m t s : wf_ty t -> ~ Known_C04 t -> src_inv s ->
  src_remaining m s = Ok (s_len s - s_pos s) /\
  forall v r', read_ty m t (r_of_src s) = Ok (v, r') ->
    src_remaining m (r_src r') = Ok (s_len s - s_pos (r_src r')).
Proof.
  intros Hty Hk Hi. split; [apply remaining_ok; exact Hi|].
  intros v r' E. pose proof (read_total m t Hty Hk s (r_of_src s) eq_refl (conj Hi (same_src_refl s))) as G. rewrite E in G.
  destruct G as [[G1 (_ & _ & G2)] _]. rewrite <- G2. apply remaining_ok. exact G1.
Qed.

Definition run_bytes (m : mode) (t : ty) (bytes : list N) : res (val * rst) :=
  read_ty m t (r_of_src (src_of_bytes bytes (8 * blen bytes))).

(* the example of C04_nonvacuous: an extensible SEQUENCE with additions, and an encoding that carries one
   more (unknown) addition *)
Definition ex4_ty : ty :=
  TSeq [(FReq, TBool); (FOpt, TInt U8 (Some 0%Z) (Some 255%Z) false); (FReq, TOctets None None false);
        (FOpt, TListOf (TChoice [TBool; TNull] 1 true) None (Some 3) false)] 1 4 (Some 1).
Definition ex4_bytes : list N := [224; 160; 184; 16; 13; 80; 10; 128; 15; 248].
