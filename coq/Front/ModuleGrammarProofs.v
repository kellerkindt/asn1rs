(* Front/ModuleGrammarProofs.v -- the module level of parse-after-print (C07), generic in the way assignments are
   printed: an assignment is a name token followed by a chunk of tokens that read_definition (resp.
   read_value_reference) parses to its value in front of any continuation satisfying the item's follow condition.
   Front/TypeGrammarProofs.v instantiates the chunks with the printers of the type grammar. *)
From Coq Require Import String.
From A1 Require Import Front.Print.
Local Open Scope N_scope.

(* an assignment of the module body: `name chunk` *)
Inductive item : Type :=
| IDef (name : str) (chunk : toks) (val : uasn) (follow : toks -> Prop)
| IVal (name : str) (chunk : toks) (a : uasn) (l : literal) (follow : toks -> Prop).

Definition item_toks (it : item) : toks :=
  match it with
  | IDef n c _ _ => T n :: c
  | IVal n c _ _ _ => T n :: c
  end.

Fixpoint print_items (its : list item) : toks :=
  match its with
  | [] => []
  | it :: r => (item_toks it ++ print_items r)%list
  end.

(* Print.assign_name_ok (convertible), under the name this file states item_ok with: the name of an assignment is not
   END or IMPORTS in any case (class assignment_named_end_truncates_module) *)
Definition name_ok (n : str) : Prop :=
  eq_ignore_case n (KW "END") = false /\ eq_ignore_case n (KW "IMPORTS") = false.

Definition item_ok (fuel : nat) (it : item) : Prop :=
  match it with
  | IDef n c v F => name_ok n /\ forall rest, F rest -> read_definition fuel (c ++ rest) = POk (v, rest)
  | IVal n c a l F => name_ok n /\ forall rest, F rest -> read_value_reference fuel (c ++ rest) = POk (a, l, rest)
  end.

(* every item's follow condition holds for what is printed after it *)
Fixpoint follows (its : list item) (rest : toks) : Prop :=
  match its with
  | [] => True
  | it :: r =>
      match it with IDef _ _ _ F => F | IVal _ _ _ _ F => F end (print_items r ++ rest)%list /\ follows r rest
  end.

Definition item_defs (its : list item) : list (str * uasn) :=
  flat_map (fun it => match it with IDef n _ v _ => [(n, v)] | IVal _ _ _ _ _ => [] end) its.

Definition item_vals (its : list item) : list (str * uasn * literal) :=
  flat_map (fun it => match it with IDef _ _ _ _ => [] | IVal n _ a l _ => [(n, a, l)] end) its.

Lemma read_definition_starts_with_colon : forall fuel ts x,
  read_definition fuel ts = POk x -> peek_is_sep C_COLON ts = true.
Proof.
  intros fuel ts x H. unfold read_definition, definition_sep, next_sep_or_err, next_if_sep in H.
  destruct ts as [|t r]; [discriminate H|]. cbn [peek_is_sep].
  destruct (eq_separator t C_COLON); [reflexivity | discriminate H].
Qed.

Lemma read_value_reference_starts_with_text : forall fuel ts x,
  read_value_reference fuel ts = POk x -> peek_is_sep C_COLON ts = false.
Proof.
  intros fuel ts x H. unfold read_value_reference, read_role, next_text_or_err in H.
  destruct ts as [|[l c s | l c ch] r]; [discriminate H | reflexivity | discriminate H].
Qed.

Definition nice_import (i : import) : import :=
  {| i_what := i_what i; i_from := make_name_nice (i_from i); i_from_oid := i_from_oid i |}.

(* the assignments up to END: each costs one unit of fuel and at least its name token *)
Lemma module_loop_items : forall its fuel tfuel trailing name oid imports defs vals,
  Forall (item_ok tfuel) its -> follows its (T (KW "END") :: trailing) -> (length (print_items its) < fuel)%nat ->
  module_loop fuel tfuel (print_items its ++ T (KW "END") :: trailing) name oid imports defs vals
  = POk {| m_name := make_name_nice name; m_oid := oid; m_imports := map nice_import imports;
           m_definitions := (rev defs ++ item_defs its)%list; m_value_references := (rev vals ++ item_vals its)%list |}.
Proof.
  induction its as [|it its IH]; intros fuel tfuel trailing name oid imports defs vals Hok Hfol Hf;
    (destruct fuel as [|fuel]; [lia|]).
  - cbn [print_items app module_loop]. unfold T at 1.
    change (eq_text_ic (Text 0 0 (KW "END")) (KW "END")) with true. rewrite !app_nil_r. reflexivity.
  - inversion Hok as [|? ? Hit Hrest]; subst. cbn [follows] in Hfol. destruct Hfol as [Hf1 Hf2].
    cbn [print_items] in Hf |- *. rewrite app_length in Hf. rewrite <- app_assoc.
    destruct it as [n c v F | n c a l F]; cbn [item_ok] in Hit; destruct Hit as [[Hn1 Hn2] Hparse];
      cbn [item_toks app length] in Hf |- *; specialize (Hparse _ Hf1);
      cbn [module_loop]; change (T n) with (Text 0 0 n); cbn [eq_text_ic]; rewrite Hn1, Hn2.
    (* the token after the name tells a definition from a value reference *)
    1: rewrite (read_definition_starts_with_colon _ _ _ Hparse).
    2: rewrite (read_value_reference_starts_with_text _ _ _ Hparse).
    all: cbn [into_text_or pbind]; rewrite Hparse; cbn [pbind]; rewrite IH by (try assumption; lia).
    all: cbn [item_defs item_vals flat_map app rev]; rewrite <- app_assoc; reflexivity.
Qed.

Lemma skip_until_after_header : forall kw hdr t rest,
  Forall (fun x => eq_text_ic x kw = false) hdr -> eq_text_ic t kw = true ->
  skip_until_after kw (hdr ++ t :: rest) = POk rest.
Proof.
  intros kw hdr t rest Hh Ht. induction Hh as [|x hdr Hx Hh IH]; cbn [app skip_until_after].
  - rewrite Ht. reflexivity.
  - rewrite Hx. exact IH.
Qed.

(* the IMPORTS block: absent, or `IMPORTS tokens` that read_imports parses in front of any continuation *)
Definition imports_ok (itoks : toks) (imps : list import) : Prop :=
  (itoks = [] /\ imps = []) \/
  (exists it, itoks = T (KW "IMPORTS") :: it /\ forall rest, read_imports (it ++ rest) = POk (imps, rest)).

(* Model::try_from on
     name [oid] header BEGIN [IMPORTS ...;] assignment ... assignment END trailing
   the header is any token sequence without BEGIN (DEFINITIONS AUTOMATIC TAGS ::=), assignments in any order *)
Theorem parse_module_items : forall fuel name oid_toks oid hdr itoks imps its trailing,
  let body := (itoks ++ print_items its ++ T (KW "END") :: trailing)%list in
  maybe_read_oid (oid_toks ++ hdr ++ T (KW "BEGIN") :: body) = POk (oid, (hdr ++ T (KW "BEGIN") :: body)%list) ->
  Forall (fun x => eq_text_ic x (KW "BEGIN") = false) hdr ->
  imports_ok itoks imps ->
  Forall (item_ok fuel) its ->
  follows its (T (KW "END") :: trailing) ->
  parse_module fuel (T name :: oid_toks ++ hdr ++ T (KW "BEGIN") :: body)
  = POk {| m_name := make_name_nice name; m_oid := oid; m_imports := map nice_import imps;
           m_definitions := item_defs its; m_value_references := item_vals its |}.
Proof.
  intros fuel name oid_toks oid hdr itoks imps its trailing body Hoid Hhdr Himp Hits Hfol.
  unfold parse_module, T at 1. rewrite Hoid. cbn [pbind].
  rewrite skip_until_after_header by (try assumption; reflexivity). cbn [pbind].
  destruct Himp as [[-> ->] | [it [-> Hit]]]; subst body; cbn [app].
  - apply module_loop_items; try assumption. rewrite app_length. lia.
  - cbn [module_loop]. unfold T at 1.
    change (eq_text_ic (Text 0 0 (KW "IMPORTS")) (KW "END")) with false.
    change (eq_text_ic (Text 0 0 (KW "IMPORTS")) (KW "IMPORTS")) with true.
    rewrite Hit. cbn [pbind app]. apply module_loop_items; try assumption.
    cbn [length]. rewrite !app_length. lia.
Qed.
