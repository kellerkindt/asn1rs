(* Front/ResolveProofs.v -- the resolver model (Front/Resolve.v) below the level of types: the result monad, the one
   list loop behind the five loops of the model, the one import walk behind its two lookups, the leaf resolvers. *)
From A1 Require Import Front.Resolve.
Local Open Scope N_scope.

Lemma rbind_ok : forall {A B} (r : rres A) (f : A -> rres B) b,
  rbind r f = ROk b -> exists a, r = ROk a /\ f a = ROk b.
Proof. intros A B r f b H. destruct r as [a| |]; try discriminate. exists a. split; [reflexivity | exact H]. Qed.

Lemma rbind_div : forall {A B} (r : rres A) (f : A -> rres B),
  rbind r f = RDiverge -> r = RDiverge \/ exists a, r = ROk a /\ f a = RDiverge.
Proof. intros A B [a | e |] f H; cbn [rbind] in H; [right; exists a; auto | discriminate | left; reflexivity]. Qed.

Lemma rbind_ret_div : forall {A B} (r : rres A) (g : A -> B), (let^ a := r in ROk (g a)) = RDiverge -> r = RDiverge.
Proof. intros A B [a | e |] g H; [discriminate | discriminate | reflexivity]. Qed.

(* the five list loops of the resolver (component lists, alternative lists, value assignments, definitions, modules)
   are this one *)
Fixpoint rmapM {A B} (f : A -> rres B) (l : list A) : rres (list B) :=
  match l with
  | [] => ROk []
  | x :: r => let^ y := f x in let^ r' := rmapM f r in ROk (y :: r')
  end.

Lemma rmapM_ok_iff : forall {A B} (f : A -> rres B) l l',
  rmapM f l = ROk l' <-> Forall2 (fun x y => f x = ROk y) l l'.
Proof.
  intros A B f. induction l as [|x r IH]; intros l'; cbn [rmapM]; split; intros H.
  - inversion H. constructor.
  - inversion H. reflexivity.
  - apply rbind_ok in H. destruct H as [y [Hy H]]. apply rbind_ok in H. destruct H as [r' [Hr H]].
    inversion H. constructor; [exact Hy | apply IH; exact Hr].
  - inversion H as [|x0 y r0 r' Hy Hr]; subst. apply IH in Hr. rewrite Hy, Hr. reflexivity.
Qed.

Lemma rmapM_not_ok : forall {A B} (f : A -> rres B) l x,
  In x l -> (forall y, f x <> ROk y) -> forall l', rmapM f l <> ROk l'.
Proof.
  intros A B f l x Hin Hx l' H. apply rmapM_ok_iff in H.
  induction H as [|x0 y r r' Hy _ IH]; [destruct Hin|].
  destruct Hin as [-> | Hin]; [exact (Hx y Hy) | exact (IH Hin)].
Qed.

Lemma rmapM_div : forall {A B} (f : A -> rres B) l, rmapM f l = RDiverge -> exists x, In x l /\ f x = RDiverge.
Proof.
  intros A B f. induction l as [|x r IH]; intros H; [discriminate|]. cbn [rmapM] in H.
  apply rbind_div in H. destruct H as [H | [y [_ H]]].
  - exists x. split; [left; reflexivity | exact H].
  - apply rbind_ret_div in H. destruct (IH H) as [x' [Hin Hx']]. exists x'. split; [right; exact Hin | exact Hx'].
Qed.

Lemma rmapM_Forall2 : forall {A A' B} (f : A -> rres B) (g : A' -> rres B) l l',
  Forall2 (fun x y => f x = g y) l l' -> rmapM f l = rmapM g l'.
Proof.
  intros A A' B f g l l' H. induction H as [|x y r r' Hxy _ IH]; [reflexivity|].
  cbn [rmapM]. rewrite Hxy, IH. reflexivity.
Qed.

Lemma rmapM_ext : forall {A B} (f g : A -> rres B) l, (forall x, In x l -> f x = g x) -> rmapM f l = rmapM g l.
Proof.
  intros A B f g. induction l as [|x r IH]; intros H; [reflexivity|]. cbn [rmapM].
  rewrite (H x (or_introl eq_refl)), IH; [reflexivity|]. intros y Hy. apply H. right. exact Hy.
Qed.

Section Loops.
  Variable scope : list umodel.
  Variable model : umodel.

  (* what the loops do with one element: a definition or a SEQUENCE / SET component (both are a name and an Asn), a
     value assignment, a CHOICE alternative *)
  Definition resolve_named (x : str * uasn) : rres (str * rasn) :=
    let^ a' := resolve_asn scope model (snd x) in ROk (fst x, a').

  Definition resolve_value (x : str * uasn * literal) : rres (str * rasn * literal) :=
    let^ a' := resolve_asn scope model (snd (fst x)) in ROk (fst (fst x), a', snd x).

  Definition resolve_variant (x : str * option atag * uty) : rres (str * option atag * rty) :=
    let^ t' := resolve_ty scope model (snd x) in ROk (fst x, t').

  Lemma resolve_definitions_rmapM : forall l, resolve_definitions scope model l = rmapM resolve_named l.
  Proof.
    induction l as [|[n a] r IH]; [reflexivity|]. cbn [resolve_definitions rmapM]. rewrite IH.
    unfold resolve_named. cbn [fst snd]. destruct (resolve_asn scope model a); reflexivity.
  Qed.

  Lemma resolve_values_rmapM : forall l, resolve_values scope model l = rmapM resolve_value l.
  Proof.
    induction l as [|[[n a] v] r IH]; [reflexivity|]. cbn [resolve_values rmapM]. rewrite IH.
    unfold resolve_value. cbn [fst snd]. destruct (resolve_asn scope model a); reflexivity.
  Qed.

  (* the loops inside resolve_ty, over component lists (the same for SEQUENCE and SET) and alternative lists *)
  Lemma resolve_ty_fields : forall fs e,
    resolve_ty scope model (TSequence fs e) = (let^ fs' := rmapM resolve_named fs in ROk (TSequence fs' e)) /\
    resolve_ty scope model (TSet fs e) = (let^ fs' := rmapM resolve_named fs in ROk (TSet fs' e)).
  Proof.
    intros fs e. cbn [resolve_ty]. split; f_equal.
    (* twice the same goal: the loop both constructors run over fs is rmapM resolve_named *)
    all: induction fs as [|[n [[tag t0] d]] r IH]; [reflexivity|]; cbn [rmapM]; rewrite <- IH.
    all: unfold resolve_named, resolve_asn; cbn [fst snd].
    all: destruct (resolve_ty scope model t0) as [t0'| |]; [|reflexivity|reflexivity].
    all: cbn [rbind]; destruct (resolve_default scope model t0' d); reflexivity.
  Qed.

  Lemma resolve_ty_sequence : forall fs e,
    resolve_ty scope model (TSequence fs e) = let^ fs' := rmapM resolve_named fs in ROk (TSequence fs' e).
  Proof. intros fs e. exact (proj1 (resolve_ty_fields fs e)). Qed.

  Lemma resolve_ty_set : forall fs e,
    resolve_ty scope model (TSet fs e) = let^ fs' := rmapM resolve_named fs in ROk (TSet fs' e).
  Proof. intros fs e. exact (proj2 (resolve_ty_fields fs e)). Qed.

  Lemma resolve_ty_choice : forall vs e,
    resolve_ty scope model (TChoice vs e) = let^ vs' := rmapM resolve_variant vs in ROk (TChoice vs' e).
  Proof.
    intros vs e. cbn [resolve_ty]. f_equal.
    induction vs as [|[[n tag] t0] r IH]; [reflexivity|]. cbn [rmapM]. rewrite <- IH.
    unfold resolve_variant. cbn [fst snd]. destruct (resolve_ty scope model t0); reflexivity.
  Qed.
End Loops.

Lemma resolve_each_rmapM : forall scope l, resolve_each scope l = rmapM (resolve_model scope) l.
Proof. intros scope. induction l as [|m r IH]; [reflexivity|]. cbn [resolve_each rmapM]. rewrite IH. reflexivity. Qed.

Lemma imported_in : forall Ms M name m', model_with_imported_item Ms M name = Some m' -> In m' Ms.
Proof.
  intros Ms M name m' H. unfold model_with_imported_item in H.
  destruct (find (fun i => existsb (str_eqb name) (i_what i)) (m_imports M)) as [imp|]; [|discriminate].
  apply find_some in H. exact (proj1 H).
Qed.

(* value_reference and definition are one fuelled walk along IMPORTS: what the module itself binds, else on to the
   module that its first import listing the name is matched with *)
Section Walk.
  Variable Ms : list umodel.
  Variable name : str.
  Variable A : Type.
  Variable loc : umodel -> option A.          (* what the module itself binds the name to *)

  Fixpoint glookup (fuel : nat) (m : umodel) : lookup A :=
    match loc m with
    | Some a => Found a
    | None =>
        match model_with_imported_item Ms m name with
        | None => NotFound
        | Some m' => match fuel with O => Diverges | S f => glookup f m' end
        end
    end.
End Walk.

(* the two lookups of ResolveScope are instances *)
Lemma value_reference_glookup : forall Ms name fuel m,
  value_reference Ms fuel m name =
  glookup Ms name literal
    (fun m => option_map snd (find (fun vr => str_eqb (fst (fst vr)) name) (m_value_references m))) fuel m.
Proof.
  intros Ms name. induction fuel as [|fuel IH]; intros m; cbn [value_reference glookup];
    destruct (find (fun vr => str_eqb (fst (fst vr)) name) (m_value_references m)); cbn [option_map]; try reflexivity;
    destruct (model_with_imported_item Ms m name); try reflexivity. apply IH.
Qed.

Lemma definition_glookup : forall Ms name fuel m,
  definition Ms fuel m name =
  glookup Ms name uasn (fun m => option_map snd (find (fun d => str_eqb (fst d) name) (m_definitions m))) fuel m.
Proof.
  intros Ms name. induction fuel as [|fuel IH]; intros m; cbn [definition glookup];
    destruct (find (fun d => str_eqb (fst d) name) (m_definitions m)); cbn [option_map]; try reflexivity;
    destruct (model_with_imported_item Ms m name); try reflexivity. apply IH.
Qed.

Section Facts.
  Variable scope : list umodel.
  Variable model : umodel.

  (* ROk exactly when the lookup finds an INTEGER / a non-negative INTEGER / any value *)
  Lemma resolve_i64_ok_iff : forall name v,
    resolve_i64 scope model (Ref name) = ROk v <->
    value_reference scope (lookup_fuel scope) model name = Found (LInteger v).
  Proof.
    intros name v. unfold resolve_i64.
    destruct (value_reference scope (lookup_fuel scope) model name) as [[b|s|z|bs|t0 v0]| |];
      split; intros H; try discriminate; inversion H; reflexivity.
  Qed.

  Lemma resolve_usize_ok_iff : forall name k,
    resolve_usize scope model (Ref name) = ROk k <->
    exists v, value_reference scope (lookup_fuel scope) model name = Found (LInteger v) /\ (0 <= v)%Z /\ k = Z.to_N v.
  Proof.
    intros name k. unfold resolve_usize.
    destruct (value_reference scope (lookup_fuel scope) model name) as [[b|s|z|bs|t0 v0]| |];
      try (split; [discriminate | intros [v [Hv _]]; discriminate]).
    destruct (z <? 0)%Z eqn:E; split.
    - discriminate.
    - intros [v [Hv [Hpos _]]]. inversion Hv; subst. apply Z.ltb_lt in E. lia.
    - intros H. inversion H. exists z. apply Z.ltb_ge in E. auto.
    - intros [v [Hv [_ Hk]]]. inversion Hv; subst. reflexivity.
  Qed.

  Lemma resolve_literal_ok_iff : forall name l,
    resolve_literal scope model (Ref name) = ROk l <-> value_reference scope (lookup_fuel scope) model name = Found l.
  Proof.
    intros name l. unfold resolve_literal.
    destruct (value_reference scope (lookup_fuel scope) model name);
      split; intros H; try discriminate; inversion H; reflexivity.
  Qed.

  (* RDiverge exactly when the lookup does not return *)
  Lemma resolve_leaf_div : forall name,
    (resolve_i64 scope model (Ref name) = RDiverge <-> value_reference scope (lookup_fuel scope) model name = Diverges) /\
    (resolve_usize scope model (Ref name) = RDiverge <-> value_reference scope (lookup_fuel scope) model name = Diverges) /\
    (resolve_literal scope model (Ref name) = RDiverge <-> value_reference scope (lookup_fuel scope) model name = Diverges).
  Proof.
    intros name. unfold resolve_i64, resolve_usize, resolve_literal.
    destruct (value_reference scope (lookup_fuel scope) model name) as [[b|s|z|bs|t0 v0]| |];
      try destruct (z <? 0)%Z; repeat split; intros H; try discriminate; reflexivity.
  Qed.

  (* a reference bound (locally or through IMPORTS, whatever the lookup finds) to the INTEGER literal v resolves
     exactly like the literal v: INTEGER range bounds *)
  Lemma subst_i64 : forall name v,
    value_reference scope (lookup_fuel scope) model name = Found (LInteger v) ->
    resolve_i64 scope model (Ref name) = resolve_i64 scope model (Lit v).
  Proof. intros name v H. exact (proj2 (resolve_i64_ok_iff name v) H). Qed.

  (* SIZE bounds: like the literal, for values that are sizes (0 <= v) *)
  Lemma subst_usize : forall name v,
    (0 <= v)%Z ->
    value_reference scope (lookup_fuel scope) model name = Found (LInteger v) ->
    resolve_usize scope model (Ref name) = resolve_usize scope model (Lit (Z.to_N v)).
  Proof. intros name v Hv H. apply (proj2 (resolve_usize_ok_iff name (Z.to_N v))). exists v. auto. Qed.

  Lemma resolve_leaf_unresolved : forall name,
    value_reference scope (lookup_fuel scope) model name = NotFound ->
    resolve_i64 scope model (Ref name) = RErr (FailedToResolveReference name) /\
    resolve_usize scope model (Ref name) = RErr (FailedToResolveReference name) /\
    resolve_literal scope model (Ref name) = RErr (FailedToResolveReference name).
  Proof. intros name H. unfold resolve_i64, resolve_usize, resolve_literal. rewrite H. repeat split. Qed.

  (* an error of a bound is an error of the SIZE / of the INTEGER type that contains it: never a substituted bound *)
  Lemma size_error_propagates : forall lo hi e err,
    resolve_usize scope model lo = RErr err ->
    resolve_size scope model (SRange lo hi e) = RErr err /\ resolve_size scope model (SFix lo e) = RErr err.
  Proof. intros lo hi e err H. unfold resolve_size. rewrite H. split; reflexivity. Qed.

  Lemma integer_error_propagates : forall lo hi e c err,
    resolve_i64 scope model lo = RErr err ->
    resolve_ty scope model (TInteger (Some lo, hi, e) c) = RErr err.
  Proof. intros lo hi e c err H. cbn [resolve_ty]. unfold resolve_opt_i64. rewrite H. reflexivity. Qed.
End Facts.
