(* Front/IntTyProofs.v -- proofs about the INTEGER -> Rust type mapping of Front/IntTy.v (C15): the two threshold
   cascades pick the narrowest kind that holds both bounds (upick_narrowest, ipick_narrowest; the i64 arithmetic of the
   amplitude trick never overflows there); every fact the property needs of a source range outside Known_C15 is one
   field of the record `summary` (summary_holds), from which Props/C15.v reads its theorems (a bound kept in the Rust
   model is the number its accessor prints, so the accessor fields speak for it: acc_min_some, acc_max_some); the
   accessor texts read back as numbers because the reader skips the `_` that format_number_nicely inserts (fmt_parse).
   Everything is Z arithmetic over all of i64 x i64 at once; no sweeps. *)
From A1 Require Import Front.IntTy.
From Coq Require Import Decimal DecimalPos.
Require Import ZifyNat.
Local Open Scope Z_scope.

Ltac consts := unfold i64_min, i64_max, u64_max, I8_MAX, I16_MAX, I32_MAX, U8_MAX, U16_MAX, U32_MAX in *.

Lemma kind_span k : kmax k - kmin k + 1 = modulus k.
Proof. destruct k; reflexivity. Qed.

Lemma cast_fits k z : fits k z -> cast k z = z.
Proof. unfold fits, cast. intros H. pose proof (kind_span k). rewrite Z.mod_small by lia. lia. Qed.

Lemma cast_range k z : fits k (cast k z).
Proof.
  unfold fits, cast. pose proof (kind_span k).
  assert (0 < modulus k) as Hm by (destruct k; reflexivity).
  pose proof (Z.mod_pos_bound (z - kmin k) (modulus k) Hm). lia.
Qed.

Lemma wrap_u64_id z : 0 <= z <= u64_max -> wrap_u64 z = z.
Proof. intros H. apply cast_fits. exact H. Qed.

Lemma in_i64_true z : i64_min <= z <= i64_max -> in_i64 z = true.
Proof. unfold in_i64. lia. Qed.

(** the i64 arithmetic of the amplitude trick never overflows: min < 0 there *)
Lemma i64_add_1_ok m l : i64_min <= l < 0 -> i64_add m l 1 = Ok (l + 1).
Proof. intros H. unfold i64_add. rewrite in_i64_true by (consts; lia). reflexivity. Qed.
Lemma i64_abs_ok m l : i64_min <= l < 0 -> i64_abs m (l + 1) = Ok (- (l + 1)).
Proof. intros H. unfold i64_abs. rewrite in_i64_true by (consts; lia). f_equal. lia. Qed.

Lemma permitted_eff lo hi v : wf_range lo hi ->
  (permitted lo hi v /\ rep64 lo v) <-> eff_lo lo <= v <= eff_hi lo hi.
Proof.
  unfold wf_range, wf_bound, permitted, rep64, eff_lo, eff_hi, needs_signed.
  destruct lo as [l|], hi as [h|]; intros (Hl & Hh & Hlh); try destruct (l <? 0) eqn:E; consts; lia.
Qed.

Lemma eff_lo_le_hi lo hi : wf_range lo hi -> eff_lo lo <= eff_hi lo hi.
Proof.
  unfold wf_range, wf_bound, eff_lo, eff_hi, needs_signed.
  destruct lo as [l|], hi as [h|]; intros (Hl & Hh & Hlh); try destruct (l <? 0) eqn:E; consts; lia.
Qed.

(* what the accessors print *)
Definition acc_min (t : rty) : Z := unwrap_or (rmin t) 0.
Definition acc_max (t : rty) : Z :=
  match rk t with U64 => unwrap_or (rmax t) (wrap_u64 i64_max) | _ => unwrap_or (rmax t) 0 end.

Lemma integer_range_str_acc t : integer_range_str t = (to_string (acc_min t), to_string (acc_max t)).
Proof. unfold integer_range_str, acc_min, acc_max. destruct (rk t); reflexivity. Qed.

(* a bound that the Rust model keeps is what the accessor prints: what holds of the accessors holds of the kept bounds *)
Lemma acc_min_some t x : rmin t = Some x -> acc_min t = x.
Proof. unfold acc_min. intros ->. reflexivity. Qed.
Lemma acc_max_some t y : rmax t = Some y -> acc_max t = y.
Proof. unfold acc_max. intros ->. destruct (rk t); reflexivity. Qed.

Definition keeps (t : rty) (l h : Z) : Prop := acc_min t = l /\ acc_max t = h.

Lemma keeps_some t l h : rmin t = Some l -> rmax t = Some h -> keeps t l h.
Proof. intros El Eh. split; [apply acc_min_some, El | apply acc_max_some, Eh]. Qed.

(* the narrowest kind that holds both bounds, and the two cascades of thresholds that pick it *)
Definition narrowest_kind (k : ikind) (L H : Z) : Prop :=
  fits k L /\ fits k H /\ signed k = (L <? 0) /\
  forall k', fits k' L -> fits k' H -> width k <= width k'.

Lemma narrowest_kind_mono k l h h' : narrowest_kind k l h -> l <= h <= h' -> fits k h' -> narrowest_kind k l h'.
Proof.
  intros (Hl & _ & Hs & Hmin) Hh Hk. split; [exact Hl|]. split; [exact Hk|]. split; [exact Hs|].
  intros k' Hl' Hh'. apply Hmin; [exact Hl'|]. unfold fits in *. lia.
Qed.

Definition upick (mx : Z) : ikind :=
  if mx <=? U8_MAX then U8 else if mx <=? U16_MAX then U16 else if mx <=? U32_MAX then U32 else U64.
Definition ipick (amp : Z) : ikind :=
  if amp <=? I8_MAX then I8 else if amp <=? I16_MAX then I16 else if amp <=? I32_MAX then I32 else I64.

Ltac narrow :=
  unfold narrowest_kind, fits; cbn [kmin kmax width signed];
  repeat split; try lia;
  let k' := fresh "k'" in intros k'; destruct k'; cbn [kmin kmax width]; lia.

Lemma upick_narrowest l h : 0 <= l <= h -> h <= u64_max -> narrowest_kind (upick h) l h.
Proof.
  intros Hl Hh. unfold upick.
  destruct (h <=? U8_MAX) eqn:E2; [|destruct (h <=? U16_MAX) eqn:E3; [|destruct (h <=? U32_MAX) eqn:E4]]; consts; narrow.
Qed.

Lemma ipick_narrowest l h : i64_min <= l < 0 -> l <= h <= i64_max -> narrowest_kind (ipick (Z.max (- (l + 1)) h)) l h.
Proof.
  intros Hl Hh. unfold ipick.
  destruct (_ <=? I8_MAX) eqn:E2; [|destruct (_ <=? I16_MAX) eqn:E3; [|destruct (_ <=? I32_MAX) eqn:E4]]; consts; narrow.
Qed.

Lemma upick_unsigned mx : signed (upick mx) = false.
Proof. unfold upick. destruct (_ <=? U8_MAX); [|destruct (_ <=? U16_MAX); [|destruct (_ <=? U32_MAX)]]; reflexivity. Qed.

(* with a lower bound that is an i64 there is a type, in either profile: the kind the cascades pick *)
Lemma fixed_int_type_eq m lo hi :
  i64_min <= unwrap_or lo 0 ->
  fixed_int_type m lo hi = Ok
    (if is_unconstrained_pair lo hi then {| rk := U64; rmin := None; rmax := None; rext := false |}
     else let mn := unwrap_or lo 0 in
          let mx := unwrap_or hi i64_max in
          fixed_range (if 0 <=? mn then upick (wrap_u64 mx) else ipick (Z.max (- (mn + 1)) mx)) mn mx).
Proof.
  intros Hl. unfold fixed_int_type, upick, ipick. destruct (is_unconstrained_pair lo hi); [reflexivity|]. cbv zeta.
  destruct (0 <=? unwrap_or lo 0) eqn:E.
  - destruct (_ <=? U8_MAX); [|destruct (_ <=? U16_MAX); [|destruct (_ <=? U32_MAX)]]; reflexivity.
  - rewrite i64_add_1_ok by lia. cbn [bind]. rewrite i64_abs_ok by lia. cbn [bind].
    destruct (_ <=? I8_MAX); [|destruct (_ <=? I16_MAX); [|destruct (_ <=? I32_MAX)]]; reflexivity.
Qed.

(* the fixed range of a kind that holds both bounds keeps them as they are (cast changes nothing) *)
Lemma fixed_range_spec k l h : narrowest_kind k l h ->
  rext (fixed_range k l h) = false /\ narrowest_kind (rk (fixed_range k l h)) l h /\ keeps (fixed_range k l h) l h.
Proof.
  intros HN. split; [reflexivity|]. split; [exact HN|].
  apply keeps_some; cbn [fixed_range rmin rmax]; f_equal; apply cast_fits; apply HN.
Qed.

Lemma unconstrained_lit l hi : is_unconstrained_pair (Some l) hi = true -> l = 0 /\ unwrap_or hi i64_max = i64_max.
Proof. destruct hi; cbn [is_unconstrained_pair unwrap_or]; lia. Qed.

Lemma fixed_lit m l hi :
  i64_min <= l <= unwrap_or hi i64_max -> unwrap_or hi i64_max <= i64_max ->
  exists t, fixed_int_type m (Some l) hi = Ok t /\ rext t = false /\
            narrowest_kind (rk t) l (unwrap_or hi i64_max) /\ keeps t l (unwrap_or hi i64_max).
Proof.
  intros Hl Hh. rewrite fixed_int_type_eq by apply Hl. eexists; split; [reflexivity|]. cbn [unwrap_or].
  destruct (is_unconstrained_pair (Some l) hi) eqn:E0.
  - (* (0..i64::MAX) is no constraint: u64 without bounds *)
    destruct (unconstrained_lit l hi E0) as (-> & ->).
    split; [reflexivity|]. split; [apply (upick_narrowest 0 i64_max); consts; lia | split; reflexivity].
  - apply fixed_range_spec. destruct (0 <=? l) eqn:E1.
    + rewrite wrap_u64_id by (consts; lia). apply upick_narrowest; consts; lia.
    + apply ipick_narrowest; lia.
Qed.

Lemma ext_kind_64 lo hi : width (rk (ext_int_type lo hi)) = 64.
Proof.
  unfold ext_int_type. destruct (is_unconstrained_pair lo hi); [reflexivity|].
  destruct ((0 <=? unwrap_or lo 0) && (0 <=? unwrap_or hi 0)); reflexivity.
Qed.

Lemma ext_lit l hi :
  i64_min <= l <= unwrap_or hi i64_max -> unwrap_or hi i64_max <= i64_max ->
  let t := ext_int_type (Some l) hi in
  rext t = true /\ rk t = (if l <? 0 then I64 else U64) /\ keeps t l (unwrap_or hi i64_max).
Proof.
  intros Hl Hh. cbv zeta. unfold ext_int_type.
  destruct (is_unconstrained_pair (Some l) hi) eqn:E0.
  - destruct (unconstrained_lit l hi E0) as (-> & ->). repeat split.
  - replace ((0 <=? unwrap_or (Some l) 0) && (0 <=? unwrap_or hi 0)) with (negb (l <? 0))
      by (destruct hi; cbn [unwrap_or] in *; lia).
    destruct (l <? 0) eqn:E; cbn [negb]; (split; [reflexivity|]); (split; [reflexivity|]).
    + (* i64 with both bounds *)
      apply keeps_some; reflexivity.
    + (* u64: the bounds as u64, which they are already; no upper bound is printed as i64::MAX *)
      cbn [option_map]. rewrite (wrap_u64_id l) by (consts; lia). destruct hi as [h|]; cbn [unwrap_or option_map] in *.
      * rewrite (wrap_u64_id h) by (consts; lia). apply keeps_some; reflexivity.
      * split; reflexivity.
Qed.

(* MIN .. negative literal, extensible: the one no-lower-bound range that becomes signed *)
Lemma ext_min_neg h :
  i64_min <= h < 0 ->
  let t := ext_int_type None (Some h) in rext t = true /\ rk t = I64 /\ keeps t i64_min h.
Proof.
  intros Hh. unfold ext_int_type, is_unconstrained_pair, unwrap_or.
  destruct (h =? i64_max) eqn:E0; [consts; lia|].
  destruct ((0 <=? 0) && (0 <=? h)) eqn:E1; [lia|]. cbv zeta.
  split; [reflexivity|]. split; [reflexivity|]. apply keeps_some; reflexivity.
Qed.

Definition bopt (b : sbound) : option Z := match b with Lit z => Some z | Kw => None end.

(* `(0..MAX)` and `(MIN..i64::MAX)` are read as no constraint at all; both mappings treat them like (None, None) *)
Lemma src_constrained m lo hi ext :
  wf_bound lo -> wf_bound hi -> src_int_type m (Constrained lo hi ext) = int_type m (bopt lo) (bopt hi) ext.
Proof.
  intros Hl Hh. unfold src_int_type, front_range, parse_range, parse_bound.
  destruct lo as [l|], hi as [h|]; cbn [wf_bound bopt] in *; rewrite ?in_i64_true by assumption.
  - reflexivity.
  - destruct (Z.eqb_spec l 0) as [->|]; [destruct ext|]; reflexivity.
  - destruct (Z.eqb_spec h i64_max) as [->|]; [destruct ext|]; reflexivity.
  - reflexivity.
Qed.

(* totality: literal bounds that are i64 literals always yield a type (no error, no panic, either profile), whatever their order *)
Lemma src_total m r : wf_bound (sr_lo r) -> wf_bound (sr_hi r) -> exists t, src_int_type m r = Ok t.
Proof.
  destruct r as [|lo hi ext]; cbn [sr_lo sr_hi]; intros Hl Hh; [eexists; reflexivity|].
  rewrite (src_constrained m lo hi ext Hl Hh). unfold int_type.
  destruct ext; [|rewrite fixed_int_type_eq]; [eexists; reflexivity..|].
  destruct lo; cbn [bopt unwrap_or wf_bound] in *; [apply Hl | discriminate].
Qed.

(* the summary from which the property theorems are read off *)
Record summary (r : srange) (t : rty) : Prop := {
  s_ext : rext t = sr_ext r;
  s_lo : fits (rk t) (eff_lo (sr_lo r));
  s_hi : fits (rk t) (eff_hi (sr_lo r) (sr_hi r));
  s_narrow : sr_ext r = false -> narrowest_kind (rk t) (eff_lo (sr_lo r)) (eff_hi (sr_lo r) (sr_hi r));
  s_accmin : acc_min t = declared_lo r (rk t);
  s_accmax : ~ Known_max_keyword_i64max_on_u64 r -> acc_max t = declared_hi r (rk t)
}.

Lemma not_known_cases r : ~ Known_C15 r ->
  (exists l, sr_lo r = Lit l) \/ (sr_lo r = Kw /\ sr_ext r = true /\ exists h, sr_hi r = Lit h /\ h < 0).
Proof.
  unfold Known_C15, Known_no_lower_bound_unsigned. intros HK.
  destruct (sr_lo r) as [l|] eqn:El; [left; eauto|right].
  destruct (sr_ext r) eqn:Ee.
  - destruct (sr_hi r) as [h|] eqn:Eh.
    + destruct (Z.ltb_spec h 0) as [Hn|Hn]; [eauto 6|].
      exfalso. apply HK. split; [reflexivity|]. intros (_ & h' & [= <-] & Hlt). clear - Hn Hlt. lia.
    + exfalso. apply HK. split; [reflexivity|]. intros (_ & h' & [=] & _).
  - exfalso. apply HK. split; [reflexivity|]. intros ([=] & _).
Qed.

(* a literal lower bound l, and h the upper bound (i64::MAX when there is none): the kind holds both and has the sign of l *)
Lemma int_type_lit m l hi ext t :
  i64_min <= l <= unwrap_or hi i64_max -> unwrap_or hi i64_max <= i64_max -> int_type m (Some l) hi ext = Ok t ->
  rext t = ext /\ fits (rk t) l /\ fits (rk t) (unwrap_or hi i64_max) /\ signed (rk t) = (l <? 0) /\
  (ext = false -> narrowest_kind (rk t) l (unwrap_or hi i64_max)) /\ keeps t l (unwrap_or hi i64_max).
Proof.
  intros Hl Hh. unfold int_type. destruct ext.
  - intros [= <-]. destruct (ext_lit l hi Hl Hh) as (A & B & C).
    refine (conj A (conj _ (conj _ (conj _ (conj _ C))))); rewrite B; unfold fits;
      destruct (l <? 0) eqn:E; cbn [kmin kmax signed]; consts; try lia; discriminate.
  - intros Hs. destruct (fixed_lit m l hi Hl Hh) as (t' & Ht & A & HN & C). rewrite Ht in Hs. injection Hs as <-.
    pose proof HN as (F1 & F2 & F3 & _).
    exact (conj A (conj F1 (conj F2 (conj F3 (conj (fun _ => HN) C))))).
Qed.

Lemma kind_64 k l : signed k = (l <? 0) -> fits k i64_max -> k = if l <? 0 then I64 else U64.
Proof. unfold fits. destruct k, (l <? 0); cbn [signed kmin kmax]; consts; intros; try reflexivity; try discriminate; lia. Qed.

Lemma summary_holds m r t :
  wf_srange r -> ~ Known_C15 r -> src_int_type m r = Ok t -> summary r t.
Proof.
  intros Hwf HK Hs. destruct (not_known_cases r HK) as [(l & El) | (El & Ee & h & Eh & Hneg)];
    (* plain INTEGER is in neither case *)
    (destruct r as [|lo hi ext]; cbn [sr_lo sr_hi sr_ext] in *; [discriminate|]);
    pose proof Hwf as (Hl & Hh & Hlh); cbn [sr_lo sr_hi] in Hl, Hh, Hlh;
    rewrite (src_constrained m lo hi ext Hl Hh) in Hs.
  - subst lo. cbn [bopt wf_bound] in *.
    destruct (int_type_lit m l (bopt hi) ext t) as (A & F1 & F2 & Sg & HN & C1 & C2); [| |exact Hs|];
      [destruct hi; cbn [bopt unwrap_or wf_bound] in *; lia..|].
    destruct hi as [h|]; cbn [bopt unwrap_or] in *.
    + constructor; unfold declared_lo, declared_hi; cbn [sr_lo sr_hi sr_ext eff_lo eff_hi]; auto.
    + (* MAX: i64 for a negative lower bound, else u64, whose accessor and kept bound are still i64::MAX *)
      pose proof (kind_64 _ l Sg F2) as K.
      assert (HE : fits (rk t) (if l <? 0 then i64_max else u64_max) /\ i64_max <= (if l <? 0 then i64_max else u64_max)).
      { rewrite K. clear. unfold fits. destruct (l <? 0); cbn [kmin kmax]; consts; lia. }
      destruct HE as [HE Hle].
      constructor; unfold declared_lo, declared_hi, Known_max_keyword_i64max_on_u64;
        cbn [sr_lo sr_hi sr_ext eff_lo eff_hi needs_signed]; auto.
      * intros He. apply (narrowest_kind_mono _ _ i64_max); [exact (HN He) | split; [apply Hl | exact Hle] | exact HE].
      * intros Hn. rewrite C2, K. destruct (l <? 0); [reflexivity | exfalso; apply Hn; auto].
  - subst lo hi ext. cbn [bopt wf_bound] in *. unfold int_type in Hs. injection Hs as <-.
    destruct (ext_min_neg h ltac:(lia)) as (A & B & C & D).
    constructor; unfold declared_lo, declared_hi; cbn [sr_lo sr_hi sr_ext eff_lo eff_hi needs_signed]; rewrite ?B;
      auto; try discriminate; unfold fits; cbn [kmin kmax]; consts; lia.
Qed.

Lemma narrowest m r t :
  wf_srange r -> sr_ext r = false -> ~ Known_C15 r -> src_int_type m r = Ok t ->
  signed (rk t) = needs_signed (sr_lo r) /\
  forall k, (forall v, permitted (sr_lo r) (sr_hi r) v -> rep64 (sr_lo r) v -> fits k v) -> width (rk t) <= width k.
Proof.
  intros Hwf He HK Hs. destruct (summary_holds m r t Hwf HK Hs) as [_ _ _ Hn _ _].
  destruct (Hn He) as (_ & _ & Hsg & Hmin). split.
  - rewrite Hsg. unfold eff_lo, needs_signed. destruct (sr_lo r); reflexivity.
  - intros k Hk. pose proof (eff_lo_le_hi _ _ Hwf) as Hle.
    apply Hmin; apply Hk; apply (permitted_eff _ _ _ Hwf); lia.
Qed.

Lemma front_range_ext r lo hi ext : front_range r = Ok (lo, hi, ext) -> ext = sr_ext r.
Proof.
  destruct r as [|slo shi e]; unfold front_range, parse_range; cbn [sr_ext]; [intros [= _ _ <-]; reflexivity|].
  destruct (parse_bound slo) as [[l|l]|], (parse_bound shi) as [[h|h]|];
    try destruct (l =? 0); try destruct (h =? i64_max); cbn; congruence.
Qed.

Lemma ext_is_64 m r t : sr_ext r = true -> src_int_type m r = Ok t -> width (rk t) = 64.
Proof.
  intros He Hs. unfold src_int_type in Hs.
  destruct (front_range r) as [[[lo hi] ext]| |] eqn:Ef; cbn [bind] in Hs; try discriminate.
  rewrite (front_range_ext r lo hi ext Ef), He in Hs. injection Hs as <-. apply ext_kind_64.
Qed.

Lemma uint_codes_numeric d : forallb is_numeric (uint_codes d) = true.
Proof. induction d; cbn [uint_codes forallb]; rewrite ?IHd; reflexivity. Qed.

Lemma codes_uint_codes d : codes_uint (uint_codes d) = Some d.
Proof. induction d; cbn [uint_codes]; [reflexivity| ..]; cbn; rewrite IHd; reflexivity. Qed.

Lemma codes_uint_cons_ext c t t' : codes_uint t = codes_uint t' -> codes_uint (c :: t) = codes_uint (c :: t').
Proof. intros H. cbn [codes_uint]. rewrite H. reflexivity. Qed.

Lemma remove_last_cons m c out X : remove_last m out = Ok X -> remove_last m (c :: out) = Ok (c :: X).
Proof.
  destruct out as [|y ys]; cbn [remove_last]; [destruct (overflow_checks m); discriminate|]. intros [= <-]. reflexivity.
Qed.

Lemma codes_uint_skip t : codes_uint (95 :: t) = codes_uint t.
Proof. reflexivity. Qed.

(* the reader skips the separators that the loop inserts *)
Lemma codes_uint_nice p s : codes_uint (nice_loop p s) = codes_uint s.
Proof.
  revert p. induction s as [|c t IH]; intros p; [reflexivity|]. cbn [nice_loop].
  destruct (((p + 1) mod 3 =? 0) && is_numeric c); apply codes_uint_cons_ext; rewrite ?codes_uint_skip; apply IH.
Qed.

(* format_number_nicely starts the counter so that it comes to 0 on the last digit (start_pos): the loop ends on a
   separator, and that is all remove_last takes off *)
Lemma nice_digits m s : forall p, s <> [] -> forallb is_numeric s = true ->
  (p + Z.of_nat (length s)) mod 3 = 0 ->
  exists X, remove_last m (nice_loop p s) = Ok X /\ codes_uint X = codes_uint (nice_loop p s).
Proof.
  induction s as [|c t IH]; intros p Hne Hnum Hp; [congruence|].
  cbn [forallb] in Hnum. apply andb_true_iff in Hnum. destruct Hnum as (Hc & Ht).
  cbn [nice_loop]. rewrite Hc, andb_true_r.
  destruct t as [|c2 t2].
  - cbn [length] in Hp. replace ((p + 1) mod 3 =? 0) with true by (clear - Hp; lia). exists [c]. split; reflexivity.
  - destruct (IH ((p + 1) mod 3) ltac:(congruence) Ht) as (X & HX & HC).
    { clear - Hp. cbn [length] in *. lia. }
    destruct ((p + 1) mod 3 =? 0); [exists (c :: 95 :: X)|exists (c :: X)];
      (split; [repeat apply remove_last_cons; exact HX | repeat apply codes_uint_cons_ext; exact HC]).
Qed.

Lemma start_pos n : ((3 - n mod 3) mod 3 + n) mod 3 = 0.
Proof. lia. Qed.

(* 45 is the only first character parse_num looks at *)
Lemma parse_num_pos c t : c <> 45 ->
  parse_num (c :: t) = match codes_uint (c :: t) with Some Nil | None => None | Some d => Some (Z.of_int (Pos d)) end.
Proof.
  intros H. unfold parse_num. destruct c as [|c|c]; try reflexivity.
  do 6 (destruct c as [c|c|]; try reflexivity). congruence.
Qed.

(* a text that reads as digits does not begin with the sign *)
Lemma parse_num_codes l d : codes_uint l = Some d -> d <> Nil -> parse_num l = Some (Z.of_int (Pos d)).
Proof.
  intros H Hd. destruct l as [|c t]; [injection H as <-; congruence|].
  rewrite parse_num_pos, H; [destruct d; congruence|].
  intros ->. cbn in H. destruct (codes_uint t); discriminate.
Qed.

Lemma fmt_digits m d p : d <> Nil -> (p + Z.of_nat (length (uint_codes d))) mod 3 = 0 ->
  exists X, remove_last m (nice_loop p (uint_codes d)) = Ok X /\ codes_uint X = Some d.
Proof.
  intros Hd Hp. rewrite <- (codes_uint_codes d), <- (codes_uint_nice p).
  apply nice_digits; [destruct d; cbn; congruence | apply uint_codes_numeric | exact Hp].
Qed.

Lemma to_int_nonnil z d : Z.to_int z = Pos d \/ Z.to_int z = Neg d -> d <> Nil.
Proof.
  unfold Z.to_int. destruct z; intros [E|E]; try discriminate E; injection E as <-;
    try discriminate; apply Unsigned.to_uint_nonnil.
Qed.

Lemma fmt_parse m z : exists txt, format_number_nicely m (to_string z) = Ok txt /\ parse_num txt = Some z.
Proof.
  unfold format_number_nicely, to_string.
  pose proof (DecimalZ.of_to z) as Hz.
  destruct (Z.to_int z) as [d|d] eqn:Ed.
  - pose proof (to_int_nonnil z d (or_introl Ed)) as Hd.
    destruct (fmt_digits m d _ Hd (start_pos _)) as (X & HX & Hc).
    exists X. rewrite (parse_num_codes _ _ Hc Hd), Hz. split; [exact HX | reflexivity].
  - pose proof (to_int_nonnil z d (or_intror Ed)) as Hd.
    set (n := Z.of_nat (length (45 :: uint_codes d))).
    cbn [nice_loop]. replace (is_numeric 45) with false by reflexivity. rewrite andb_false_r.
    destruct (fmt_digits m d (((3 - n mod 3) mod 3 + 1) mod 3) Hd) as (X & HX & Hc).
    { subst n. cbn [length]. lia. }
    exists (45 :: X). split.
    + apply remove_last_cons, HX.
    + unfold parse_num. rewrite Hc, <- Hz. destruct d; congruence.
Qed.

Lemma accessors m r t :
  wf_srange r -> ~ Known_C15 r -> src_int_type m r = Ok t ->
  exists a b, min_max_fn_text m t = Ok (rk t, a, b) /\
              parse_num a = Some (declared_lo r (rk t)) /\
              (~ Known_max_keyword_i64max_on_u64 r -> parse_num b = Some (declared_hi r (rk t))).
Proof.
  intros Hwf HK Hs. destruct (summary_holds m r t Hwf HK Hs) as [_ _ _ _ Hmin Hmax].
  unfold min_max_fn_text. rewrite integer_range_str_acc.
  destruct (fmt_parse m (acc_min t)) as (a & Ha & Pa). destruct (fmt_parse m (acc_max t)) as (b & Hb & Pb).
  exists a, b. rewrite Ha, Hb. cbn [bind]. split; [reflexivity|]. split.
  - rewrite Pa, Hmin. reflexivity.
  - intros Hn. rewrite Pb, (Hmax Hn). reflexivity.
Qed.

(* tightness of the finding class: on every well-formed range of the class the property does fail *)
Lemma no_lower_unsigned m hi ext t :
  (ext = true -> forall h, hi = Some h -> 0 <= h) ->
  int_type m None hi ext = Ok t -> signed (rk t) = false.
Proof.
  intros Hh. unfold int_type. destruct ext.
  - intros [= <-]. unfold ext_int_type. destruct (is_unconstrained_pair None hi); [reflexivity|].
    destruct hi as [h|]; cbn [unwrap_or].
    + specialize (Hh eq_refl h eq_refl). replace ((0 <=? 0) && (0 <=? h)) with true by lia. reflexivity.
    + reflexivity.
  - rewrite fixed_int_type_eq by discriminate.
    destruct (is_unconstrained_pair None hi); intros [= <-]; [reflexivity | apply upick_unsigned].
Qed.

Lemma known_refuted m r t :
  wf_srange r -> Known_C15 r -> src_int_type m r = Ok t ->
  exists v, permitted (sr_lo r) (sr_hi r) v /\ rep64 (sr_lo r) v /\ ~ fits (rk t) v.
Proof.
  unfold wf_srange, wf_range, Known_C15, Known_no_lower_bound_unsigned.
  intros Hwf (Hlo & Hx) Hs.
  assert (Hsg : signed (rk t) = false).
  { destruct r as [|lo hi ext]; cbn [sr_lo sr_hi sr_ext] in *.
    - injection Hs as <-. reflexivity.
    - destruct Hwf as (Hl & Hh & _). rewrite (src_constrained m lo hi ext Hl Hh) in Hs. subst lo.
      eapply no_lower_unsigned; [|exact Hs]. intros -> h Eh.
      destruct hi as [h'|]; [injection Eh as ->|discriminate].
      destruct (Z.ltb_spec h 0); [|assumption]. exfalso. apply Hx. eauto. }
  exists (match sr_hi r with Lit h => Z.min (-1) h | Kw => -1 end).
  rewrite Hlo in *. clear Hs Hx. unfold permitted, rep64, needs_signed, fits, wf_bound in *.
  destruct (sr_hi r) as [h|]; destruct Hwf as (_ & Hh & _);
    (destruct (rk t); try discriminate Hsg); cbn [kmin kmax]; consts; lia.
Qed.
