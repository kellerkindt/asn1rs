(* Front/CodegenProofs.v -- the name mangling of Front/Codegen.v gives legal identifiers (Props/C09.v); the type part of the
   attribute sub-language of Front/Attr.v is read back as itself (Props/C08.v) *)
From A1 Require Import Gen.Keywords Front.Codegen Front.Attr.
From Coq Require Import ZifyBool String.
Local Open Scope N_scope.

(* the characters of a mangled component name after its first letter: [a-z0-9_] *)
Definition okc (c : N) : bool := is_lower c || is_digit c || (c =? USCORE).
Definition alnum (c : N) : bool := is_alpha c || is_digit c.

Ltac unf := unfold okc, alnum, ident_continue, asn_char, to_lower, to_upper, is_sep, is_alpha, is_upper, is_lower, is_digit, HYPHEN, USCORE in *.

Lemma lower_not_upper c : is_lower c = true -> is_upper c = false.  Proof. unf. lia. Qed.
Lemma lower_not_sep c : is_lower c = true -> is_sep c = false.      Proof. unf. lia. Qed.
Lemma upper_not_sep c : is_upper c = true -> is_sep c = false.      Proof. unf. lia. Qed.
Lemma lower_alpha c : is_lower c = true -> is_alpha c = true.        Proof. unf. lia. Qed.
Lemma upper_alpha c : is_upper c = true -> is_alpha c = true.        Proof. unf. lia. Qed.
Lemma okc_uscore : okc USCORE = true.                                Proof. reflexivity. Qed.
Lemma okc_to_lower c : is_upper c = true -> okc (to_lower c) = true.
Proof. unf. intros H. rewrite H. lia. Qed.
Lemma okc_plain c : asn_char c = true -> is_upper c = false -> is_sep c = false -> okc c = true.
Proof. unf. lia. Qed.
Lemma okc_continue c : okc c = true -> ident_continue c = true.     Proof. unf. lia. Qed.
Lemma okc_not_hyphen c : okc c = true -> c <> HYPHEN.               Proof. unf. lia. Qed.
Lemma alnum_continue c : alnum c = true -> ident_continue c = true.  Proof. unf. lia. Qed.
Lemma alnum_not_sep c : alnum c = true -> is_sep c = false.          Proof. unf. lia. Qed.
Lemma alnum_of_asn c : asn_char c = true -> is_sep c = false -> alnum c = true.
Proof. unf. lia. Qed.
Lemma alnum_to_upper c : alnum c = true -> alnum (to_upper c) = true.
Proof. unf. destruct ((97 <=? c) && (c <=? 122)) eqn:E; lia. Qed.
Lemma alnum_to_lower c : alnum c = true -> alnum (to_lower c) = true.
Proof. unf. destruct ((65 <=? c) && (c <=? 90)) eqn:E; lia. Qed.
Lemma to_upper_of_lower c : is_lower c = true -> is_upper (to_upper c) = true.
Proof. unf. intros H. rewrite H. lia. Qed.
Lemma to_upper_of_upper c : is_upper c = true -> to_upper c = c.
Proof. unf. intros H. destruct ((97 <=? c) && (c <=? 122)) eqn:E; [lia | reflexivity]. Qed.

Lemma forallb_Forall {A} (f : A -> bool) l : forallb f l = true <-> Forall (fun x => f x = true) l.
Proof. rewrite forallb_forall, Forall_forall. reflexivity. Qed.

Lemma pad_step_cases pad c o pa : pad_step pad c o pa = USCORE :: o \/ pad_step pad c o pa = o.
Proof. unfold pad_step. destruct (_ && _); auto. Qed.

Lemma upper_step_cases o pl pa rest : upper_step o pl pa rest = USCORE :: o \/ upper_step o pl pa rest = o.
Proof.
  unfold upper_step. destruct (_ && _); auto. destruct (negb pl); auto.
  destruct rest as [|n r]; auto. destruct (is_lower n); auto.
Qed.

Lemma pad_step_nil pad c pa : pad_step pad c [] pa = [].
Proof. unfold pad_step. cbn [is_nil negb]. rewrite !andb_false_r. reflexivity. Qed.

(* the loop only appends to what it has put out, and what it appends is an underscore, a lowered capital or a plain character *)
Lemma module_go_shape (P : N -> Prop) pad :
  P USCORE ->
  (forall c, asn_char c = true -> is_upper c = true -> P (to_lower c)) ->
  (forall c, asn_char c = true -> is_upper c = false -> is_sep c = false -> P c) ->
  forall s o pl pa, forallb asn_char s = true -> exists t, module_go pad s o pl pa = rev o ++ t /\ Forall P t.
Proof.
  intros HU HL HP. induction s as [|c rest IH]; intros o pl pa Hs; cbn [module_go].
  - exists []. rewrite app_nil_r. split; [reflexivity | constructor].
  - cbn [forallb] in Hs. apply andb_true_iff in Hs. destruct Hs as [Hc Hrest].
    assert (Hstep : forall x o' pl' pa', P x -> o' = o \/ o' = USCORE :: o \/ o' = USCORE :: USCORE :: o ->
                    exists t, module_go pad rest (x :: o') pl' pa' = rev o ++ t /\ Forall P t).
    { intros x o' pl' pa' Hx Ho. destruct (IH (x :: o') pl' pa' Hrest) as [t [Et Ft]]. rewrite Et.
      destruct Ho as [->|[->| ->]]; cbn [rev]; rewrite <- !app_assoc; eexists; (split; [reflexivity|]); cbn [app]; auto. }
    set (o1 := pad_step pad c o pa). assert (H1 : o1 = USCORE :: o \/ o1 = o) by apply pad_step_cases. clearbody o1.
    destruct (is_upper c) eqn:Eu; [|destruct (is_sep c) eqn:Es]; apply Hstep; auto.
    + destruct (upper_step_cases o1 pl pa rest) as [->| ->]; destruct H1 as [->| ->]; auto.
    + destruct H1 as [->| ->]; auto.
    + destruct H1 as [->| ->]; auto.
Qed.

Lemma asn_identifier_inv s :
  asn_identifier s = true ->
  exists c rest, s = c :: rest /\ is_lower c = true /\ forallb asn_char rest = true /\ hyphens_ok s = true.
Proof.
  destruct s as [|c rest]; [discriminate|]. unfold asn_identifier. rewrite !andb_true_iff. intros [[Hc Hrest] Hh]. eauto 6.
Qed.

(* the mangled name of an ASN.1 identifier is its first letter, then [a-z0-9_]* *)
Lemma field_name_shape s :
  asn_identifier s = true ->
  exists c t, rust_field_name s = c :: t /\ is_lower c = true /\ Forall (fun x => okc x = true) t.
Proof.
  intros H. destruct (asn_identifier_inv s H) as (c & rest & -> & Hc & Hrest & _).
  unfold rust_field_name, rust_module_name. cbn [module_go].
  rewrite pad_step_nil, (lower_not_upper c Hc), (lower_not_sep c Hc).
  destruct (module_go_shape (fun x => okc x = true) false okc_uscore (fun c _ => okc_to_lower c) okc_plain rest [c] false (is_alpha c) Hrest)
    as [t [Ht HF]].
  exists c, t. split; [rewrite Ht; reflexivity|]. split; [exact Hc | exact HF].
Qed.

Lemma replace_no_hyphen l : Forall (fun c => c <> HYPHEN) l -> map (fun c => if c =? HYPHEN then USCORE else c) l = l.
Proof.
  induction 1 as [|x l Hx _ IH]; [reflexivity|]. cbn [map]. apply N.eqb_neq in Hx. rewrite Hx, IH. reflexivity.
Qed.

Lemma field_name_okc s : asn_identifier s = true -> Forall (fun x => okc x = true) (rust_field_name s).
Proof.
  intros H. destruct (field_name_shape s H) as [c [t [E [Hc Ht]]]]. rewrite E. constructor; [revert Hc; unf; lia | exact Ht].
Qed.

(* of the generator's own step only the keyword escape is left on a mangled component name *)
Lemma emit_field_eq s : asn_identifier s = true ->
  emit_field s = if mem_str (rust_field_name s) KEYWORDS then rust_field_name s ++ [USCORE] else rust_field_name s.
Proof.
  intros H. unfold emit_field, gen_field_name. rewrite replace_no_hyphen; [reflexivity|].
  eapply Forall_impl; [apply okc_not_hyphen | exact (field_name_okc s H)].
Qed.

Lemma mem_str_In s l : mem_str s l = true -> In s l.
Proof.
  unfold mem_str. intros H. apply existsb_exists in H. destruct H as [k [Hin Hk]].
  apply str_eqb_eq in Hk. subst. exact Hin.
Qed.

(* an escaped name is never a keyword again (finite check over Gen/Keywords.v) *)
Lemma escaped_not_keyword : forallb (fun k => negb (is_keyword (k ++ [USCORE]))) KEYWORDS = true.
Proof. vm_compute. reflexivity. Qed.

(* KEYWORDS (Gen/Keywords.v, generated from generate/rust.rs) contains every keyword of the transcribed Rust-reference
   table that starts with a lower-case letter -- the only ones a mangled component name can be.  Finite check against the
   generated list: removing an entry from the crate's array breaks this proof. *)
Lemma keywords_complete_b :
  forallb (fun k => match k with c :: _ => implb (is_lower c) (mem_str k KEYWORDS) | [] => true end) RUST_KEYWORDS = true.
Proof. vm_compute. reflexivity. Qed.

Lemma keywords_complete k :
  In k RUST_KEYWORDS -> (exists c t, k = c :: t /\ is_lower c = true) -> mem_str k KEYWORDS = true.
Proof.
  intros Hin [c [t [E Hc]]]. pose proof keywords_complete_b as Hf. rewrite forallb_forall in Hf.
  specialize (Hf _ Hin). subst k. cbn beta iota in Hf. rewrite Hc in Hf. exact Hf.
Qed.

Lemma field_idents_legal s :
  asn_identifier s = true ->
  is_rust_ident (emit_field s) = true /\ is_keyword (emit_field s) = false.
Proof.
  intros Hs. destruct (field_name_shape s Hs) as [c [t [E [Hc Ht]]]].
  rewrite (emit_field_eq s Hs), E.
  assert (Hcont : forallb ident_continue t = true).
  { apply forallb_Forall. eapply Forall_impl; [|exact Ht]. apply okc_continue. }
  destruct (mem_str (c :: t) KEYWORDS) eqn:Em.
  - split.
    + cbn [app is_rust_ident]. rewrite (lower_alpha c Hc). rewrite forallb_app, Hcont. reflexivity.
    + apply mem_str_In in Em. pose proof escaped_not_keyword as Hf. rewrite forallb_forall in Hf.
      apply Hf in Em. apply negb_true_iff in Em. exact Em.
  - split.
    + cbn [is_rust_ident]. rewrite (lower_alpha c Hc). exact Hcont.
    + destruct (is_keyword (c :: t)) eqn:Ek; [|reflexivity]. exfalso.
      apply mem_str_In in Ek. rewrite (keywords_complete (c :: t) Ek) in Em; [discriminate|].
      exists c, t. split; [reflexivity | exact Hc].
Qed.

Lemma variant_go_chars : forall s nu pu, forallb asn_char s = true -> Forall (fun x => alnum x = true) (variant_go s nu pu).
Proof.
  induction s as [|c rest IH]; intros nu pu Hs; cbn [variant_go]; [constructor|].
  cbn [forallb] in Hs. apply andb_true_iff in Hs. destruct Hs as [Hc Hrest].
  destruct (is_sep c) eqn:Es; [apply IH; exact Hrest|].
  pose proof (alnum_of_asn c Hc Es) as Ha.
  destruct (nu && negb pu).
  - constructor; [apply alnum_to_upper; exact Ha | apply IH; exact Hrest].
  - constructor; [|apply IH; exact Hrest].
    destruct (pu && negb _); [apply alnum_to_lower|]; exact Ha.
Qed.

Lemma gen_variant_id : forall t, Forall (fun x => alnum x = true) t -> gen_variant_go t false = t.
Proof.
  induction 1 as [|x t Hx _ IH]; [reflexivity|]. cbn [gen_variant_go]. rewrite (alnum_not_sep x Hx), IH. reflexivity.
Qed.

(* an identifier or a typereference both give: an upper-case letter, then letters and digits; the generator keeps it *)
Lemma variant_name_shape s :
  (asn_identifier s = true \/ asn_typereference s = true) ->
  exists u t, rust_variant_name s = u :: t /\ is_upper u = true /\ Forall (fun x => alnum x = true) t
              /\ emit_variant s = u :: t.
Proof.
  intros H. destruct s as [|c rest]; [destruct H; discriminate|].
  assert (Hc : (is_lower c = true \/ is_upper c = true) /\ forallb asn_char rest = true).
  { unfold asn_identifier, asn_typereference in H. destruct H as [H|H];
      rewrite !andb_true_iff in H; destruct H as [[Hc Hr] _]; auto. }
  destruct Hc as [Hc Hrest].
  assert (Hsep : is_sep c = false). { destruct Hc; [apply lower_not_sep | apply upper_not_sep]; assumption. }
  unfold emit_variant, rust_variant_name. cbn [variant_go]. rewrite Hsep. cbn [andb negb].
  pose proof (variant_go_chars rest false true Hrest) as Ht.
  assert (Hu : is_upper (to_upper c) = true).
  { destruct Hc as [Hc|Hc]; [apply to_upper_of_lower; exact Hc | rewrite (to_upper_of_upper c Hc); exact Hc]. }
  exists (to_upper c), (variant_go rest false true). repeat split; auto.
  unfold gen_variant_name. cbn [gen_variant_go]. rewrite (to_upper_of_upper _ Hu), (gen_variant_id _ Ht). reflexivity.
Qed.

Lemma emit_variant_is_mangled s :
  (asn_identifier s = true \/ asn_typereference s = true) -> emit_variant s = rust_variant_name s.
Proof. intros H. destruct (variant_name_shape s H) as [u [t [E [_ [_ Ee]]]]]. rewrite Ee, E. reflexivity. Qed.

Definition SELF_TYPE : list N := codes "Self".

(* the only keyword that starts with an upper-case letter is `Self` *)
Lemma upper_keyword_is_Self :
  forallb (fun k => match k with c :: _ => implb (is_upper c) (str_eqb k SELF_TYPE) | [] => true end) RUST_KEYWORDS = true.
Proof. vm_compute. reflexivity. Qed.

Definition Known_C09_variant (s : list N) : Prop := rust_variant_name s = SELF_TYPE.

Lemma variant_idents_legal s :
  (asn_identifier s = true \/ asn_typereference s = true) -> ~ Known_C09_variant s ->
  is_rust_ident (emit_variant s) = true /\ is_keyword (emit_variant s) = false.
Proof.
  intros Hs Hk. destruct (variant_name_shape s Hs) as [u [t [E [Hu [Ht Ee]]]]]. rewrite Ee. split.
  - cbn [is_rust_ident]. rewrite (upper_alpha u Hu). apply forallb_Forall.
    eapply Forall_impl; [|exact Ht]. apply alnum_continue.
  - destruct (is_keyword (u :: t)) eqn:Ek; [|reflexivity]. exfalso. apply Hk.
    apply mem_str_In in Ek. pose proof upper_keyword_is_Self as Hf. rewrite forallb_forall in Hf.
    specialize (Hf _ Ek). cbn beta iota in Hf. rewrite Hu in Hf. cbn [implb] in Hf. apply str_eqb_eq in Hf.
    unfold Known_C09_variant. rewrite E. exact Hf.
Qed.

Definition wf_size (sz : size) : Prop :=
  match sz with
  | SAny => True
  | SFix n _ => n <= USIZE_MAX
  | SRange a b _ => a <= USIZE_MAX /\ b <= USIZE_MAX /\ a <> b      (* Size::reconsider_constraints: a range of one value is Fix *)
  end.
Definition tag_number (g : tag) : N :=
  match g with TUniversal n | TApplication n | TContext n | TPrivate n => n end.
Definition wf_name (s : list N) : Prop := is_rust_ident s = true /\ is_keyword s = false.
(* LStr: the lexing of the printed string literal is trusted (no escapes are printed); LOct is never re-parsed
   (C08_refuted_octet_default in Props/C08.v); LEnum names are printed mangled, so only mangled names come back unchanged *)
Definition wf_lit (l : lit) : Prop :=
  match l with
  | LBool _ | LStr _ => True
  | LInt z => in_i64 z = true
  | LOct _ => False
  | LEnum t v => rust_struct_or_enum_name t = t /\ rust_variant_name v = v /\ wf_name t /\ wf_name v
  end.
Fixpoint wf_aty (t : aty) : Prop :=
  match t with
  | ABool | ANull => True
  | AInt (Some a) (Some b) _ => in_i64 a = true /\ in_i64 b = true
  | AInt None None _ => True
  | AInt _ _ _ => False                        (* half-open ranges do not survive: C08_refuted_half_open_range *)
  | AStr sz _ | AOct sz | ABits sz => wf_size sz
  | AOpt t' => wf_aty t'
  | ADef t' l => wf_aty t' /\ wf_lit l
  | ASeqOf t' sz | ASetOf t' sz => wf_aty t' /\ wf_size sz
  | ARef name (Some g) => wf_name name /\ tag_number g <= USIZE_MAX
  | ARef _ None => False                       (* complex(Name) without tag is refused by the parser: C08_refuted_untagged_complex *)
  end.

(* what follows a printed type in its buffer: nothing or a punctuation mark (the printer puts a comma); a parenthesis
   there would be read as the size of a string type printed without one *)
Definition rest_ok (r : list tok) : Prop := match r with [] => True | TPunct _ :: _ => True | _ => False end.

Lemma with_params1 n p : with_params n [p] = [TIdent n; TParen p].
Proof. unfold with_params. cbn [flat_map]. rewrite app_nil_r. reflexivity. Qed.
Lemma with_params2 n p q : with_params n [p; q] = [TIdent n; TParen (p ++ TPunct COMMA :: q)].
Proof. unfold with_params. cbn [flat_map]. rewrite app_nil_r. reflexivity. Qed.

Lemma take_int_print_z z r : take_int (print_z z ++ r) = Some (z, r).
Proof.
  unfold print_z. destruct (z <? 0)%Z eqn:E; cbn [app take_int].
  - rewrite N.eqb_refl. f_equal. f_equal. rewrite N2Z.inj_abs_N. lia.
  - f_equal. f_equal. rewrite Z2N.id; lia.
Qed.

Lemma take_int_print_z_all z : take_int (print_z z) = Some (z, []).
Proof. rewrite <- (app_nil_r (print_z z)). apply take_int_print_z. Qed.

Lemma parse_mmv_value z r : in_i64 z = true -> parse_mmv (print_z z ++ r) = Ok (Value z, r).
Proof. intros H. unfold parse_mmv. rewrite take_int_print_z, H. reflexivity. Qed.

Lemma parse_ext_eof_ok e : parse_ext_eof (ext_toks e) = Ok e.
Proof. destruct e; reflexivity. Qed.

Lemma take_punct_same c r : take_punct c (TPunct c :: r) = Ok r.
Proof. unfold take_punct. rewrite N.eqb_refl. reflexivity. Qed.

Lemma parse_int_range_some a b e :
  in_i64 a = true -> in_i64 b = true ->
  parse_int_range (print_bound (Some a) S_min ++ [TPunct DOT; TPunct DOT] ++ print_bound (Some b) S_max ++ ext_toks e) = Ok (Some a, Some b, e).
Proof.
  intros Ha Hb. unfold parse_int_range, print_bound.
  rewrite (parse_mmv_value a _ Ha). cbn [bind app]. rewrite take_punct_same. cbn [bind]. rewrite take_punct_same. cbn [bind].
  rewrite (parse_mmv_value b _ Hb). cbn [bind]. rewrite parse_ext_eof_ok. reflexivity.
Qed.

Lemma parse_int_range_none e :
  parse_int_range (print_bound None S_min ++ [TPunct DOT; TPunct DOT] ++ print_bound None S_max ++ ext_toks e) = Ok (None, None, e).
Proof. destruct e; reflexivity. Qed.

Lemma parse_size_value_num n r : n <= USIZE_MAX -> parse_size_value (TNum n :: r) = Ok (n, r).
Proof.
  intros H. unfold parse_size_value. cbn [take_int].
  replace (in_usize (Z.of_N n)) with true by (unfold in_usize, USIZE_MAX in *; lia).
  rewrite N2Z.id. reflexivity.
Qed.

Lemma parse_size_ok sz p :
  wf_size sz -> size_param sz = Some p -> exists inner, p = [TIdent S_size; TParen inner] /\ parse_size inner = Ok sz.
Proof.
  destruct sz as [|n e|a b e]; cbn [wf_size size_param]; intros Hw Hp; inversion Hp; subst; clear Hp.
  - eexists; split; [reflexivity|]. unfold parse_size. rewrite (parse_size_value_num n _ Hw). cbn [bind].
    destruct e; reflexivity.
  - destruct Hw as [Ha [Hb Hab]]. eexists; split; [reflexivity|]. unfold parse_size. cbn [app].
    rewrite (parse_size_value_num a _ Ha). cbn [bind peek_punct]. replace (DOT =? COMMA) with false by reflexivity.
    rewrite take_punct_same. cbn [bind]. rewrite take_punct_same. cbn [bind]. rewrite (parse_size_value_num b _ Hb). cbn [bind].
    apply N.eqb_neq in Hab. destruct e; cbn; rewrite Hab; reflexivity.
Qed.

Lemma parse_opt_size_paren sz rest :
  wf_size sz -> parse_opt_size (TParen (match size_param sz with Some p => p | None => [] end) :: rest) = Ok (sz, rest).
Proof.
  intros Hw. destruct (size_param sz) as [p|] eqn:Ep.
  - destruct (parse_size_ok sz p Hw Ep) as [inner [E1 E2]]. subst p. cbn [parse_opt_size].
    change (str_eqb (lower_str S_size) S_size) with true. rewrite E2. reflexivity.
  - destruct sz; try discriminate. reflexivity.
Qed.

Lemma parse_opt_size_ok sz rest :
  wf_size sz -> rest_ok rest ->
  parse_opt_size (match size_param sz with Some p => [TParen p] | None => [] end ++ rest) = Ok (sz, rest).
Proof.
  intros Hw Hr. pose proof (parse_opt_size_paren sz rest Hw) as H. destruct (size_param sz) as [p|] eqn:Ep; [exact H|].
  destruct sz; try discriminate. cbn [app]. destruct rest as [|[] rest']; cbn in Hr; try contradiction; reflexivity.
Qed.

Lemma with_params_opt_size n sz :
  with_params n (opt_list (size_param sz)) = TIdent n :: match size_param sz with Some p => [TParen p] | None => [] end.
Proof. unfold with_params. destruct (size_param sz); cbn [opt_list flat_map]; [rewrite app_nil_r|]; reflexivity. Qed.

(* [body] stands for the group print_tag prints, so that the lemma rewrites where that group is met unfolded *)
Lemma parse_tag_ok g body r :
  tag_number g <= USIZE_MAX -> print_tag g = [TIdent S_tag; TParen body] -> parse_tag_group (TParen body :: r) = Ok (g, r).
Proof.
  intros H E. apply N.leb_le in H. injection E as <-.
  destruct g; cbn [parse_tag_group tag_number] in *; rewrite H; reflexivity.
Qed.

Lemma parse_lit_ok l : wf_lit l -> parse_lit (print_lit l) = Ok l.
Proof.
  destruct l as [b|s|z|bs|t v]; cbn [wf_lit print_lit]; intros H.
  - destruct b; reflexivity.
  - reflexivity.
  - (* parse_lit looks at the shape of the buffer first: one token or two, no arm before take_int applies *)
    pose proof (take_int_print_z_all z) as Ht.
    unfold parse_lit. unfold print_z in *. destruct (z <? 0)%Z; rewrite Ht, H; reflexivity.
  - contradiction.
  - destruct H as [Ht [Hv [[Ht1 Ht2] [Hv1 Hv2]]]]. rewrite Ht, Hv. unfold parse_lit.
    rewrite !N.eqb_refl, Ht1, Ht2, Hv1, Hv2. reflexivity.
Qed.

(* no printed type starts with the word `size` *)
Lemma with_params_head n ps :
  str_eqb (lower_str n) S_size = false ->
  exists id r0, with_params n ps = TIdent id :: r0 /\ str_eqb (lower_str id) S_size = false.
Proof. intros Hn. destruct ps as [|p ps]; exists n; eexists; (split; [reflexivity | exact Hn]). Qed.

Lemma print_ty_head t : exists id r0, print_ty t = TIdent id :: r0 /\ str_eqb (lower_str id) S_size = false.
Proof. destruct t; cbn [print_ty]; apply with_params_head; try reflexivity. destruct cs; reflexivity. Qed.

(* sequence_of / set_of: the parameters are an optional size and the element type; the parser tells them apart by the
   word `size`, and names the result after the kind of the identifier it read *)
Lemma reparse_of n f t sz rest :
  ident_kind (lower_str n) = KSeqOf \/ ident_kind (lower_str n) = KSetOf -> wf_size sz ->
  parse_ty f (print_ty t) = Ok (t, []) ->
  parse_ty (S f) (with_params n (opt_list (size_param sz) ++ [print_ty t]) ++ rest)
  = Ok (match ident_kind (lower_str n) with KSeqOf => ASeqOf t sz | _ => ASetOf t sz end, rest).
Proof.
  intros Hk Hs Ht. destruct (size_param sz) as [p|] eqn:Ep; cbn [opt_list app].
  - rewrite with_params2. destruct (parse_size_ok sz p Hs Ep) as [inner [E1 E2]]. subst p. cbn [app parse_ty].
    destruct Hk as [Hk|Hk]; rewrite Hk; change (str_eqb (lower_str S_size) S_size) with true;
      rewrite E2; cbn [bind]; rewrite take_punct_same; cbn [bind]; rewrite Ht; reflexivity.
  - destruct sz; try discriminate. rewrite with_params1. cbn [app parse_ty].
    destruct (print_ty_head t) as [id [r0 [Eh Hne]]]. rewrite Eh in *.
    destruct Hk as [Hk|Hk]; rewrite Hk; (destruct r0 as [|[] r1]; rewrite ?Hne; cbn [bind]; rewrite Ht; reflexivity).
Qed.

(* every production of the printed sub-language is read back as itself *)
Lemma reparse_ty : forall t, wf_aty t -> forall f rest, (depth t < f)%nat -> rest_ok rest ->
  parse_ty f (print_ty t ++ rest) = Ok (t, rest).
Proof.
  induction t as [| |mn mx e|sz cs|sz|sz|t IH|t IH l|t IH sz|t IH sz|name tg]; intros Hw f rest Hf Hr;
    (destruct f as [|f]; [inversion Hf|]); cbn [print_ty wf_aty depth] in *.
  - reflexivity.
  - reflexivity.
  - rewrite with_params1. change ([TIdent S_integer; TParen ?x] ++ rest) with (TIdent S_integer :: TParen x :: rest).
    cbn [parse_ty]. change (ident_kind (lower_str S_integer)) with KInteger.
    destruct mn as [a|], mx as [b|]; try contradiction.
    + destruct Hw as [Ha Hb]. rewrite (parse_int_range_some a b e Ha Hb).
      unfold print_bound, print_z. destruct (a <? 0)%Z; reflexivity.
    + rewrite parse_int_range_none. reflexivity.
  - rewrite with_params_opt_size. cbn [app parse_ty].
    replace (ident_kind (lower_str (charset_name cs))) with (KString cs) by (destruct cs; reflexivity).
    rewrite (parse_opt_size_ok sz rest Hw Hr). reflexivity.
  - rewrite with_params_opt_size. cbn [app parse_ty]. change (ident_kind (lower_str S_octet_string)) with KOctet.
    rewrite (parse_opt_size_ok sz rest Hw Hr). reflexivity.
  - (* bit_string: always a parenthesis, empty without size *)
    rewrite with_params1. cbn [app parse_ty]. change (ident_kind (lower_str S_bit_string)) with KBits.
    rewrite (parse_opt_size_paren sz rest Hw). reflexivity.
  - rewrite with_params1. cbn [app parse_ty]. change (ident_kind (lower_str S_optional)) with KOptional.
    rewrite <- (app_nil_r (print_ty t)). rewrite (IH Hw f [] ltac:(lia) I). reflexivity.
  - destruct Hw as [Hw Hl]. rewrite with_params2. cbn [app parse_ty].
    change (ident_kind (lower_str S_default)) with KDefault.
    rewrite (IH Hw f (TPunct COMMA :: print_lit l) ltac:(lia) I). cbn [bind]. rewrite take_punct_same. cbn [bind].
    rewrite (parse_lit_ok l Hl). reflexivity.
  - destruct Hw as [Hw Hs]. apply (reparse_of S_sequence_of); [left; reflexivity | exact Hs |].
    rewrite <- (app_nil_r (print_ty t)). apply (IH Hw f [] ltac:(lia) I).
  - destruct Hw as [Hw Hs]. apply (reparse_of S_set_of); [right; reflexivity | exact Hs |].
    rewrite <- (app_nil_r (print_ty t)). apply (IH Hw f [] ltac:(lia) I).
  - destruct tg as [g|]; [|contradiction]. destruct Hw as [[Hn1 Hn2] Hg].
    cbn [option_map opt_list]. rewrite with_params2. cbn [app parse_ty].
    change (ident_kind (lower_str S_complex)) with KComplex.
    unfold print_tag. cbn [app]. rewrite N.eqb_refl, Hn1, Hn2. cbn [negb orb].
    change (is_rust_ident S_tag) with true. change (is_keyword S_tag) with false.
    change (str_eqb (lower_str S_tag) S_tag) with true. cbn [negb orb].
    rewrite (parse_tag_ok g _ [] Hg eq_refl). reflexivity.
Qed.
