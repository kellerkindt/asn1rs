(* Common result vocabulary of the model: every Rust function that returns
   Result<T,E> and may also leave the Result world by panicking is a function
   into [res T].  Also: the two cargo profiles ([mode]), the panic classes, and the rules about [bind]
   that belong to no layer ([okp P r]: no panic, and [P] of the result on success). *)
From Coq Require Export List NArith ZArith Lia Bool.
Export ListNotations.

Inductive res (A : Type) : Type :=
| Ok (a : A)
| Err (e : N)      (* error kind code; payloads are dropped *)
| Panic (p : N).   (* panic class code *)
Arguments Ok {A} a.
Arguments Err {A} e.
Arguments Panic {A} p.

Definition bind {A B} (r : res A) (f : A -> res B) : res B :=
  match r with Ok a => f a | Err e => Err e | Panic p => Panic p end.

Notation "'let!' x ':=' r 'in' k" := (bind r (fun x => k))
  (at level 200, x pattern, r at level 100, k at level 200, right associativity).

Definition is_ok {A} (r : res A) : bool := match r with Ok _ => true | _ => false end.
Definition is_panic {A} (r : res A) : bool := match r with Panic _ => true | _ => false end.

(* panic classes (shared by all layers, mirrored by the Rust harness) *)
Definition P_INDEX_OOB : N := 1.
Definition P_ARITH : N := 2.
Definition P_CAPACITY : N := 3.
Definition P_UNWRAP : N := 4.
Definition P_ASSERT : N := 5.
Definition P_SLICE_RANGE : N := 6.
Definition P_UNBOUNDED : N := 7.
Definition P_OTHER : N := 9.

(* cargo profile: the two semantics of unchecked arithmetic and debug_assert! *)
Record mode := { overflow_checks : bool; debug_asserts : bool }.
Definition dev_mode := {| overflow_checks := true; debug_asserts := true |}.
Definition release_mode := {| overflow_checks := false; debug_asserts := false |}.

Lemma bind_ok {A B} (r : res A) (f : A -> res B) b :
  bind r f = Ok b -> exists a, r = Ok a /\ f a = Ok b.
Proof. destruct r; simpl; intros H; try discriminate; eauto. Qed.

Lemma bind_assoc {A B C} (r : res A) (f : A -> res B) (g : B -> res C) :
  bind (bind r f) g = bind r (fun a => bind (f a) g).
Proof. destruct r; reflexivity. Qed.

Lemma not_ok_bind {A B} (r : res A) (f : A -> res B) : is_ok r = false -> is_ok (bind r f) = false.
Proof. destruct r; cbn; congruence. Qed.

(* no panic, and [P] of the result on success *)
Definition okp {A} (P : A -> Prop) (r : res A) : Prop :=
  match r with Ok a => P a | Err _ => True | Panic _ => False end.

Lemma okp_bind {A B} {P : A -> Prop} {Q : B -> Prop} {r} {f : A -> res B} :
  okp P r -> (forall a, P a -> okp Q (f a)) -> okp Q (bind r f).
Proof. destruct r; cbn; auto. Qed.
Lemma okp_imp {A} {P Q : A -> Prop} {r} : okp P r -> (forall a, P a -> Q a) -> okp Q r.
Proof. destruct r; cbn; auto. Qed.
Lemma okp_ok {A} {P : A -> Prop} {r a} : okp P r -> r = Ok a -> P a.
Proof. intros H E. rewrite E in H. exact H. Qed.
Lemma okp_npan {A} {P : A -> Prop} {r} : okp P r -> forall p, r <> Panic p.
Proof. intros H p E. rewrite E in H. exact H. Qed.
