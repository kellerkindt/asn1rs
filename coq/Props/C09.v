(* Props/C09.v -- property C09 (logic core; "rustc accepts" as a whole is tie-only, DESIGN.md 8).  This file states the
   theorems; each is proved by a lemma of Front/CodegenProofs.v, EmitProofs.v or IdemProofs.v or derived from one in a
   line or two; witnesses and non-vacuity examples are computed here.

   C09 is claimed PARTIAL: the theorems below cover the identifiers the generator derives from ASN.1 component /
   alternative / item / type names (legal Rust identifiers, not keywords; for variants and types outside the one
   known class `Self`).  Collision freedom is refuted (the mangling is not injective and the tool neither renames nor
   rejects); what holds is that the generator's own step adds no collision to those of the mangling (C09_no_collision).
   Of the constants, the integer ones are values of their declared type outside two classes (C09_consts_typed_partial);
   the other constants, derives and type checking are covered by the rustc stage of checks/C09.py only.  The last part
   characterises the names a second mangling would change. *)
From A1 Require Import Gen.Keywords Front.Codegen Front.CodegenProofs Front.Descr Front.EmitProofs Front.IdemProofs.
From Coq Require Import String.
Local Open Scope N_scope.

(* Every ASN.1 identifier (X.680 12.3) used as a component name is emitted as a legal Rust identifier that is not a
   keyword: the generator's escape list (Gen/Keywords.v, generated from generate/rust.rs) is complete for field names
   (a mangled component name starts with a lower-case letter, so it can never be `Self`). *)
Theorem C09_field_idents_legal : forall s,
  asn_identifier s = true ->
  is_rust_ident (emit_field s) = true /\ is_keyword (emit_field s) = false.
Proof. exact field_idents_legal. Qed.

(* the escape list of the crate contains every keyword of the Rust-reference table (strict + reserved, 2021 edition)
   that starts with a lower-case letter, in particular every keyword that is an ASN.1 identifier.  Proved by a finite
   check against the GENERATED list: removing an entry from KEYWORDS in generate/rust.rs breaks this proof. *)
Theorem C09_keywords_complete : forall k,
  In k RUST_KEYWORDS -> (exists c t, k = c :: t /\ is_lower c = true) -> mem_str k KEYWORDS = true.
Proof. exact keywords_complete. Qed.

Theorem C09_keywords_complete_identifier : forall k,
  In k RUST_KEYWORDS -> asn_identifier k = true -> mem_str k KEYWORDS = true.
Proof.
  intros k Hin Ha. apply keywords_complete; [exact Hin|].
  destruct (asn_identifier_inv k Ha) as (c & t & E & Hc & _). eauto.
Qed.

(* how many keywords that covers, and that every one of them is emitted escaped *)
Definition identifier_keywords : list (list N) := filter asn_identifier RUST_KEYWORDS.
Theorem C09_keywords_escaped :
  List.length identifier_keywords = 50%nat /\
  forallb (fun k => str_eqb (emit_field k) (k ++ [USCORE])) identifier_keywords = true.
Proof. split; vm_compute; reflexivity. Qed.

(* alternative / ENUMERATED item names (identifiers) and type names (typereferences) become variants / type names *)
Theorem C09_variant_idents_legal : forall s,
  (asn_identifier s = true \/ asn_typereference s = true) -> ~ Known_C09_variant s ->
  is_rust_ident (emit_variant s) = true /\ is_keyword (emit_variant s) = false.
Proof. exact variant_idents_legal. Qed.

Theorem C09_type_idents_legal : forall s,
  asn_typereference s = true -> ~ Known_C09_variant s ->
  is_rust_ident (emit_type s) = true /\ is_keyword (emit_type s) = false.
Proof.
  intros s Hs Hk. unfold emit_type, rust_struct_or_enum_name. rewrite <- (emit_variant_is_mangled s (or_intror Hs)).
  exact (variant_idents_legal s (or_intror Hs) Hk).
Qed.

(* the known class of the two theorems above: the item/alternative `self` and the type `Self` become the keyword `Self` *)
Theorem C09_refuted_variant_Self : exists s,
  asn_identifier s = true /\ Known_C09_variant s /\ is_keyword (emit_variant s) = true.
Proof. exists (codes "self"). vm_compute. repeat split; reflexivity. Qed.

(* distinct ASN.1 names are mangled to one Rust name: components foo-bar / fooBar, types Foo-Bar / FooBar, items likewise *)
Theorem C09_mangle_collision_refuted :
  (exists a b, a <> b /\ asn_identifier a = true /\ asn_identifier b = true /\ emit_field a = emit_field b) /\
  (exists a b, a <> b /\ asn_identifier a = true /\ asn_identifier b = true /\ emit_variant a = emit_variant b) /\
  (exists a b, a <> b /\ asn_typereference a = true /\ asn_typereference b = true /\ emit_type a = emit_type b).
Proof.
  split; [|split].
  - exists (codes "foo-bar"), (codes "fooBar"). split; [discriminate|]. vm_compute. repeat split; reflexivity.
  - exists (codes "foo-bar"), (codes "fooBar"). split; [discriminate|]. vm_compute. repeat split; reflexivity.
  - exists (codes "Foo-Bar"), (codes "FooBar"). split; [discriminate|]. vm_compute. repeat split; reflexivity.
Qed.

(* non-vacuity: the hypotheses of the legality theorems are inhabited, and an escaped keyword is covered by them *)
Example C09_nonvacuous_field :
  asn_identifier (codes "match") = true /\ emit_field (codes "match") = codes "match_" /\
  asn_identifier (codes "my-field") = true /\ emit_field (codes "my-field") = codes "my_field" /\
  In (codes "match") RUST_KEYWORDS.
Proof. repeat split; try reflexivity. vm_compute. tauto. Qed.

Example C09_nonvacuous_variant :
  asn_identifier (codes "dark-blue") = true /\ ~ Known_C09_variant (codes "dark-blue") /\ emit_variant (codes "dark-blue") = codes "DarkBlue".
Proof. split; [reflexivity|]. split; [|reflexivity]. intros H. vm_compute in H. discriminate. Qed.

(* collisions: nothing beyond the mangling

   The mangling (rust.rs: rust_field_name / rust_variant_name / rust_struct_or_enum_name) is not injective -- refuted above,
   F09-3 .. F09-8.  [distinct_after_mangling mangle names] = the mangled names are pairwise different; under that explicit
   hypothesis the names that END UP in the generated file are pairwise different per namespace: the generator's own
   step (keyword escape `type` -> `type_` for fields, RustCodeGenerator::rust_variant_name for variants, nothing for types)
   adds no collision -- a mangled component name never ends in `_`, so `x_` can only be an escaped keyword.
   PARTIAL: associated constants / functions (F09-7), value references (F09-8), the expansion's AsnDef.. / ..Constraint
   names (F09-5) and names captured from the prelude (F09-15) are covered by the oracle of checks/C09.py only. *)
Theorem C09_no_collision : forall fields variants types,
  Forall (fun s => asn_identifier s = true) fields ->
  Forall (fun s => asn_identifier s = true \/ asn_typereference s = true) variants ->
  distinct_after_mangling rust_field_name fields ->
  distinct_after_mangling rust_variant_name variants ->
  distinct_after_mangling rust_struct_or_enum_name types ->
  NoDup (map emit_field fields) /\ NoDup (map emit_variant variants) /\ NoDup (map emit_type types).
Proof.
  intros fields variants types Hf Hv Df Dv Dt. split; [|split].
  - exact (no_collision_fields fields Hf Df).
  - exact (no_collision_variants variants Hv Dv).
  - exact Dt.
Qed.

(* the fact behind the field case *)
Theorem C09_field_name_no_trailing_underscore : forall s,
  asn_identifier s = true -> exists t x, rust_field_name s = t ++ [x] /\ x <> USCORE.
Proof. exact field_name_no_trailing_uscore. Qed.

(* integer constants have their declared type

   impl_consts prints `pub const NAME: <to_const_lit_string of r#type.as_no_option()> = <decimal text of the i64 value>;`
   for named numbers (fmt_const).  [assoc_const_type t = CTInt k]: the declared type
   is the integer type k -- for the type itself, below DEFAULT, and below the Option of an extension addition.
   [int_wf k mn mx]: the bounds of the Rust type are values of k and only u64 lacks bounds (a hypothesis; it is not
   derived from the model of C15 here).  Outside F09-9
   ([Known_C09_const_negative_on_unsigned]: a negative value on an unsigned type) and F09-10
   ([Known_C09_const_out_of_constraint]: a value outside the constraint) the literal is a value of k.
   PARTIAL: other constant types (strings, octet strings: F09-11, F09-12) are covered by the oracle only. *)
Theorem C09_consts_typed_partial : forall t k mn mx z,
  assoc_const_type t = CTInt k -> int_wf k mn mx -> (IntTy.i64_min <= z <= IntTy.i64_max)%Z ->
  ~ Known_C09_const_negative_on_unsigned k z -> ~ Known_C09_const_out_of_constraint mn mx z ->
  IntTy.fits k z.
Proof. intros t k mn mx z _. exact (consts_typed k mn mx z). Qed.

(* the declared type is the integer type for the type itself and below DEFAULT ... *)
Theorem C09_const_declared_type : forall k mn mx e l,
  assoc_const_type (RInt k mn mx e) = CTInt k /\ assoc_const_type (RDefault (RInt k mn mx e) l) = CTInt k.
Proof. intros. split; reflexivity. Qed.

(* ... and for an extension addition, which to_rust wraps in Option: for S ::= SEQUENCE { a BOOLEAN, ..., b INTEGER
   { x(1) } (0..9) } the constant is declared `pub const B_X: u8 = 1;`, so the hypothesis of C09_consts_typed_partial
   holds for it.  to_const_lit_string alone answers Option<..> (third conjunct) -- the stripping is impl_consts'.  Guards
   the repaired defect `pub const B_X: Option<u8> = 1;` (rustc E0308; a `fixed:` line of KNOWN_FINDINGS.txt, property C09) *)
Theorem C09_const_on_extension_addition_fixed : forall k mn mx e,
  assoc_const_type (ROption (RInt k mn mx e)) = CTInt k /\
  assoc_const_type (ROption (ROption (RInt k mn mx e))) = CTInt k /\
  const_lit_type (ROption (RInt k mn mx e)) = CTOption (CTInt k).
Proof. intros. repeat split; reflexivity. Qed.

Theorem C09_refuted_const_negative_on_unsigned :
  int_wf IntTy.U64 None None /\ Known_C09_const_negative_on_unsigned IntTy.U64 (-40)%Z /\ ~ IntTy.fits IntTy.U64 (-40)%Z.
Proof.
  split; [|split].
  - repeat split; [intros a [=] | intros b [=]].
  - split; reflexivity.
  - intros [H _]. apply H. reflexivity.
Qed.

(* mangling twice

   rust_variant_name (= rust_struct_or_enum_name) is NOT idempotent: a name that has its Rust spelling and is mangled again
   somewhere on the macro path (a DEFAULT literal Plan::AB, complex(RouteTA, ..), extensible_after(AB)) becomes another
   name (Plan::Ab).  The crate does not do that today (checks/C08.py and C09.py carry the family "a-b, x-y-z, plan-b-c,
   Route-T-A" in every such position); the fixed points are characterised exactly: [variant_stable s] = no separator,
   the first character is no lower-case letter, and no upper-case letter follows an upper-case letter unless a
   lower-case letter comes next.  (rust_field_name, rust_constant_name, rust_module_name and the generator's own functions
   showed no such name under op 3410; that is differential evidence only.) *)
Theorem C09_variant_mangling_not_idempotent :
  (exists s, asn_identifier s = true /\ rust_variant_name (rust_variant_name s) <> rust_variant_name s) /\
  (exists s, asn_typereference s = true /\ rust_struct_or_enum_name (rust_struct_or_enum_name s) <> rust_struct_or_enum_name s) /\
  rust_variant_name (codes "a-b") = codes "AB" /\ rust_variant_name (codes "AB") = codes "Ab" /\
  rust_struct_or_enum_name (codes "Route-T-A") = codes "RouteTA" /\ rust_struct_or_enum_name (codes "RouteTA") = codes "RouteTa".
Proof.
  split; [|split; [|repeat split; vm_compute; reflexivity]].
  - exists (codes "a-b"). split; [reflexivity|]. vm_compute. intros H. discriminate H.
  - exists (codes "Route-T-A"). split; [reflexivity|]. vm_compute. intros H. discriminate H.
Qed.

Theorem C09_variant_mangling_fixed_points : forall s, rust_variant_name s = s <-> variant_stable s = true.
Proof. exact variant_stable_iff. Qed.

(* so: mangling a second time is harmless exactly for the names whose first mangling is stable *)
Theorem C09_variant_mangling_idempotent_iff : forall s,
  rust_variant_name (rust_variant_name s) = rust_variant_name s <-> variant_stable (rust_variant_name s) = true.
Proof. intros s. apply variant_stable_iff. Qed.

Example C09_nonvacuous_no_collision :
  let fields := [codes "type"; codes "my-field"; codes "typeX"] in
  Forall (fun s => asn_identifier s = true) fields /\ distinct_after_mangling rust_field_name fields /\
  map emit_field fields = [codes "type_"; codes "my_field"; codes "type_x"].
Proof.
  cbv zeta. split; [repeat constructor|]. split; [|vm_compute; reflexivity].
  unfold distinct_after_mangling. vm_compute.
  repeat (constructor; [intros H; cbn in H; repeat (destruct H as [H|H]; [discriminate H|]); exact H|]). constructor.
Qed.

Example C09_nonvacuous_consts_typed :
  int_wf IntTy.U8 (Some 0%Z) (Some 255%Z) /\ ~ Known_C09_const_negative_on_unsigned IntTy.U8 8%Z /\
  ~ Known_C09_const_out_of_constraint (Some 0%Z) (Some 255%Z) 8%Z.
Proof.
  split; [|split].
  - repeat split; [intros a [= <-] | intros b [= <-] | intros [[=]|[=]]]; cbn; discriminate.
  - intros [_ [=]].
  - intros [(a & [= <-] & [=]) | (b & [= <-] & [=])].
Qed.

Print Assumptions C09_field_idents_legal.
Print Assumptions C09_no_collision.
Print Assumptions C09_variant_mangling_not_idempotent.
Print Assumptions C09_variant_mangling_fixed_points.
Print Assumptions C09_variant_mangling_idempotent_iff.
Print Assumptions C09_field_name_no_trailing_underscore.
Print Assumptions C09_consts_typed_partial.
Print Assumptions C09_const_declared_type.
Print Assumptions C09_const_on_extension_addition_fixed.
Print Assumptions C09_refuted_const_negative_on_unsigned.
Print Assumptions C09_keywords_complete.
Print Assumptions C09_keywords_complete_identifier.
Print Assumptions C09_keywords_escaped.
Print Assumptions C09_variant_idents_legal.
Print Assumptions C09_type_idents_legal.
Print Assumptions C09_refuted_variant_Self.
Print Assumptions C09_mangle_collision_refuted.
