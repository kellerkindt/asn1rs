(* C10 proofs: the model of the PER primitives (Per/Prim.v) against the clause-by-clause
   X.691 reference (Per/X691.v): writers produce the reference bit pattern, readers invert
   it consuming exactly those bits, inadmissible arguments are errors; both cargo profiles.
   Then: no primitive panics ([np] with its hint database, used by the DER and UPER layers too), and
   the two basic reads [r_bit] / [r_bits_into] stay within the declared length ([adv]; the same of every
   primitive is [pos_le_len] of Uper/TotalProofs.v).  The finding classes [Known_C10_*] stand here because
   Uper/Spec.v builds [Known_C01] on them.

   The notions in which Props/C10.v and the UPER layer state their theorems are declared where the proofs
   first need them. In file order:
     [bl w]             the number of bits of [w], as an [N];
     [nn_bounded lb ub] at least one bound is given (the bounded form of the non-negative-binary-integer);
     [at_src s w tail]  [s] has [w ++ tail] left to read, and [w] ends inside its declared length and slice;
     [reads r w v]      from every source at [w] the reader [r] answers [v], having consumed exactly [w];
     [codec e x w r v]  writer, refusal and reader of one primitive as one fact;
     [twos_bits k v], [fits k v]  the [k]-bit 2's-complement pattern of [v]; [v] has one;
     [frag_of v], [len_frag ub v], [len_result ub v]  the fragment size that the length writer reports beside
                        its bits; the count that the length reader answers (from 16K on: the first fragment's);
     [Known_C10_length_semi_or_large_bound] (F10-1), [Known_C10_sized_length] (F10-1 under a size constraint),
     [sized_root] (the forms of a sized run inside the root), [Known_C10_bitstring_16k] (F10-2);
     [np r]             [r] is not a panic;
     [rem s], [adv s n s']  the bits left up to the declared length; a read of [n] of them led from [s] to [s']. *)
From A1 Require Import Per.Prim Per.X691.
From A1 Require Import Base.ListFacts Bits.Proofs.
Local Open Scope N_scope.

Definition bl (w : bits) : N := N.of_nat (length w).

Lemma bl_app a b : bl (a ++ b) = bl a + bl b.
Proof. unfold bl. rewrite app_length. lia. Qed.
Lemma bl_cons a b : bl (a :: b) = 1 + bl b.
Proof. unfold bl. cbn [length]. lia. Qed.
Lemma bl_nil : bl [] = 0. Proof. reflexivity. Qed.
Lemma bl_0_nil (l : bits) : bl l = 0 -> l = [].
Proof. destruct l; [reflexivity|rewrite bl_cons; lia]. Qed.
Lemma bl_firstn (l : bits) k : k <= bl l -> bl (firstn (N.to_nat k) l) = k.
Proof. unfold bl. intros H. rewrite firstn_length. lia. Qed.
Lemma bl_skipn (l : bits) k : bl (skipn (N.to_nat k) l) = bl l - k.
Proof. unfold bl. rewrite skipn_length. lia. Qed.

Lemma bov_length k x : length (bits_of_val k x) = k.
Proof. induction k as [|k IH]; cbn [bits_of_val length]; congruence. Qed.

Lemma bov_skipn a k x : skipn a (bits_of_val (a + k) x) = bits_of_val k x.
Proof. induction a as [|a IH]; [reflexivity|]. cbn [plus bits_of_val skipn]. exact IH. Qed.

Lemma bov_mod k x : bits_of_val k (x mod 2 ^ N.of_nat k) = bits_of_val k x.
Proof.
  assert (G : forall j, (j <= k)%nat -> bits_of_val j (x mod 2 ^ N.of_nat k) = bits_of_val j x).
  { induction j as [|j IH]; intros Hj; [reflexivity|].
    cbn [bits_of_val]. rewrite IH by lia. f_equal.
    apply N.mod_pow2_bits_low. lia. }
  apply G. lia.
Qed.

Lemma vob_acc l a :
  fold_left (fun a b => 2 * a + b2n b) l a = a * 2 ^ bl l + val_of_bits l.
Proof.
  unfold val_of_bits. revert a. induction l as [|b l IH]; intros a.
  - cbn. lia.
  - cbn [fold_left]. rewrite IH, (IH (2 * 0 + b2n b)), bl_cons, N.add_1_l, N.pow_succ_r'. lia.
Qed.

Lemma vob_cons b l : val_of_bits (b :: l) = b2n b * 2 ^ bl l + val_of_bits l.
Proof. unfold val_of_bits at 1. cbn [fold_left]. rewrite vob_acc. lia. Qed.

Lemma vob_app l1 l2 : val_of_bits (l1 ++ l2) = val_of_bits l1 * 2 ^ bl l2 + val_of_bits l2.
Proof. unfold val_of_bits at 1. rewrite fold_left_app. fold (val_of_bits l1). apply vob_acc. Qed.

Lemma vob_lt l : val_of_bits l < 2 ^ bl l.
Proof.
  induction l as [|b l IH]; [cbn; lia|].
  rewrite vob_cons, bl_cons, N.add_1_l, N.pow_succ_r'. destruct b; cbn [b2n]; lia.
Qed.

Lemma vob_bov k x : val_of_bits (bits_of_val k x) = x mod 2 ^ N.of_nat k.
Proof.
  induction k as [|k IH].
  - cbn. rewrite N.mod_1_r. reflexivity.
  - cbn [bits_of_val]. rewrite vob_cons, IH. unfold bl. rewrite bov_length.
    replace (N.of_nat (S k)) with (N.succ (N.of_nat k)) by lia.
    rewrite N.pow_succ_r'.
    assert (2 ^ N.of_nat k <> 0) as Hp by (apply N.pow_nonzero; lia).
    rewrite (N.mul_comm 2). rewrite N.mod_mul_r by lia.
    change (b2n (N.testbit x (N.of_nat k))) with (N.b2n (N.testbit x (N.of_nat k))).
    rewrite N.testbit_spec'. lia.
Qed.

Lemma vob_bov_small k x : x < 2 ^ N.of_nat k -> val_of_bits (bits_of_val k x) = x.
Proof. intros H. rewrite vob_bov. apply N.mod_small, H. Qed.

Lemma bov_vob l : bits_of_val (length l) (val_of_bits l) = l.
Proof.
  induction l as [|b l IH]; [reflexivity|].
  cbn [length bits_of_val]. rewrite vob_cons. f_equal.
  - unfold bl. pose proof (vob_lt l) as Hl. unfold bl in Hl.
    set (p := 2 ^ N.of_nat (length l)) in *.
    apply eq_true_iff_eq. rewrite N.testbit_true.
    assert (p <> 0) by (apply N.pow_nonzero; lia).
    rewrite N.div_add_l by lia. rewrite (N.div_small (val_of_bits l)) by lia.
    destruct b; cbn; split; intros; try reflexivity; try discriminate.
  - rewrite <- (bov_mod (length l)). unfold bl.
    rewrite N.add_comm, N.mod_add by (apply N.pow_nonzero; lia).
    rewrite bov_mod. exact IH.
Qed.

Lemma skip_lz64 r x : r < two64 ->
  skipn (N.to_nat (lz64 r)) (bits64 x) = field (nbits r) x.
Proof.
  intros Hr. pose proof (size_le_of_lt r 64 Hr) as Hs.
  unfold bits64, field, nbits, lz64.
  replace 64%nat with (N.to_nat (64 - N.size r) + N.to_nat (N.size r))%nat by lia.
  apply bov_skipn.
Qed.

Lemma skip_bits64 k x : (k <= 64)%nat -> skipn (64 - k) (bits64 x) = bits_of_val k x.
Proof.
  intros Hk. unfold bits64. replace 64%nat with ((64 - k) + k)%nat at 2 by lia.
  apply bov_skipn.
Qed.

Lemma field_length k x : bl (field k x) = k.
Proof. unfold bl, field. rewrite bov_length. lia. Qed.

Lemma vob_field k n : n < 2 ^ k -> val_of_bits (field k n) = n.
Proof. intros H. unfold field. apply vob_bov_small. rewrite N2Nat.id. exact H. Qed.


Definition nn_bounded (lb ub : option N) : Prop := lb <> None \/ ub <> None.

Lemma w_nnbi_bounded_eq m lb ub v : nn_bounded lb ub ->
  w_nnbi m lb ub v =
  (let lower := opt_or lb 0 in let upper := opt_or ub I64_MAX in
   if (v <? lower) || (upper <? v) then Err E_VALUE_RANGE else
   let! range := usub m upper lower in
   let! x := usub m v lower in
   Ok (skipn (N.to_nat (lz64 range)) (bits64 x))).
Proof. intros Hb. destruct lb, ub; try reflexivity. destruct Hb; congruence. Qed.

Lemma w_nnbi_bounded m lb ub v :
  nn_bounded lb ub -> opt_or ub I64_MAX < two64 ->
  opt_or lb 0 <= v <= opt_or ub I64_MAX ->
  w_nnbi m lb ub v = Ok (field (nbits (opt_or ub I64_MAX - opt_or lb 0)) (v - opt_or lb 0)).
Proof.
  intros Hb Hu Hv. rewrite (w_nnbi_bounded_eq m lb ub v Hb). cbv zeta.
  replace ((v <? opt_or lb 0) || (opt_or ub I64_MAX <? v)) with false by lia.
  rewrite !usub_ok by lia. cbn [bind].
  rewrite skip_lz64 by lia. reflexivity.
Qed.

Lemma w_nnbi_reject m lb ub v :
  nn_bounded lb ub -> v < opt_or lb 0 \/ opt_or ub I64_MAX < v ->
  w_nnbi m lb ub v = Err E_VALUE_RANGE.
Proof.
  intros Hb Hv. rewrite (w_nnbi_bounded_eq m lb ub v Hb). cbv zeta.
  replace ((v <? opt_or lb 0) || (opt_or ub I64_MAX <? v)) with true by lia. reflexivity.
Qed.

Lemma noctets_alt v : v < two64 -> 8 - N.min (lz64 v / 8) 7 = noctets v.
Proof. intros Hv. apply (u64_octets v Hv). Qed.

Lemma noctets_range v : v < two64 -> 1 <= noctets v <= 8 /\ v < 2 ^ (8 * noctets v).
Proof. intros Hv. rewrite <- (noctets_alt v Hv). apply (u64_octets v Hv). Qed.

Lemma x_len_short_small n : n <= 127 -> x_len_short n = false :: field 7 n.
Proof. intros H. unfold x_len_short. destruct (N.leb_spec n 127); [reflexivity|lia]. Qed.

Lemma w_nnbi_unbounded m v : v < two64 ->
  w_nnbi m None None v = Ok (x_len_short (noctets v) ++ field (8 * noctets v) v).
Proof.
  intros Hv. cbn [w_nnbi]. destruct (noctets_range v Hv) as [Hr _].
  rewrite noctets_alt by exact Hv.
  rewrite x_len_short_small by lia.
  assert (E1 : skipn 57 (bits64 (noctets v)) = field 7 (noctets v)) by (apply (skip_bits64 7); lia).
  assert (E2 : skipn (N.to_nat (8 * N.min (lz64 v / 8) 7)) (bits64 v) = field (8 * noctets v) v).
  { rewrite <- (noctets_alt v Hv).
    set (o := N.min (lz64 v / 8) 7).
    replace (N.to_nat (8 * o)) with (64 - N.to_nat (8 * (8 - o)))%nat by lia.
    apply skip_bits64. lia. }
  rewrite E1, E2. reflexivity.
Qed.

(* Only [s_rest] says what is left to read: that it is the slice [s_all] from [s_pos] on is [src_inv] of
   Uper/TotalProofs.v, which no statement about a single primitive needs. *)
Definition at_src (s : src) (w tail : bits) : Prop :=
  s_rest s = w ++ tail /\ s_pos s + bl w <= s_len s /\ s_pos s + bl w <= s_total s.

Lemma src_adv_adv s a b r1 r2 : src_adv (src_adv s a r1) b r2 = src_adv s (a + b) r2.
Proof. unfold src_adv. cbn. f_equal. lia. Qed.
Lemma src_adv_0 s : src_adv s 0 (s_rest s) = s.
Proof. destruct s. unfold src_adv. cbn. f_equal. lia. Qed.

Lemma at_src_split s w1 w2 tail :
  at_src s (w1 ++ w2) tail ->
  at_src s w1 (w2 ++ tail) /\ at_src (src_adv s (bl w1) (w2 ++ tail)) w2 tail.
Proof.
  unfold at_src. rewrite bl_app, <- app_assoc. intros (E & L & T). unfold src_adv; cbn [s_pos s_len s_total s_rest]. repeat split; try assumption; try reflexivity; lia.
Qed.

Lemma r_bits_into_ok s w tail dst doff n :
  at_src s w tail -> n = bl w -> doff + n <= dst ->
  r_bits_into s dst doff n = Ok (w, src_adv s n tail).
Proof.
  intros (E & L & T) -> Hd. unfold r_bits_into.
  destruct (N.ltb_spec (s_len s - s_pos s) (bl w)); [lia|].
  destruct (N.ltb_spec dst (doff + bl w)); [lia|].
  destruct (N.ltb_spec (s_total s - s_pos s) (bl w)); [lia|].
  rewrite E. unfold bl. rewrite Nat2N.id.
  rewrite firstn_app, skipn_app, Nat.sub_diag, firstn_all, skipn_all. cbn [firstn skipn app].
  rewrite app_nil_r. reflexivity.
Qed.

Lemma r_bits_ok s w tail n :
  at_src s w tail -> n = bl w -> r_bits s n = Ok (w, src_adv s n tail).
Proof. intros H E. unfold r_bits. apply r_bits_into_ok; auto. lia. Qed.

Lemma r_bit_ok s b tail : at_src s [b] tail -> r_bit s = Ok (b, src_adv s 1 tail).
Proof.
  intros (E & L & T). unfold r_bit. change (bl [b]) with 1 in *.
  destruct (N.ltb_spec (s_pos s) (s_len s)); [|lia]. rewrite E. reflexivity.
Qed.


(* a reader statement without source and tail; [reads_bind] composes two over [w1 ++ w2] *)
Definition reads {A} (r : src -> res (A * src)) (w : bits) (v : A) : Prop :=
  forall s tail, at_src s w tail -> r s = Ok (v, src_adv s (bl w) tail).

(* turns a goal written out pointwise into one that the rules below apply to *)
Lemma reads_intro {A} (r : src -> res (A * src)) w v :
  reads r w v -> forall s tail, at_src s w tail -> r s = Ok (v, src_adv s (bl w) tail).
Proof. intros H. exact H. Qed.


Lemma reads_bind {A B} (r : src -> res (A * src)) (f : A -> src -> res (B * src)) w1 w2 a b :
  reads r w1 a -> reads (f a) w2 b ->
  reads (fun s => let! (x, s') := r s in f x s') (w1 ++ w2) b.
Proof.
  intros H1 H2 s tail Hs. apply at_src_split in Hs. destruct Hs as [Hs1 Hs2].
  rewrite (H1 _ _ Hs1). cbn [bind]. rewrite (H2 _ _ Hs2), src_adv_adv, bl_app. reflexivity.
Qed.

Lemma reads_map {A B} (r : src -> res (A * src)) (g : A -> B) w a :
  reads r w a -> reads (fun s => let! (x, s') := r s in Ok (g x, s')) w (g a).
Proof. intros H s tail Hs. rewrite (H _ _ Hs). reflexivity. Qed.

Lemma reads_bit {B} (f : bool -> src -> res (B * src)) b w v :
  reads (f b) w v -> reads (fun s => let! (x, s') := r_bit s in f x s') (b :: w) v.
Proof. apply (reads_bind r_bit f [b]). intros s tail. apply r_bit_ok. Qed.

Lemma reads_bits n w : bl w = n -> reads (fun s => r_bits s n) w w.
Proof. intros <- s tail Hs. apply r_bits_ok; [exact Hs|reflexivity]. Qed.

Lemma reads_nil {A} (v : A) : reads (fun s => Ok (v, s)) [] v.
Proof. intros s tail (E & _). cbn [app] in E. rewrite <- E, bl_nil, src_adv_0. reflexivity. Qed.

Lemma reads_field {B} (g : N -> B) dst doff k n : doff + k <= dst -> n < 2 ^ k ->
  reads (fun s => let! (bs, s') := r_bits_into s dst doff k in Ok (g (val_of_bits bs), s')) (field k n) (g n).
Proof.
  intros Hd Hn s tail Hs.
  rewrite (r_bits_into_ok s _ tail dst doff k Hs), field_length by (rewrite ?field_length; auto).
  cbn [bind]. rewrite vob_field by exact Hn. reflexivity.
Qed.

(* One fact per primitive: the writer's outcome [w] is what the reference [x] prescribes -- its bits,
   or a refusal with [e] where there is nothing to encode -- and the reader [r] gets [v] back from
   those bits. "Writer = reference", "inadmissible arguments are refused" and the round trip are its
   projections; [codec_inv] is the form the UPER layer asks for (what the writer wrote is read back).
   It does not fit 2's complement (two error kinds), the length determinant (the writer answers a
   pair) or the OCTET / BIT STRING (the writer half holds for more lengths than the reader half, which
   allocates): these keep separate writer and reader lemmas. *)
Definition codec {V} (e : N) (x : option bits) (w : res bits) (r : src -> res (V * src)) (v : V) : Prop :=
  match x with Some bs => w = Ok bs /\ reads r bs v | None => w = Err e end.

Lemma codec_write {V} e x w (r : src -> res (V * src)) v :
  codec e x w r v -> w = match x with Some bs => Ok bs | None => Err e end.
Proof. destruct x; [intros [E _]; exact E|auto]. Qed.

Lemma codec_ok {V} e x w (r : src -> res (V * src)) v :
  codec e x w r v -> x <> None -> exists bs, w = Ok bs /\ x = Some bs.
Proof. destruct x as [bs|]; [intros [E _] _; eauto|congruence]. Qed.

Lemma codec_read {V} e x w (r : src -> res (V * src)) v bs : codec e x w r v -> x = Some bs -> reads r bs v.
Proof. intros H ->. apply H. Qed.

Lemma codec_inv {V} e x w (r : src -> res (V * src)) v bs : codec e x w r v -> w = Ok bs -> reads r bs v.
Proof. destruct x; cbn [codec]; [intros [-> R] E; injection E as <-; exact R|congruence]. Qed.

Arguments codec_write {V e x w r v}.
Arguments codec_ok {V e x w r v}.
Arguments codec_read {V e x w r v bs}.
Arguments codec_inv {V e x w r v bs}.

Lemma codec_bit {V} e x w (f : bool -> src -> res (V * src)) v b :
  codec e x w (f b) v ->
  codec e (option_map (cons b) x) (let! bs := w in Ok (b :: bs)) (fun s => let! (c, s') := r_bit s in f c s') v.
Proof.
  destruct x; cbn [codec option_map]; [intros [-> R]; split; [reflexivity|apply reads_bit, R]|intros ->; reflexivity].
Qed.

Lemma codec_map {V U} e x w (r : src -> res (V * src)) (g : V -> U) a b : g a = b ->
  codec e x w r a -> codec e x w (fun s => let! (c, s') := r s in Ok (g c, s')) b.
Proof. intros <-. destruct x; cbn [codec]; [intros [E R]; split; [exact E|apply reads_map, R]|auto]. Qed.

Lemma r_nnbi_bounded_eq m lb ub : nn_bounded lb ub ->
  r_nnbi m lb ub = fun s =>
    let lower := opt_or lb 0 in
    let offset_bits := lz64 (opt_or ub I64_MAX - lower) in
    let! (bs, s) := r_bits_into s 64 offset_bits (64 - offset_bits) in
    let! v := uadd m lower (val_of_bits bs) in
    Ok (v, s).
Proof. intros Hb. destruct lb, ub; try reflexivity. destruct Hb; congruence. Qed.

Lemma r_nnbi_bounded m lb ub v :
  nn_bounded lb ub -> opt_or ub I64_MAX < two64 ->
  opt_or lb 0 <= v <= opt_or ub I64_MAX ->
  reads (r_nnbi m lb ub) (field (nbits (opt_or ub I64_MAX - opt_or lb 0)) (v - opt_or lb 0)) v.
Proof.
  intros Hb Hu Hv. rewrite (r_nnbi_bounded_eq m lb ub Hb). cbv zeta.
  set (lower := opt_or lb 0) in *. set (range := opt_or ub I64_MAX - lower).
  assert (Hsz : N.size range <= 64) by (apply size_le_of_lt; change (2 ^ 64) with two64; unfold range; lia).
  intros s tail Hs. cbv beta.
  rewrite (r_bits_into_ok s _ tail 64 _ _ Hs), field_length by (rewrite ?field_length; unfold nbits, lz64; lia).
  cbn [bind]. rewrite vob_field by (eapply N.le_lt_trans; [|apply N.size_gt]; lia).
  rewrite uadd_ok by lia. cbn [bind]. do 3 f_equal; unfold nbits, lz64; lia.
Qed.

Lemma r_len_unc_short n : n <= 127 -> reads r_length_determinant_unc (false :: field 7 n) n.
Proof. intros Hn. apply reads_bit. cbn [negb]. apply (reads_field (fun x => x)); cbn; lia. Qed.

Lemma r_nnbi_unbounded m v : v < two64 ->
  reads (r_nnbi m None None) (x_len_short (noctets v) ++ field (8 * noctets v) v) v.
Proof.
  intros Hv. destruct (noctets_range v Hv) as [Hr Hlt]. rewrite x_len_short_small by lia.
  eapply (reads_bind r_length_determinant_unc); [apply r_len_unc_short; lia|].
  destruct (N.leb_spec (noctets v) 8); [|lia].
  apply (reads_field (fun x => x)); [lia|exact Hlt].
Qed.

(* the offset of [v] above [lb] as the u64 the writers emit, and the readers' wrapping add
   of that u64 back onto [lb]: as i64 it is off by 0 or by 2^64 *)
Lemma offset_u64 lb v : is_i64 lb -> is_i64 v -> (lb <= v)%Z ->
  let x := Z.to_N (v - lb) in
  u64_of_i64 (v - lb) = x /\ x < two64 /\ iwrap (lb + i64_of_u64 x) = v.
Proof.
  intros Hl Hv Hle x. pose proof Hv as Hv'. unfold is_i64 in Hl, Hv'. rewrite Ztwo63 in Hl, Hv'.
  assert (Hx : Z.of_N x = (v - lb)%Z) by (unfold x; lia).
  split; [apply u64_of_i64_nonneg; rewrite Ztwo64; lia|]. split; [unfold two64; lia|].
  destruct (i64_of_u64_cong x) as [q ->].
  replace (lb + (Z.of_N x + q * Z.of_N two64))%Z with (v + q * Z.of_N two64)%Z by lia.
  unfold iwrap. rewrite u64_of_i64_shift. apply u64_i64_roundtrip, Hv.
Qed.

Lemma x_constrained_N l u v :
  x_constrained (Z.of_N l) (Z.of_N u) (Z.of_N v) =
  if (l <=? v) && (v <=? u) then Some (field (nbits (u - l)) (v - l)) else None.
Proof.
  unfold x_constrained.
  replace ((Z.of_N l <=? Z.of_N v) && (Z.of_N v <=? Z.of_N u))%Z with ((l <=? v) && (v <=? u)) by lia.
  destruct (_ && _) eqn:G; [|reflexivity]. do 3 f_equal; lia.
Qed.

Lemma nnbi_codec m lb ub v : nn_bounded lb ub -> opt_or ub I64_MAX < two64 ->
  codec E_VALUE_RANGE (x_constrained (Z.of_N (opt_or lb 0)) (Z.of_N (opt_or ub I64_MAX)) (Z.of_N v))
    (w_nnbi m lb ub v) (r_nnbi m lb ub) v.
Proof.
  intros Hb Hu. rewrite x_constrained_N. destruct (_ && _) eqn:G; cbn [codec].
  - split; [apply w_nnbi_bounded|apply r_nnbi_bounded]; auto; lia.
  - apply w_nnbi_reject; [exact Hb|lia].
Qed.

Lemma nnbi_upto_codec m u v : v <= u -> u < two64 ->
  codec E_VALUE_RANGE (Some (field (nbits u) v)) (w_nnbi m None (Some u) v) (r_nnbi m None (Some u)) v.
Proof.
  intros Hv Hu. pose proof (nnbi_codec m None (Some u) v) as C.
  rewrite x_constrained_N in C. cbn [opt_or] in C. replace ((0 <=? v) && (v <=? u)) with true in C by lia.
  rewrite !N.sub_0_r in C. apply C; [right; discriminate|exact Hu].
Qed.

Lemma w_nnbi_upto m u v : v <= u -> u < two64 -> w_nnbi m None (Some u) v = Ok (field (nbits u) v).
Proof. intros Hv Hu. apply (nnbi_upto_codec m u v Hv Hu). Qed.

Lemma nnbi_unbounded_codec m v : v < two64 ->
  codec E_VALUE_RANGE (Some (x_len_short (noctets v) ++ field (8 * noctets v) v))
    (w_nnbi m None None v) (r_nnbi m None None) v.
Proof. intros Hv. split; [apply w_nnbi_unbounded|apply r_nnbi_unbounded]; exact Hv. Qed.

Lemma constrained_codec m lb ub v : is_i64 lb -> is_i64 ub ->
  codec E_VALUE_RANGE (x_constrained lb ub v) (w_constrained m lb ub v) (r_constrained m lb ub) v.
Proof.
  intros Hl Hu. unfold x_constrained, w_constrained, r_constrained.
  destruct (Z.leb_spec lb v) as [L|L]; [destruct (Z.leb_spec v ub) as [U|U]|]; cbn [andb];
    [replace ((v <? lb) || (ub <? v))%Z with false by lia
    |replace ((v <? lb) || (ub <? v))%Z with true by lia; reflexivity..].
  assert (Hvi : is_i64 v) by (unfold is_i64 in *; lia).
  destruct (offset_u64 lb ub Hl Hu ltac:(lia)) as (-> & Hr & _).
  destruct (offset_u64 lb v Hl Hvi L) as (-> & Hvr & Ew). cbv zeta in *.
  set (range := Z.to_N (ub - lb)) in *. set (x := Z.to_N (v - lb)) in *.
  destruct (N.ltb_spec 0 range) as [Hp|Hz].
  - apply (codec_map _ _ _ _ (fun n => iwrap (lb + i64_of_u64 n)) x v Ew), nnbi_upto_codec; lia.
  - replace range with 0 by lia. replace v with lb by lia. split; [reflexivity|apply reads_nil].
Qed.

Lemma constrained_reject m lb ub v :
  (v < lb \/ ub < v)%Z -> w_constrained m lb ub v = Err E_VALUE_RANGE.
Proof.
  intros H. unfold w_constrained. replace ((v <? lb) || (ub <? v))%Z with true by lia. reflexivity.
Qed.

Lemma constrained_reject_x lb ub v : (v < lb \/ ub < v)%Z -> x_constrained lb ub v = None.
Proof.
  intros H. unfold x_constrained. replace ((lb <=? v) && (v <=? ub))%Z with false by lia. reflexivity.
Qed.

Lemma normally_small_codec m v : v < two64 ->
  codec E_VALUE_RANGE (Some (x_normally_small v)) (w_normally_small m v) (r_normally_small m) v.
Proof.
  intros Hv. unfold w_normally_small, x_normally_small, r_normally_small, SMALL_NON_NEGATIVE_NUMBER.
  destruct (N.leb_spec 64 v); destruct (N.leb_spec v 63); try lia.
  - apply (codec_bit _ (Some _) _ (fun big s => if big then _ else _) v true), nnbi_unbounded_codec, Hv.
  - apply (codec_bit _ (Some _) _ (fun big s => if big then _ else _) v false), (nnbi_upto_codec m 63 v);
      [assumption|reflexivity].
Qed.

Lemma normally_small_write m v : v < two64 -> w_normally_small m v = Ok (x_normally_small v).
Proof. intros Hv. apply (normally_small_codec m v Hv). Qed.

Lemma semi_constrained_reject m lb v : (v < lb)%Z ->
  w_semi_constrained m lb v = Err E_VALUE_RANGE /\ x_semi_constrained lb v = None.
Proof.
  intros H. unfold w_semi_constrained, x_semi_constrained.
  replace (v <? lb)%Z with true by lia. replace (lb <=? v)%Z with false by lia. auto.
Qed.

Lemma semi_constrained_codec m lb v : is_i64 lb -> is_i64 v ->
  codec E_VALUE_RANGE (x_semi_constrained lb v) (w_semi_constrained m lb v) (r_semi_constrained m lb) v.
Proof.
  intros Hl Hv. unfold x_semi_constrained, w_semi_constrained, r_semi_constrained.
  destruct (Z.leb_spec lb v) as [L|L];
    [replace (v <? lb)%Z with false by lia|replace (v <? lb)%Z with true by lia; reflexivity].
  destruct (offset_u64 lb v Hl Hv L) as (-> & Hr & Ew). cbv zeta in *. rewrite (Z.add_comm lb) in Ew.
  apply (codec_map _ _ _ _ (fun n => iwrap (i64_of_u64 n + lb)) _ v Ew), nnbi_unbounded_codec, Hr.
Qed.

Lemma Zpow_N k : (2 ^ Z.of_N k)%Z = Z.of_N (2 ^ k).
Proof. rewrite N2Z.inj_pow. reflexivity. Qed.

Lemma pow2_pos k : 0 < 2 ^ k.
Proof. apply N.neq_0_lt_0, N.pow_nonzero. lia. Qed.

Lemma pow2_succ k : 0 < k -> 2 ^ k = 2 * 2 ^ (k - 1).
Proof. intros H. rewrite <- N.pow_succ_r'. f_equal. lia. Qed.

(* the reference's [twos_field o v] (X691.v) is [twos_bits (8 * o) v] by conversion *)
Definition twos_bits (k : N) (v : Z) : bits := field k (Z.to_N (v mod 2 ^ Z.of_N k)).

Definition fits (k : N) (v : Z) : Prop := (- 2 ^ (Z.of_N k - 1) <= v < 2 ^ (Z.of_N k - 1))%Z.

Lemma fits_N k v : 0 < k -> fits k v <-> (- Z.of_N (2 ^ (k - 1)) <= v < Z.of_N (2 ^ (k - 1)))%Z.
Proof.
  intros Hk. unfold fits. replace (Z.of_N k - 1)%Z with (Z.of_N (k - 1)) by lia. rewrite Zpow_N. tauto.
Qed.

Lemma mod_pow_dvd x a b : a <= b -> (x mod 2 ^ b) mod 2 ^ a = x mod 2 ^ a.
Proof.
  intros H. replace b with (a + (b - a)) by lia. rewrite N.pow_add_r.
  rewrite N.mod_mul_r by (apply N.pow_nonzero; lia).
  rewrite (N.mul_comm (2 ^ a)), N.mod_add by (apply N.pow_nonzero; lia).
  apply N.mod_mod. apply N.pow_nonzero. lia.
Qed.

Lemma u64_mod_pow v k : k <= 64 ->
  u64_of_i64 v mod 2 ^ k = Z.to_N (v mod 2 ^ Z.of_N k).
Proof.
  intros Hk. assert (Hp := pow2_pos k). assert (Hq := pow2_pos (64 - k)). rewrite Zpow_N.
  apply N2Z.inj. rewrite N2Z.inj_mod, u64_of_i64_Z, Z2N.id by (apply Z.mod_pos_bound; lia).
  change two64 with (2 ^ 64). replace (2 ^ 64) with (2 ^ k * 2 ^ (64 - k)) by (rewrite <- N.pow_add_r; f_equal; lia).
  rewrite N2Z.inj_mul. apply mod_mod_mul; lia.
Qed.

Lemma twos_write m k v : 1 <= k <= 64 -> fits k v ->
  w_2s_compliment m k v = Ok (twos_bits k v).
Proof.
  intros Hk Hf. unfold w_2s_compliment, fits in *.
  replace ((k =? 0) || (64 <? k)) with false by lia.
  replace ((- 2 ^ (Z.of_N k - 1) <=? v) && (v <? 2 ^ (Z.of_N k - 1)))%Z with true by lia. cbn [negb].
  unfold w_bits_ol, bits64. rewrite bov_length.
  destruct (N.ltb_spec (N.of_nat 64) (64 - k + k)); [lia|].
  replace (N.to_nat (64 - k)) with (64 - N.to_nat k)%nat by lia.
  fold (bits64 (u64_of_i64 v)). rewrite skip_bits64 by lia.
  rewrite firstn_all2 by (rewrite bov_length; lia).
  unfold twos_bits, field. rewrite <- u64_mod_pow by lia.
  rewrite <- (bov_mod (N.to_nat k) (u64_of_i64 v)), N2Nat.id. reflexivity.
Qed.

Lemma hd_vob (l : bits) : 0 < bl l -> hd false l = (2 ^ (bl l - 1) <=? val_of_bits l).
Proof.
  destruct l as [|b l]; [rewrite bl_nil; lia|intros _].
  rewrite vob_cons, bl_cons. replace (1 + bl l - 1) with (bl l) by lia.
  pose proof (vob_lt l). destruct b; cbn [hd b2n]; lia.
Qed.

(* the [k]-bit pattern of a fitting [v] as a number: [v] itself, or [v + 2^k] with the top bit
   set. The quotients and conversions are named before [lia] sees them: left in, they make
   the proof many times dearer to check *)
Lemma twos_val k v : 0 < k -> fits k v ->
  let y := Z.to_N (v mod 2 ^ Z.of_N k) in
  y < 2 ^ k /\ (if (2 ^ (k - 1) <=? y)%N then Z.of_N y - 2 ^ Z.of_N k else Z.of_N y)%Z = v.
Proof.
  intros Hk Hf y. apply fits_N in Hf; [|exact Hk]. unfold y. clear y.
  assert (Hp := pow2_pos (k - 1)). rewrite Zpow_N, (pow2_succ k Hk).
  set (h := 2 ^ (k - 1)) in *. clearbody h. clear Hk k.
  assert (Em : (v mod Z.of_N (2 * h) = if v <? 0 then v + Z.of_N (2 * h) else v)%Z).
  { destruct (Z.ltb_spec v 0).
    - symmetry. apply Z.mod_unique with (q := (-1)%Z); lia.
    - apply Z.mod_small. lia. }
  set (t := (v mod Z.of_N (2 * h))%Z) in *. clearbody t.
  assert (Ey : Z.of_N (Z.to_N t) = t) by (apply Z2N.id; destruct (Z.ltb_spec v 0); lia).
  set (y := Z.to_N t) in *. clearbody y.
  destruct (Z.ltb_spec v 0); destruct (N.leb_spec h y); lia.
Qed.

Lemma twos_read k v s tail : 1 <= k <= 64 -> fits k v ->
  at_src s (twos_bits k v) tail ->
  r_2s_compliment k s = Ok (v, src_adv s k tail).
Proof.
  intros Hk Hf Hs. unfold r_2s_compliment. replace ((k =? 0) || (64 <? k)) with false by lia.
  assert (Hbl : bl (twos_bits k v) = k) by apply field_length.
  rewrite (r_bits_into_ok _ _ _ 64 (64 - k) k Hs) by lia. cbn [bind].
  destruct (twos_val k v ltac:(lia) Hf) as (Hy & Ev). unfold twos_bits. set (y := Z.to_N _) in *.
  rewrite hd_vob by (rewrite field_length; lia). rewrite field_length, vob_field by exact Hy.
  rewrite Ev. reflexivity.
Qed.

(* write_length_determinant(None, None, v) answers, beside the bits, the size of the fragment it announced:
   none below 16K, else min(v / 16K, 4) blocks of 16K *)
Definition frag_of (v : N) : option N :=
  if v <? 16384 then None else Some (N.min (v / 16384) 4 * 16384).

Lemma w_len_unc m v : w_length_determinant m None None v = Ok (x_len_first v, frag_of v).
Proof.
  unfold w_length_determinant, x_len_first, x_len_short, frag_of, LENGTH_127, LENGTH_16K, LENGTH_64K, MAX_FRAGMENTS.
  cbn [is_some orb andb opt_or].
  destruct (N.leb_spec v 127) as [H1|H1].
  - rewrite w_nnbi_upto by (lia || reflexivity). destruct (N.ltb_spec v 16384); [|lia]. reflexivity.
  - destruct (N.ltb_spec v 16384) as [H2|H2].
    + rewrite w_nnbi_upto by (lia || reflexivity). reflexivity.
    + reflexivity.
Qed.

Lemma r_len_unc_eq m s : r_length_determinant m None None s = r_length_determinant_unc s.
Proof. reflexivity. Qed.

(* [o] stays a variable here and in [unconstrained_len]: with its defining quotient
   unfolded under [2 ^ _], [lia] takes seconds *)
Lemma octets_of_size n o : n < two63 -> o = 8 - (lz64 n - 1) / 8 ->
  o = N.max 1 ((nbits n + 1 + 7) / 8) /\ 1 <= o <= 8 /\ n < 2 ^ (8 * o - 1).
Proof.
  intros Hn Eo. assert (Hs : N.size n <= 63) by (apply size_le_of_lt; exact Hn).
  unfold nbits, lz64 in *. split; [lia|]. split; [lia|].
  eapply N.lt_le_trans; [apply N.size_gt|]. apply N.pow_le_mono_r; lia.
Qed.

Lemma unconstrained_len v : is_i64 v ->
  let x := u64_of_i64 v in
  let lead := if (v <? 0)%Z then lo64 x else lz64 x in
  let o := 8 - (lead - 1) / 8 in
  o = twos_octets v /\ 1 <= o <= 8 /\ fits (8 * o) v.
Proof.
  intros Hv x lead o. unfold is_i64 in Hv. rewrite Ztwo63 in Hv.
  unfold twos_octets.
  destruct (Z.ltb_spec v 0) as [Hneg|Hpos]; destruct (Z.leb_spec 0 v); try lia.
  - assert (Ex : two64 - 1 - x = Z.to_N (- v - 1)).
    { unfold x. rewrite u64_of_i64_neg by (rewrite Ztwo64; lia). rewrite Ztwo64. unfold two64. lia. }
    destruct (octets_of_size (Z.to_N (- v - 1)) o) as (E & R & L);
      [unfold two63; lia|unfold o, lead, lo64; rewrite Ex; reflexivity|].
    clearbody o. split; [exact E|]. split; [exact R|]. clear - Hneg L R. apply fits_N; lia.
  - assert (Ex : x = Z.to_N v).
    { unfold x. apply u64_of_i64_nonneg. rewrite Ztwo64. lia. }
    destruct (octets_of_size (Z.to_N v) o) as (E & R & L);
      [unfold two63; lia|unfold o, lead; rewrite Ex; reflexivity|].
    clearbody o. split; [exact E|]. split; [exact R|]. clear - Hpos L R. apply fits_N; lia.
Qed.

Lemma unconstrained_write m v : is_i64 v -> w_unconstrained m v = Ok (x_unconstrained v).
Proof.
  intros Hv. destruct (unconstrained_len v Hv) as (E & R & F). cbv zeta in E, R, F.
  unfold w_unconstrained, x_unconstrained.
  set (o := 8 - ((if (v <? 0)%Z then lo64 (u64_of_i64 v) else lz64 (u64_of_i64 v)) - 1) / 8) in *.
  rewrite w_len_unc. cbn [bind].
  rewrite (N.mul_comm o 8), twos_write by (auto; lia). cbn [bind].
  unfold x_len_first. destruct (N.ltb_spec o 16384); [|lia]. rewrite <- E. reflexivity.
Qed.

Lemma unconstrained_read m v s tail : is_i64 v ->
  at_src s (x_unconstrained v) tail ->
  r_unconstrained m s = Ok (v, src_adv s (bl (x_unconstrained v)) tail).
Proof.
  intros Hv. revert s tail. apply reads_intro.
  destruct (unconstrained_len v Hv) as (E & R & F). cbv zeta in E, R, F.
  rewrite E in R, F. unfold x_unconstrained. set (o := twos_octets v) in *.
  rewrite x_len_short_small by lia.
  eapply (reads_bind r_length_determinant_unc); [apply r_len_unc_short; lia|].
  rewrite (N.mul_comm o 8). intros s tail Hs.
  rewrite (twos_read (8 * o) v s tail) by (auto; lia).
  unfold twos_field. rewrite field_length. reflexivity.
Qed.

Lemma index_codec m std ext i : std < two64 -> i < two64 ->
  codec E_INVALID_CHOICE (x_index std ext i) (w_enumeration_index m std ext i) (r_enumeration_index m std ext) i.
Proof.
  intros Hs Hi. unfold x_index, w_enumeration_index, r_enumeration_index.
  destruct (N.ltb_spec i std) as [Hin|Ho].
  - replace (std <=? i) with false by lia. rewrite usub_ok by lia. cbn [bind].
    replace (Z.of_N std - 1)%Z with (Z.of_N (std - 1)) by lia. change 0%Z with (Z.of_N 0). rewrite x_constrained_N.
    replace ((0 <=? i) && (i <=? std - 1)) with true by lia. rewrite !N.sub_0_r.
    replace (std =? 0) with false by lia.
    pose proof (nnbi_upto_codec m (std - 1) i ltac:(lia) ltac:(lia)) as C.
    destruct ext; [exact (codec_bit _ (Some _) _ (fun c s => if c then _ else _) i false C)|].
    destruct C as [-> R]. split; [reflexivity|exact R].
  - replace (std <=? i) with true by lia. destruct ext; [|reflexivity].
    rewrite usub_ok by exact Ho. cbn [bind].
    apply (codec_bit _ (Some _) _ (fun c s => if c then _ else _) i true).
    destruct (normally_small_codec m (i - std) ltac:(lia)) as [-> R]. split; [reflexivity|].
    (* the reader adds [std] back with a checked addition *)
    intros s tail Hsrc. rewrite (R s tail Hsrc). cbn [bind].
    destruct (N.ltb_spec (i - std + std) two64); [do 3 f_equal; lia|lia].
Qed.

Lemma x_index_none std ext i : x_index std ext i = None <-> std <= i /\ ext = false.
Proof.
  unfold x_index. destruct (N.ltb_spec i std) as [H|H].
  - replace (Z.of_N std - 1)%Z with (Z.of_N (std - 1)) by lia. change 0%Z with (Z.of_N 0). rewrite x_constrained_N.
    replace ((0 <=? i) && (i <=? std - 1)) with true by lia. split; [discriminate|lia].
  - destruct ext; [split; [discriminate|intros [_ ?]; discriminate]|tauto].
Qed.

Lemma index_reject m std ext i :
  x_index std ext i = None -> w_enumeration_index m std ext i = Err E_INVALID_CHOICE.
Proof.
  intros Hx. apply x_index_none in Hx. destruct Hx as [Ho ->]. unfold w_enumeration_index.
  destruct (N.leb_spec std i); [reflexivity|lia].
Qed.

(* F10-1: a lower bound without an upper bound, or an upper bound of 64K or more: the code
   uses a constrained field of the width of ub - lb (17 bits or more; 63 without an upper bound) and handles
   the lower bound twice, where X.691 11.9.4.2 prescribes the unconstrained form *)
Definition Known_C10_length_semi_or_large_bound (lb ub : option N) : Prop :=
  match ub with Some u => 65536 <= u | None => lb <> None end.

Lemma known_length_branch lb ub :
  (is_some lb || is_some ub) && (LENGTH_64K <=? opt_or ub I64_MAX) = true
  <-> Known_C10_length_semi_or_large_bound lb ub.
Proof.
  unfold Known_C10_length_semi_or_large_bound, LENGTH_64K.
  destruct lb as [l|], ub as [u|]; cbn [is_some orb andb opt_or].
  - apply N.leb_le.
  - split; [discriminate|reflexivity].
  - apply N.leb_le.
  - split; [discriminate|congruence].
Qed.

Lemma not_known_cases lb ub : ~ Known_C10_length_semi_or_large_bound lb ub ->
  (exists u, ub = Some u /\ u < 65536) \/ (lb = None /\ ub = None).
Proof.
  unfold Known_C10_length_semi_or_large_bound. destruct ub as [u|].
  - intros H. left. exists u. split; [reflexivity|lia].
  - intros H. right. destruct lb; [exfalso; apply H; discriminate|auto].
Qed.

(* No fragments under an upper bound (outside F10-1 it is below 64K). [len_result ub v] is what the length
   READER answers on the encoding of the count [v]: [v] itself, or from 16K on the size of the first fragment,
   after which its caller reads the next length. *)
Definition len_frag (ub : option N) (v : N) : option N :=
  match ub with Some _ => None | None => frag_of v end.
Definition len_result (ub : option N) (v : N) : N :=
  match len_frag ub v with Some f => f | None => v end.

Lemma w_len_constrained m lb u v : u < 65536 ->
  w_length_determinant m lb (Some u) v = let! b := w_nnbi m lb (Some u) v in Ok (b, None).
Proof.
  intros Hu. unfold w_length_determinant, LENGTH_64K. cbn [opt_or is_some].
  rewrite orb_true_r. cbn [andb].
  destruct (N.leb_spec 65536 u); [lia|]. destruct (N.leb_spec u 65536); [|lia]. reflexivity.
Qed.

Lemma r_len_constrained m lb u s : u < 65536 ->
  r_length_determinant m lb (Some u) s = r_nnbi m lb (Some u) s.
Proof.
  intros Hu. unfold r_length_determinant, LENGTH_64K. cbn [opt_or is_some].
  rewrite orb_true_r. cbn [andb].
  destruct (N.leb_spec 65536 u); [lia|]. destruct (N.leb_spec u 65536); [|lia]. reflexivity.
Qed.

Lemma x_constrained_some l u v : (l <= v <= u)%Z -> exists b, x_constrained l u v = Some b.
Proof.
  intros H. unfold x_constrained. replace ((l <=? v)%Z && (v <=? u)%Z) with true by lia. eauto.
Qed.

Lemma x_constrained_refl u : x_constrained u u u = Some [].
Proof. unfold x_constrained. rewrite Z.leb_refl. cbn [andb]. rewrite Z.sub_diag. reflexivity. Qed.

Lemma x_length_constrained lb u v : u < 65536 ->
  x_length lb (Some u) v =
  x_constrained (Z.of_N (opt_or lb 0)) (Z.of_N (opt_or (Some u) I64_MAX)) (Z.of_N v).
Proof.
  intros Hu. unfold x_length. destruct (N.ltb_spec u 65536); [|lia]. destruct lb; reflexivity.
Qed.

(* a count whose whole range is one point travels in no bits (11.5.4) *)
Lemma x_length_point lo u : opt_or lo 0 = u -> u < 65536 -> x_length lo (Some u) u = Some [].
Proof. intros E Hu. rewrite x_length_constrained by exact Hu. cbn [opt_or]. rewrite E. apply x_constrained_refl. Qed.

Lemma x_length_unc v : x_length None None v = Some (x_len_first v).
Proof. destruct v; reflexivity. Qed.

Lemma length_eq m lb ub v : ~ Known_C10_length_semi_or_large_bound lb ub ->
  w_length_determinant m lb ub v =
  match x_length lb ub v with Some bs => Ok (bs, len_frag ub v) | None => Err E_VALUE_RANGE end.
Proof.
  intros Hk. destruct (not_known_cases lb ub Hk) as [(u & -> & Hu)|[-> ->]].
  - rewrite w_len_constrained, x_length_constrained by exact Hu.
    rewrite (codec_write (nnbi_codec m lb (Some u) v ltac:(right; discriminate) ltac:(cbn [opt_or]; unfold two64; lia))).
    destruct (x_constrained _ _ _); reflexivity.
  - rewrite w_len_unc, x_length_unc. reflexivity.
Qed.

Lemma length_write m lb ub v bs : ~ Known_C10_length_semi_or_large_bound lb ub ->
  x_length lb ub v = Some bs ->
  w_length_determinant m lb ub v = Ok (bs, len_frag ub v).
Proof. intros Hk Hx. rewrite length_eq, Hx by exact Hk. reflexivity. Qed.

Lemma length_reject m lb ub v : ~ Known_C10_length_semi_or_large_bound lb ub ->
  x_length lb ub v = None -> w_length_determinant m lb ub v = Err E_VALUE_RANGE.
Proof. intros Hk Hx. rewrite length_eq, Hx by exact Hk. reflexivity. Qed.

Lemma r_len_unc_first v : reads r_length_determinant_unc (x_len_first v) (len_result None v).
Proof.
  unfold x_len_first, len_result, len_frag, frag_of, x_len_short.
  destruct (N.ltb_spec v 16384) as [H16|H16]; [destruct (N.leb_spec v 127) as [H7|H7]|].
  - apply r_len_unc_short, H7.
  - do 2 apply reads_bit. apply (reads_field (fun x => x)); cbn; lia.
  - do 2 apply reads_bit.
    replace (N.min (v / 16384) 4 * 16384) with (LENGTH_16K * N.min (N.min (v / 16384) 4) MAX_FRAGMENTS)
      by (unfold LENGTH_16K, MAX_FRAGMENTS; lia).
    apply (reads_field (fun x => LENGTH_16K * N.min x MAX_FRAGMENTS)); cbn; lia.
Qed.

Lemma length_read m lb ub v bs s tail : ~ Known_C10_length_semi_or_large_bound lb ub ->
  x_length lb ub v = Some bs -> at_src s bs tail ->
  r_length_determinant m lb ub s = Ok (len_result ub v, src_adv s (bl bs) tail).
Proof.
  intros Hk Hx Hs. destruct (not_known_cases lb ub Hk) as [(u & -> & Hu)|[-> ->]].
  - rewrite r_len_constrained by exact Hu. rewrite x_length_constrained in Hx by exact Hu.
    refine (codec_read (nnbi_codec m lb (Some u) v _ _) Hx s tail Hs); [right; discriminate|cbn [opt_or]; unfold two64; lia].
  - rewrite r_len_unc_eq. rewrite x_length_unc in Hx. injection Hx as <-. apply r_len_unc_first, Hs.
Qed.

Lemma x_frag_fuel unit : forall f1 f2 n body,
  n < 16384 * N.of_nat f1 -> n < 16384 * N.of_nat f2 ->
  x_frag f1 unit n body = x_frag f2 unit n body.
Proof.
  induction f1 as [|f1 IH]; intros f2 n body H1 H2; [lia|].
  destruct f2 as [|f2]; [lia|]. cbn [x_frag].
  destruct (N.ltb_spec n 16384) as [Hs|Hb]; [reflexivity|].
  (* the fragment's size is bounded, and named, before [lia] meets its quotient among the fuel *)
  assert (Hc : 16384 <= N.min (n / 16384) 4 * 16384 <= n) by lia.
  set (cnt := N.min (n / 16384) 4 * 16384) in *. clearbody cnt.
  do 4 f_equal. apply IH; lia.
Qed.

Lemma w_bits_ol_ok srcb off len : off + len <= bl srcb ->
  w_bits_ol srcb off len = Ok (firstn (N.to_nat len) (skipn (N.to_nat off) srcb)).
Proof. intros H. unfold w_bits_ol. fold (bl srcb). destruct (N.ltb_spec (bl srcb) (off + len)); [lia|reflexivity]. Qed.


Lemma x_len_first_short n : n < 16384 -> x_len_first n = x_len_short n.
Proof. intros H. unfold x_len_first. destruct (N.ltb_spec n 16384); [reflexivity|lia]. Qed.
Lemma frag_of_short n : n < 16384 -> frag_of n = None.
Proof. intros H. unfold frag_of. destruct (N.ltb_spec n 16384); [reflexivity|lia]. Qed.
Lemma frag_of_big n : 16384 <= n -> frag_of n = Some (N.min (n / 16384) 4 * 16384).
Proof. intros H. unfold frag_of. destruct (N.ltb_spec n 16384); [lia|reflexivity]. Qed.

Lemma len_result_bounds n : let cnt := len_result None n in
  cnt <= 65536 /\ cnt <= n /\ (n < 16384 -> cnt = n) /\ (16384 <= n -> 16384 <= cnt).
Proof. unfold len_result, len_frag, frag_of. destruct (N.ltb_spec n 16384); lia. Qed.

(* one round of the fragmentation procedure: the length determinant announces
   [len_result None n] units, which follow; below 16K that is all of them. With this equation
   the fuel of [x_frag] is not seen again *)
Lemma x_run_step unit n body : bl body = unit * n ->
  let cnt := len_result None n in
  x_unconstrained_length_run unit n body =
  x_len_first n ++ firstn (N.to_nat (cnt * unit)) body ++
  (if n <? 16384 then []
   else x_unconstrained_length_run unit (n - cnt) (skipn (N.to_nat (cnt * unit)) body)).
Proof.
  intros Hl. unfold x_unconstrained_length_run at 1. cbn [x_frag].
  unfold len_result, len_frag, frag_of, x_len_first.
  destruct (N.ltb_spec n 16384).
  - rewrite app_nil_r, firstn_all2 by (unfold bl in Hl; lia). reflexivity.
  - cbn [app]. do 4 f_equal. apply x_frag_fuel; lia.
Qed.

Lemma x_run_short unit n body : n < 16384 ->
  x_unconstrained_length_run unit n body = x_len_short n ++ body.
Proof.
  intros H. unfold x_unconstrained_length_run. cbn [x_frag].
  destruct (N.ltb_spec n 16384); [reflexivity|lia].
Qed.

(* a run of exactly 16K items: one fragment, closed by a zero length (11.9.3.8.3) *)
Lemma x_run_16k unit body : bl body = 16384 * unit ->
  x_unconstrained_length_run unit 16384 body =
  [true; true; false; false; false; false; false; true] ++ body ++ [false; false; false; false; false; false; false; false].
Proof.
  intros Hb. unfold x_unconstrained_length_run. change (N.to_nat (16384 / 16384)) with 1%nat. cbn [x_frag].
  change (16384 <? 16384) with false. cbv iota zeta.
  change (N.min (16384 / 16384) 4) with 1. rewrite N.mul_1_l, N.sub_diag, <- Hb.
  change (0 <? 16384) with true. cbv iota.
  unfold bl. rewrite Nat2N.id, firstn_all, skipn_all, app_nil_r. reflexivity.
Qed.

(* a run of 16K items or more goes on after the fragment that its first length determinant announces *)
Lemma x_run_first unit n body : bl body = unit * n -> 16384 <= n ->
  bl (x_len_first n) + len_result None n * unit < bl (x_unconstrained_length_run unit n body).
Proof.
  intros Hl Hn. rewrite x_run_step by exact Hl. cbv zeta.
  destruct (len_result_bounds n) as (_ & Hc & _). set (cnt := len_result None n) in *.
  destruct (N.ltb_spec n 16384); [lia|].
  rewrite !bl_app, bl_firstn by (rewrite Hl, (N.mul_comm unit n); apply N.mul_le_mono_r, Hc).
  unfold x_unconstrained_length_run at 1. cbn [x_frag]. unfold x_len_short.
  destruct (_ <? 16384); [destruct (_ <=? 127)|]; cbn [app]; rewrite bl_cons; lia.
Qed.

(* the run is its body with at most 8 bits for every 16K items and a last length determinant *)
Lemma x_run_len_le unit n body :
  bl (x_unconstrained_length_run unit n body) <= bl body + 8 * (n / 16384) + 16.
Proof.
  unfold x_unconstrained_length_run.
  enough (G : forall f n body, bl (x_frag f unit n body) <= bl body + 8 * N.of_nat f + 8)
    by (specialize (G (S (N.to_nat (n / 16384))) n body); lia).
  clear. induction f as [|f IH]; intros n body; cbn [x_frag]; [rewrite bl_nil; lia|].
  destruct (n <? 16384).
  - unfold x_len_short. destruct (n <=? 127); cbn [app]; rewrite !bl_cons, bl_app, field_length; lia.
  - rewrite !bl_cons, !bl_app, field_length. set (k := N.to_nat _).
    specialize (IH (n - N.min (n / 16384) 4 * 16384) (skipn k body)).
    pose proof (f_equal bl (firstn_skipn k body)) as E. rewrite bl_app in E. lia.
Qed.

Lemma w_octet_loop_spec m srcb length : bl srcb = 8 * length ->
  forall fuel written, written <= length -> length - written < 16384 * N.of_nat fuel ->
  w_octet_frag_loop fuel m srcb length written =
  Ok (x_unconstrained_length_run 8 (length - written) (skipn (N.to_nat (8 * written)) srcb)).
Proof.
  intros Hlen. induction fuel as [|f IH]; intros written Hw Hf; [lia|].
  cbn [w_octet_frag_loop]. rewrite w_len_unc, x_run_step by (rewrite bl_skipn; lia). cbn [bind]. cbv zeta.
  change (opt_or (frag_of (length - written)) (length - written)) with (len_result None (length - written)).
  destruct (len_result_bounds (length - written)) as (Hc1 & Hc2 & Hc3 & Hc4).
  set (cnt := len_result None (length - written)) in *.
  rewrite w_bits_ol_ok, (N.mul_comm cnt 8) by lia. cbn [bind]. unfold MIN_FRAGMENT_SIZE.
  destruct (N.ltb_spec (length - written) 16384); destruct (N.ltb_spec cnt 16384); try lia;
    [rewrite app_nil_r; reflexivity|].
  rewrite IH by lia. cbn [bind]. rewrite skipn_add.
  replace (length - written - cnt) with (length - (written + cnt)) by lia.
  replace (N.to_nat (8 * written) + N.to_nat (8 * cnt))%nat with (N.to_nat (8 * (written + cnt))) by lia.
  reflexivity.
Qed.

(* the continuation of write_octetstring after the first length determinant *)
Definition octet_cont (m : mode) (pre srcb : bits) (length : N) (hb : bits) (fs : option N) : res bits :=
  let first := opt_or fs length in
  if length <? first then Panic P_SLICE_RANGE else
  let! body := w_bits_ol srcb 0 (8 * first) in
  match fs with
  | None => Ok (pre ++ hb ++ body)
  | Some written =>
      let! more := w_octet_frag_loop (S (N.to_nat (length / MIN_FRAGMENT_SIZE) + 1)) m srcb length written in
      Ok (pre ++ hb ++ body ++ more)
  end.

Lemma w_octetstring_eq m lb ub extensible srcbytes :
  w_octetstring m lb ub extensible srcbytes =
  (let lower := opt_or lb 0 in
   let upper := opt_or ub I64_MAX in
   let length := blen srcbytes in
   let srcb := bits_of_bytes srcbytes in
   let out_of_range := (length <? lower) || (upper <? length) in
   let pre := if extensible then [out_of_range] else [] in
   if out_of_range then
     if extensible then
       let! (hb, fs) := w_length_determinant m None None length in octet_cont m pre srcb length hb fs
     else Err E_SIZE_RANGE
   else if upper =? 0 then Ok pre
   else if is_some lb && opt_n_eqb lb ub && (upper <? LENGTH_64K) then octet_cont m pre srcb length [] None
   else let! (hb, fs) := w_length_determinant m lb ub length in octet_cont m pre srcb length hb fs).
Proof. reflexivity. Qed.

Lemma octet_cont_none m pre srcb n hb : bl srcb = 8 * n ->
  octet_cont m pre srcb n hb None = Ok (pre ++ hb ++ srcb).
Proof.
  intros Hl. unfold octet_cont. cbn [opt_or]. rewrite N.ltb_irrefl.
  rewrite w_bits_ol_ok by lia. cbn [bind skipn N.to_nat].
  rewrite firstn_all2 by (unfold bl in Hl; lia). reflexivity.
Qed.

Lemma octet_cont_unc m pre srcb n : bl srcb = 8 * n ->
  octet_cont m pre srcb n (x_len_first n) (frag_of n) =
  Ok (pre ++ x_unconstrained_length_run 8 n srcb).
Proof.
  intros Hl. rewrite x_run_step by exact Hl. cbv zeta.
  unfold octet_cont. change (opt_or (frag_of n) n) with (len_result None n).
  destruct (len_result_bounds n) as (Hc1 & Hc2 & Hc3 & Hc4). set (cnt := len_result None n) in *.
  destruct (N.ltb_spec n cnt); [lia|]. rewrite w_bits_ol_ok, (N.mul_comm cnt 8) by lia. cbn [bind skipn N.to_nat].
  unfold frag_of. fold cnt. destruct (N.ltb_spec n 16384) as [Hs|Hb]; [rewrite app_nil_r; reflexivity|].
  replace (N.min (n / 16384) 4 * 16384) with cnt by (unfold cnt, len_result, len_frag; rewrite frag_of_big by exact Hb; reflexivity).
  unfold MIN_FRAGMENT_SIZE. rewrite (w_octet_loop_spec m srcb n Hl) by lia. reflexivity.
Qed.

Definition Known_C10_sized_length (lb ub : option N) (n : N) : Prop :=
  Known_C10_length_semi_or_large_bound lb ub /\ opt_or lb 0 <= n <= opt_or ub I64_MAX.

Lemma bits_len8 l : bl (bits_of_bytes l) = 8 * blen l.
Proof. unfold bl, blen. rewrite bits_length. lia. Qed.

Definition fixed_size (lb ub : option N) : bool := is_some lb && opt_n_eqb lb ub && (opt_or ub I64_MAX <? LENGTH_64K).

(* Outside F10-1 a count [n] is either out of the extension root, or the root part of the reference
   encoding of [n] units [body] is the length determinant of [n] followed by [body], or, without bounds,
   the unconstrained run. Where the size is fixed, or can only be 0, the determinant is empty, which is
   all there is to the shortcuts that the code and the reference take there *)
Inductive sized_root (unit : N) (lb ub : option N) (n : N) (body : bits) : bits -> Prop :=
| SR_len u lenb : ub = Some u -> u < 65536 -> x_length lb ub n = Some lenb ->
    (fixed_size lb ub = true \/ u = 0 -> lenb = [] /\ n = u) ->
    sized_root unit lb ub n body (lenb ++ body)
| SR_unc : lb = None -> ub = None ->
    sized_root unit lb ub n body (x_unconstrained_length_run unit n body).

Lemma x_sized_run_cases unit lb ub ext n body :
  n < two63 -> ~ Known_C10_sized_length lb ub n -> (n = 0 -> body = []) ->
  ((n <? opt_or lb 0) || (opt_or ub I64_MAX <? n) = true /\ x_sized_run unit lb ub ext n body =
     if ext then Some (true :: x_unconstrained_length_run unit n body) else None)
  \/ ((n <? opt_or lb 0) || (opt_or ub I64_MAX <? n) = false /\ exists root, sized_root unit lb ub n body root /\
       x_sized_run unit lb ub ext n body = Some ((if ext then [false] else []) ++ root)).
Proof.
  intros Hn Hk H0. unfold x_sized_run. change (match lb with Some l => l | None => 0 end) with (opt_or lb 0).
  cbv zeta. set (lo := opt_or lb 0).
  assert (Hup : (match ub with Some u => n <=? u | None => true end) = (n <=? opt_or ub I64_MAX)).
  { destruct ub as [u|]; cbn [opt_or]; [reflexivity|]. symmetry. apply N.leb_le. unfold I64_MAX. lia. }
  rewrite Hup. destruct (N.leb_spec lo n) as [Hlo|Hlo]; [|left; split; [lia|reflexivity]].
  destruct (N.leb_spec n (opt_or ub I64_MAX)) as [Hhi|Hhi]; [|left; split; [lia|reflexivity]].
  right. split; [lia|]. cbn [andb].
  assert (Hnk : ~ Known_C10_length_semi_or_large_bound lb ub) by (intros K; apply Hk; split; [exact K|fold lo; lia]).
  destruct (not_known_cases lb ub Hnk) as [(u & -> & Hu)|[-> ->]]; [|eexists; split; [apply SR_unc; reflexivity|reflexivity]].
  cbn [opt_or] in Hhi.
  assert (Ex : x_length lb (Some u) n = Some (field (nbits (u - lo)) (n - lo))).
  { rewrite x_length_constrained, x_constrained_N by exact Hu. cbn [opt_or]. fold lo.
    replace ((lo <=? n) && (n <=? u)) with true by lia. reflexivity. }
  eexists. split.
  - apply (SR_len _ _ _ _ _ u _ eq_refl Hu Ex). intros Hp.
    assert (u <= lo) by (unfold fixed_size, lo in *; destruct lb; cbn [is_some opt_n_eqb opt_or andb] in *; lia).
    replace (u - lo) with 0 by lia. split; [reflexivity|lia].
  - destruct (N.eqb_spec u 0) as [->|U0].
    + rewrite H0, app_nil_r by lia. reflexivity.
    + destruct (N.ltb_spec u 65536); [|lia]. rewrite andb_true_r. destruct (N.eqb_spec lo u) as [<-|Hfx].
      * rewrite N.sub_diag. reflexivity.
      * rewrite x_constrained_N. replace ((lo <=? n) && (n <=? u)) with true by lia. reflexivity.
Qed.

Lemma octetstring_write m lb ub extensible bytes :
  blen bytes < two63 -> ~ Known_C10_sized_length lb ub (blen bytes) ->
  w_octetstring m lb ub extensible bytes =
  match x_octetstring lb ub extensible bytes with Some bs => Ok bs | None => Err E_SIZE_RANGE end.
Proof.
  intros Hn Hk. rewrite w_octetstring_eq. unfold x_octetstring. cbv zeta.
  fold (blen bytes). set (n := blen bytes) in *. set (srcb := bits_of_bytes bytes).
  assert (Hl : bl srcb = 8 * n) by apply bits_len8.
  assert (H0 : n = 0 -> srcb = []) by (intros E; apply bl_0_nil; lia).
  destruct (x_sized_run_cases 8 lb ub extensible n srcb Hn Hk H0) as [[Eo ->]|(Eo & root & V & ->)]; rewrite Eo.
  { destruct extensible; [|reflexivity]. rewrite w_len_unc. cbn [bind]. apply octet_cont_unc, Hl. }
  destruct V as [u lenb -> Hu Hx Hpt | -> ->]; cbn [opt_or].
  - destruct (N.eqb_spec u 0) as [U0|_].
    { destruct (Hpt (or_intror U0)) as [-> E0]. rewrite H0, app_nil_r by lia. reflexivity. }
    destruct (_ && _) eqn:F.
    + destruct (Hpt (or_introl F)) as [-> _]. apply octet_cont_none, Hl.
    + rewrite (length_write m lb (Some u) n lenb) by (cbn; lia || exact Hx). cbn [bind len_frag].
      apply octet_cont_none, Hl.
  - rewrite w_len_unc. cbn [bind]. apply octet_cont_unc, Hl.
Qed.

Lemma octetstring_reject m lb ub bytes :
  blen bytes < opt_or lb 0 \/ opt_or ub I64_MAX < blen bytes ->
  w_octetstring m lb ub false bytes = Err E_SIZE_RANGE.
Proof.
  intros H. rewrite w_octetstring_eq. cbv zeta.
  replace ((blen bytes <? opt_or lb 0) || (opt_or ub I64_MAX <? blen bytes)) with true by lia. reflexivity.
Qed.

(* out of the extension root of an extensible size constraint: any bounds, F10-1 included *)
Lemma octetstring_write_ext m lb ub bytes :
  blen bytes < two63 -> blen bytes < opt_or lb 0 \/ opt_or ub I64_MAX < blen bytes ->
  let bs := true :: x_unconstrained_length_run 8 (blen bytes) (bits_of_bytes bytes) in
  w_octetstring m lb ub true bytes = Ok bs /\ x_octetstring lb ub true bytes = Some bs.
Proof.
  intros Hn Ho bs. assert (Hk : ~ Known_C10_sized_length lb ub (blen bytes)) by (intros [_ R]; lia).
  assert (Hx : x_octetstring lb ub true bytes = Some bs).
  { destruct (x_sized_run_cases 8 lb ub true _ (bits_of_bytes bytes) Hn Hk) as [[_ E]|[Hin _]]; [|exact E|lia].
    intros E. apply bl_0_nil. rewrite bits_len8. lia. }
  rewrite octetstring_write, Hx by assumption. auto.
Qed.

Lemma alloc_ok n : n <= ALLOC_LIMIT -> alloc n = Ok tt.
Proof.
  intros H. unfold alloc. unfold ALLOC_LIMIT in *.
  destruct (N.ltb_spec I64_MAX n) as [L|L]; [unfold I64_MAX, two63 in L; lia|].
  destruct (N.ltb_spec 4294967296 n); [lia|reflexivity].
Qed.

(* one round of the fragment readers: the length determinant announces [cnt] octets, they are
   allocated and read, and [k] goes on: at the end of the run below 16K, with the rest of it
   otherwise *)
Lemma reads_octet_round {A} m n body (k : N -> bits -> src -> res (A * src)) v :
  bl body = 8 * n -> let cnt := len_result None n in
  (n < 16384 -> reads (k n body) [] v) ->
  (16384 <= cnt <= n ->
   reads (k cnt (firstn (N.to_nat (8 * cnt)) body))
         (x_unconstrained_length_run 8 (n - cnt) (skipn (N.to_nat (8 * cnt)) body)) v) ->
  reads (fun s => let! (l, s) := r_length_determinant m None None s in
                  let! _ := alloc l in let! (bs, s) := r_bits s (8 * l) in k l bs s)
        (x_unconstrained_length_run 8 n body) v.
Proof.
  intros Hl cnt Hsmall Hbig. rewrite x_run_step by exact Hl. cbv zeta. fold cnt.
  destruct (len_result_bounds n) as (Hc1 & Hc2 & Hc3 & Hc4). fold cnt in Hc1, Hc2, Hc3, Hc4.
  rewrite (N.mul_comm cnt 8).
  eapply (reads_bind (r_length_determinant m None None)); [apply r_len_unc_first|]. fold cnt.
  rewrite alloc_ok by (unfold ALLOC_LIMIT; lia). cbn [bind].
  eapply (reads_bind (fun s => r_bits s (8 * cnt))); [apply reads_bits, bl_firstn; lia|].
  destruct (N.ltb_spec n 16384) as [Hs|Hb]; [|apply Hbig; lia].
  rewrite firstn_all2, (Hc3 Hs) by (unfold bl in Hl; lia). exact (Hsmall Hs).
Qed.

Lemma r_octet_loop_spec m : forall fuel n body acc,
  bl body = 8 * n -> bl (x_unconstrained_length_run 8 n body) < N.of_nat fuel ->
  reads (fun s => r_octet_frag_loop fuel m s acc) (x_unconstrained_length_run 8 n body) (acc ++ body).
Proof.
  induction fuel as [|fuel IH]; intros n body acc Hl Hf; [lia|].
  cbn [r_octet_frag_loop]. unfold LENGTH_16K.
  apply (reads_octet_round m n body (fun l bs s =>
           if l <? 16384 then Ok (acc ++ bs, s) else r_octet_frag_loop fuel m s (acc ++ bs))); [exact Hl| |].
  - intros Hs. replace (n <? 16384) with true by lia. apply reads_nil.
  - intros Hc. replace (len_result None n <? 16384) with false by lia.
    rewrite x_run_step in Hf by exact Hl. cbv zeta in Hf. unfold x_len_first in Hf.
    set (cnt := len_result None n) in *. replace (n <? 16384) with false in Hf by lia.
    rewrite (N.mul_comm cnt 8), !bl_app, bl_cons in Hf.
    replace (acc ++ body) with ((acc ++ firstn (N.to_nat (8 * cnt)) body) ++ skipn (N.to_nat (8 * cnt)) body)
      by (rewrite <- app_assoc, firstn_skipn; reflexivity).
    apply IH; [rewrite bl_skipn|]; lia.
Qed.

Definition octet_rbody (m : mode) (byte_len : N) (frag : bool) (s : src) : res (bits * src) :=
  let! _ := alloc byte_len in
  let! (bs, s) := r_bits s (8 * byte_len) in
  if frag && (LENGTH_16K <=? byte_len) then
    r_octet_frag_loop (S (N.to_nat (s_len s - s_pos s))) m s bs
  else Ok (bs, s).

(* read_octetstring and read_bitstring are one program up to what they do with the count: the
   extension bit, then the way to the count [l] and to whether fragments may follow, both handed to
   [body]; [zero] is what read_octetstring alone answers at once for SIZE (0) *)
Definition r_size_root {A} (m : mode) (lb ub : option N) (zero : option A)
    (body : N -> bool -> src -> res (A * src)) (s : src) : res (A * src) :=
  let root (s : src) :=
    if fixed_size lb ub then body (opt_or ub I64_MAX) false s
    else let! (l, s) := r_length_determinant m lb ub s in body l (negb (is_some lb) && negb (is_some ub)) s in
  match zero with Some a => if opt_or ub I64_MAX =? 0 then Ok (a, s) else root s | None => root s end.

Definition r_size {A} (m : mode) (lb ub : option N) (extensible : bool) (zero : option A)
    (body : N -> bool -> src -> res (A * src)) (s : src) : res (A * src) :=
  if extensible then
    let! (ext, s) := r_bit s in
    if ext then let! (l, s) := r_length_determinant m None None s in body l true s
    else r_size_root m lb ub zero body s
  else r_size_root m lb ub zero body s.

Lemma r_octetstring_eq m lb ub extensible s :
  r_octetstring m lb ub extensible s = r_size m lb ub extensible (Some []) (octet_rbody m) s.
Proof. reflexivity. Qed.

Lemma octet_rbody_plain m n frag body :
  bl body = 8 * n -> n <= ALLOC_LIMIT -> frag = false \/ n < 16384 ->
  reads (octet_rbody m n frag) body body.
Proof.
  intros Hl Ha Hfr s tail Hs. unfold octet_rbody. rewrite alloc_ok by exact Ha. cbn [bind].
  rewrite (r_bits_ok _ _ _ _ Hs), Hl by lia. cbn [bind]. unfold LENGTH_16K.
  destruct Hfr as [->|Hn]; [reflexivity|].
  destruct (N.leb_spec 16384 n); [lia|]. rewrite andb_false_r. reflexivity.
Qed.

Lemma r_octet_unc m n body : bl body = 8 * n ->
  reads (fun s => let! (l, s) := r_length_determinant m None None s in octet_rbody m l true s)
        (x_unconstrained_length_run 8 n body) body.
Proof.
  intros Hl. unfold octet_rbody, LENGTH_16K. apply reads_octet_round; [exact Hl| |].
  - intros Hs. replace (16384 <=? n) with false by lia. apply reads_nil.
  - intros Hc. replace (16384 <=? len_result None n) with true by lia. cbn [andb]. intros s tail Hs.
    set (cnt := len_result None n) in *.
    rewrite (r_octet_loop_spec m _ (n - cnt) _ (firstn (N.to_nat (8 * cnt)) body)) with (3 := Hs);
      [rewrite firstn_skipn; reflexivity|rewrite bl_skipn; lia|].
    (* the fuel is what is left of the declared length, and the rest of the run lies inside it *)
    destruct Hs as (_ & L & _). lia.
Qed.

(* the reader of a size-constrained run on its reference encoding: it is enough that [body] reads
   the plain content, and that it reads the fragmented run where the unconstrained form is used *)
Lemma r_size_reads {A} m unit lb ub ext n content zero (body : N -> bool -> src -> res (A * src)) v bs :
  bl content = unit * n -> n < two63 -> ~ Known_C10_sized_length lb ub n ->
  x_sized_run unit lb ub ext n content = Some bs ->
  reads (body n false) content v ->
  (n < opt_or lb 0 \/ opt_or ub I64_MAX < n \/ ub = None ->
   reads (fun s => let! (l, s) := r_length_determinant m None None s in body l true s)
         (x_unconstrained_length_run unit n content) v) ->
  (forall a, zero = Some a -> n = 0 -> a = v) ->
  reads (r_size m lb ub ext zero body) bs v.
Proof.
  intros Hl Hn Hk Hx Hplain Hunc Hzero.
  assert (H0 : n = 0 -> content = []) by (intros ->; apply bl_0_nil; lia).
  destruct (x_sized_run_cases unit lb ub ext n content Hn Hk H0) as [[Eo E]|(Eo & root & V & E)];
    rewrite E in Hx; unfold r_size.
  { destruct ext; [|discriminate Hx]. injection Hx as <-. apply reads_bit, Hunc. lia. }
  injection Hx as <-.
  enough (R : reads (r_size_root m lb ub zero body) root v) by (destruct ext; [apply reads_bit|]; exact R).
  unfold r_size_root. cbv zeta.
  destruct V as [u lenb -> Hu Hx Hpt | -> ->]; cbn [opt_or].
  - assert (R : reads (fun s => if fixed_size lb (Some u) then body u false s
                               else let! (l, s) := r_length_determinant m lb (Some u) s in
                                    body l (negb (is_some lb) && negb (is_some (Some u))) s) (lenb ++ content) v).
    { destruct (fixed_size lb (Some u)).
      - destruct (Hpt (or_introl eq_refl)) as [-> <-]. exact Hplain.
      - eapply (reads_bind (r_length_determinant m lb (Some u))).
        + intros s tail. apply (length_read m lb (Some u) n lenb s tail); [cbn; lia|exact Hx].
        + cbn [is_some negb]. rewrite andb_false_r. exact Hplain. }
    destruct zero as [a|]; [|exact R]. destruct (N.eqb_spec u 0) as [U0|_]; [|exact R].
    destruct (Hpt (or_intror U0)) as [-> En]. rewrite H0, (Hzero a) by (auto; lia). apply reads_nil.
  - assert (R := Hunc ltac:(auto)).
    destruct zero; [destruct (N.eqb_spec I64_MAX 0) as [E0|_]; [discriminate E0|]|]; exact R.
Qed.

Lemma octetstring_read m lb ub extensible bytes bs s tail :
  blen bytes <= ALLOC_LIMIT -> ~ Known_C10_sized_length lb ub (blen bytes) ->
  x_octetstring lb ub extensible bytes = Some bs -> at_src s bs tail ->
  r_octetstring m lb ub extensible s = Ok (bits_of_bytes bytes, src_adv s (bl bs) tail).
Proof.
  intros Hn Hk Hx. revert s tail. apply reads_intro.
  assert (Hl : bl (bits_of_bytes bytes) = 8 * blen bytes) by apply bits_len8.
  apply (r_size_reads m 8 lb ub extensible (blen bytes) (bits_of_bytes bytes) (Some []) (octet_rbody m) _ bs Hl);
    [unfold ALLOC_LIMIT, two63 in *; lia|exact Hk|exact Hx|apply octet_rbody_plain; auto|intros _; apply r_octet_unc, Hl|].
  intros a [= <-] H0. symmetry. apply bl_0_nil. lia.
Qed.

(* F10-2: 16K bits or more with the unconstrained length form (no usable upper bound below 64K,
   or out of the extension root): the code does not follow the fragmentation procedure *)
Definition Known_C10_bitstring_16k (lb ub : option N) (len : N) : Prop :=
  16384 <= len /\ ~ (exists u, ub = Some u /\ u < 65536 /\ opt_or lb 0 <= len <= u).

(* outside F10-2 the unconstrained length form is only used below 16K *)
Lemma bitstring_16k_unc lb ub n : ~ Known_C10_bitstring_16k lb ub n ->
  n <= 65536 /\ (n < opt_or lb 0 \/ opt_or ub I64_MAX < n \/ ub = None -> n < 16384).
Proof.
  intros H16. unfold Known_C10_bitstring_16k in H16. split.
  - destruct (N.le_gt_cases n 65536) as [L|L]; [exact L|]. exfalso. apply H16. split; [lia|].
    intros (u & _ & Hu & _ & Hle). lia.
  - intros Ho. destruct (N.lt_ge_cases n 16384) as [L|G]; [exact L|]. exfalso. apply H16. split; [exact G|].
    intros (u & -> & _ & Hlo & Hhi). cbn [opt_or] in Ho. destruct Ho as [?|[?|?]]; [lia|lia|discriminate].
Qed.

Lemma bitstring_write m lb ub extensible bytes offset len :
  offset + len <= 8 * blen bytes -> len < two63 ->
  ~ Known_C10_sized_length lb ub len -> ~ Known_C10_bitstring_16k lb ub len ->
  w_bitstring m lb ub extensible bytes offset len =
  match x_bitstring lb ub extensible
          (firstn (N.to_nat len) (skipn (N.to_nat offset) (bits_of_bytes bytes))) with
  | Some bs => Ok bs | None => Err E_SIZE_RANGE end.
Proof.
  intros Hsrc Hn Hk H16. unfold w_bitstring, x_bitstring. cbv zeta.
  set (srcb := bits_of_bytes bytes).
  assert (Hl : bl srcb = 8 * blen bytes) by apply bits_len8.
  set (content := firstn (N.to_nat len) (skipn (N.to_nat offset) srcb)).
  assert (Hcl : N.of_nat (length content) = len).
  { unfold content. rewrite firstn_length, skipn_length. unfold bl in Hl. lia. }
  rewrite Hcl. destruct (bitstring_16k_unc lb ub len H16) as [Hsmall Hunc].
  unfold MAX_FRAGMENTS_SIZE. destruct (N.ltb_spec 65536 len) as [L|_]; [lia|].
  replace (N.min 65536 len) with len by lia.
  rewrite (w_bits_ol_ok srcb offset len) by lia. fold content.
  assert (H0 : len = 0 -> content = []) by (intros E; apply bl_0_nil; unfold bl; lia).
  destruct (x_sized_run_cases 1 lb ub extensible len content Hn Hk H0) as [[Eo ->]|(Eo & root & V & ->)]; rewrite Eo.
  { destruct extensible; [|reflexivity]. rewrite w_len_unc. cbn [bind].
    rewrite x_run_short, x_len_first_short by (apply Hunc; lia). reflexivity. }
  destruct V as [u lenb -> Hu Hx Hpt | -> ->]; cbn [opt_or].
  - destruct (_ && _) eqn:F.
    + destruct (Hpt (or_introl F)) as [-> _]. reflexivity.
    + rewrite (length_write m lb (Some u) len lenb) by (cbn; lia || exact Hx). reflexivity.
  - rewrite w_len_unc. cbn [bind]. rewrite x_run_short, x_len_first_short by (apply Hunc; auto). reflexivity.
Qed.

Lemma bitstring_reject m lb ub bytes offset len :
  len < opt_or lb 0 \/ opt_or ub I64_MAX < len ->
  w_bitstring m lb ub false bytes offset len = Err E_SIZE_RANGE.
Proof.
  intros H. unfold w_bitstring. cbv zeta.
  replace ((len <? opt_or lb 0) || (opt_or ub I64_MAX <? len)) with true by lia. reflexivity.
Qed.

(* the reference encoding exists, the writer succeeds, and its output is 8 bits shorter
   (the final zero-length determinant of 11.9.3.8.3 is missing) *)
Definition bitstring_8_bits_short (m : mode) (lb ub : option N) (bytes : list N) (offset len : N) : bool :=
  match x_bitstring lb ub false (firstn (N.to_nat len) (skipn (N.to_nat offset) (bits_of_bytes bytes))),
        w_bitstring m lb ub false bytes offset len with
  | Some a, Ok b => Nat.eqb (length a) (length b + 8)
  | _, _ => false
  end.

Definition bit_rbody (m : mode) (bit_len : N) (frag : bool) (s : src) : res (bits * N * N * src) :=
  let byte_len := (bit_len + 7) / 8 in
  let! _ := alloc byte_len in
  let! (bs, s) := r_bits_into s (8 * byte_len) 0 bit_len in
  if frag && (LENGTH_16K <=? bit_len) then
    r_bit_frag_loop (S (N.to_nat (s_len s - s_pos s))) m s bs bit_len byte_len byte_len
  else Ok (bs, bit_len, byte_len, s).

Lemma r_bitstring_eq m lb ub extensible s :
  r_bitstring m lb ub extensible s = r_size m lb ub extensible None (bit_rbody m) s.
Proof. reflexivity. Qed.

Lemma bit_rbody_plain m n frag body :
  bl body = n -> n <= ALLOC_LIMIT -> frag = false \/ n < 16384 ->
  reads (bit_rbody m n frag) body (body, n, (n + 7) / 8).
Proof.
  intros Hl Ha Hfr s tail Hs. unfold bit_rbody. cbv zeta.
  rewrite alloc_ok by (unfold ALLOC_LIMIT in *; lia). cbn [bind].
  rewrite (r_bits_into_ok _ _ _ _ _ _ Hs), Hl by lia. cbn [bind]. unfold LENGTH_16K.
  destruct Hfr as [->|Hn]; [reflexivity|].
  destruct (N.leb_spec 16384 n); [lia|]. rewrite andb_false_r. reflexivity.
Qed.

Lemma r_bit_unc m content : bl content < 16384 ->
  reads (fun s => let! (l, s) := r_length_determinant m None None s in bit_rbody m l true s)
        (x_unconstrained_length_run 1 (bl content) content) (content, bl content, (bl content + 7) / 8).
Proof.
  intros Hsm. rewrite x_run_short, <- x_len_first_short by exact Hsm.
  eapply (reads_bind (r_length_determinant m None None)); [apply r_len_unc_first|].
  unfold len_result, len_frag. rewrite frag_of_short by exact Hsm.
  apply bit_rbody_plain; [reflexivity|unfold ALLOC_LIMIT; lia|auto].
Qed.

Lemma bitstring_read m lb ub extensible content bs s tail :
  bl content <= ALLOC_LIMIT ->
  ~ Known_C10_sized_length lb ub (bl content) -> ~ Known_C10_bitstring_16k lb ub (bl content) ->
  x_bitstring lb ub extensible content = Some bs -> at_src s bs tail ->
  r_bitstring m lb ub extensible s =
  Ok (content, bl content, (bl content + 7) / 8, src_adv s (bl bs) tail).
Proof.
  intros Hn Hk H16 Hx. revert s tail. apply reads_intro.
  apply (r_size_reads m 1 lb ub extensible (bl content) content None (bit_rbody m) _ bs);
    [lia|unfold ALLOC_LIMIT, two63 in *; lia|exact Hk|exact Hx|apply bit_rbody_plain; auto| |discriminate].
  intros Ho. apply r_bit_unc, (bitstring_16k_unc lb ub _ H16), Ho.
Qed.

Definition np {A} (r : res A) : Prop := is_panic r = false.

Lemma np_bind {A B} (r : res A) (f : A -> res B) :
  np r -> (forall a, r = Ok a -> np (f a)) -> np (bind r f).
Proof. unfold np. destruct r; cbn; auto. Qed.

Lemma np_bind' {A B} (r : res A) (f : A -> res B) :
  np r -> (forall a, np (f a)) -> np (bind r f).
Proof. intros H1 H2. apply np_bind; auto. Qed.

Lemma np_ret {A} (a : A) : np (Ok a). Proof. reflexivity. Qed.
Lemma np_fail {A} e : np (@Err A e). Proof. reflexivity. Qed.

(* [auto with np] walks straight-line code: a bind needs both parts, a conditional or a
   destructuring of a pair both branches; what depends on arithmetic is proved by hand below
   and added to the database *)
Create HintDb np discriminated.
#[export] Hint Resolve np_ret np_fail np_bind' : np.
#[export] Hint Extern 2 (np (if ?c then _ else _)) => destruct c : np.
#[export] Hint Extern 2 (np (match ?x with pair _ _ => _ end)) => destruct x : np.

Lemma w_bits_ol_np srcb off len : np (w_bits_ol srcb off len).
Proof. unfold w_bits_ol. auto with np. Qed.

Lemma bounded_cases lb ub : (lb = None /\ ub = None) \/ nn_bounded lb ub.
Proof. destruct lb; [right; left; discriminate|]. destruct ub; [right; right; discriminate|auto]. Qed.

Lemma w_nnbi_np m lb ub v : np (w_nnbi m lb ub v).
Proof.
  destruct (bounded_cases lb ub) as [[-> ->]|Hb]; [reflexivity|].
  rewrite (w_nnbi_bounded_eq m lb ub v Hb). cbv zeta. destruct (_ || _) eqn:G; [reflexivity|].
  rewrite !usub_ok by lia. reflexivity.
Qed.
#[export] Hint Resolve w_bits_ol_np w_nnbi_np : np.

Lemma w_length_np m lb ub v : np (w_length_determinant m lb ub v).
Proof. unfold w_length_determinant. auto 7 with np. Qed.

Lemma w_length_frag m lb ub v hb fs : w_length_determinant m lb ub v = Ok (hb, fs) ->
  fs = None \/ (hb, fs) = (x_len_first v, frag_of v).
Proof.
  unfold w_length_determinant, LENGTH_127, LENGTH_16K, MAX_FRAGMENTS.
  repeat match goal with
  | |- (if ?c then _ else _) = _ -> _ => destruct c eqn:?
  | |- bind ?r _ = _ -> _ => destruct r; cbn [bind]
  end; intros H; try discriminate; injection H as <- <-; auto.
  right. unfold x_len_first, frag_of. destruct (N.ltb_spec v 16384); [lia|reflexivity].
Qed.

Lemma w_twos_np m k v : np (w_2s_compliment m k v).
Proof. unfold w_2s_compliment. auto with np. Qed.

Lemma w_constrained_np m lb ub v : np (w_constrained m lb ub v).
Proof. unfold w_constrained. auto with np. Qed.

Lemma w_normally_small_np m v : np (w_normally_small m v).
Proof. unfold w_normally_small. auto with np. Qed.

Lemma w_semi_constrained_np m lb v : np (w_semi_constrained m lb v).
Proof. unfold w_semi_constrained. auto with np. Qed.
#[export] Hint Resolve w_length_np w_twos_np w_constrained_np w_normally_small_np w_semi_constrained_np : np.

Lemma w_unconstrained_np m v : np (w_unconstrained m v).
Proof. unfold w_unconstrained. auto with np. Qed.

Lemma w_index_np m std ext i : np (w_enumeration_index m std ext i).
Proof.
  unfold w_enumeration_index. destruct (N.leb_spec std i) as [H|H].
  - destruct ext; [|reflexivity]. rewrite usub_ok by exact H. auto with np.
  - rewrite usub_ok by lia. auto with np.
Qed.

(* for whatever bounds the length determinant was written (F10-1 included), the continuation gets one of the
   two argument pairs for which [octet_cont_none] and [octet_cont_unc] compute its result *)
Lemma octet_cont_np m pre srcb n hb fs : bl srcb = 8 * n ->
  fs = None \/ (hb, fs) = (x_len_first n, frag_of n) -> np (octet_cont m pre srcb n hb fs).
Proof. intros Hl [->|[= -> ->]]; [rewrite octet_cont_none|rewrite octet_cont_unc]; auto; reflexivity. Qed.

Lemma w_octetstring_np m lb ub extensible bytes : np (w_octetstring m lb ub extensible bytes).
Proof.
  rewrite w_octetstring_eq. cbv zeta. pose proof (bits_len8 bytes) as Hl.
  assert (C : forall pre lb' ub',
    np (let! (hb, fs) := w_length_determinant m lb' ub' (blen bytes) in
        octet_cont m pre (bits_of_bytes bytes) (blen bytes) hb fs)).
  { intros pre lb' ub'. apply np_bind; [apply w_length_np|]. intros [hb fs] E.
    apply octet_cont_np; [exact Hl|]. eapply w_length_frag, E. }
  destruct (_ || _).
  - destruct extensible; [apply C|reflexivity].
  - destruct (_ =? 0); [reflexivity|].
    destruct (_ && _); [apply octet_cont_np; auto|apply C].
Qed.

Lemma w_bit_loop_np m srcb offset length : forall fuel written,
  length - written < 16384 * N.of_nat fuel -> np (w_bit_frag_loop fuel m srcb offset length written).
Proof.
  induction fuel as [|f IH]; intros written Hf; [lia|].
  cbn [w_bit_frag_loop]. unfold MAX_FRAGMENTS_SIZE, MIN_FRAGMENT_SIZE.
  set (fs0 := N.min (length - written) 65536). set (fsz := fs0 - fs0 mod 16384).
  apply np_bind'; [apply w_length_np|intros [hb ?]].
  apply np_bind'; [apply w_bits_ol_np|intros body].
  destruct (N.ltb_spec fsz 16384) as [Hs|Hb]; [reflexivity|].
  assert (Hle : fsz <= length - written) by (etransitivity; [apply N.le_sub_l|apply N.le_min_l]).
  apply np_bind'; [|reflexivity]. apply IH. clearbody fsz. lia.
Qed.

Lemma w_bitstring_np m lb ub extensible bytes offset len : np (w_bitstring m lb ub extensible bytes offset len).
Proof.
  unfold w_bitstring. cbv zeta. apply np_bind'; [auto 7 with np|intros hb].
  apply np_bind'; [apply w_bits_ol_np|intros body].
  destruct (_ <? _); [|reflexivity]. apply np_bind'; [|reflexivity].
  apply w_bit_loop_np. unfold MIN_FRAGMENT_SIZE, MAX_FRAGMENTS_SIZE. lia.
Qed.

#[export] Hint Resolve w_unconstrained_np w_index_np w_octetstring_np w_bitstring_np : np.

Lemma r_bit_np s : np (r_bit s).
Proof. unfold r_bit. destruct (_ <? _); [|reflexivity]. destruct (s_rest s); reflexivity. Qed.

Lemma r_bits_into_np s d o n : np (r_bits_into s d o n).
Proof. unfold r_bits_into. auto with np. Qed.
#[export] Hint Resolve r_bit_np r_bits_into_np : np.

(* the bits left up to the declared length (0 when the cursor is behind it, where Bits::remaining underflows) *)
Definition rem (s : src) : N := s_len s - s_pos s.

(* what a successful read leaves behind: [s] moved on by [n] bits inside its declared length *)
Definition adv (s : src) (n : N) (s' : src) : Prop :=
  n <= rem s /\ s' = src_adv s n (skipn (N.to_nat n) (s_rest s)).

Lemma adv_rem s n s' : adv s n s' -> rem s' + n = rem s.
Proof. intros [L ->]. unfold rem, src_adv in *. cbn [s_len s_pos]. lia. Qed.

Lemma r_bit_adv s b s' : r_bit s = Ok (b, s') -> adv s 1 s'.
Proof.
  unfold r_bit, adv, rem. destruct (N.ltb_spec (s_pos s) (s_len s)) as [H|H]; [|discriminate].
  destruct (s_rest s) as [|x rest]; [discriminate|]. intros E. injection E as _ <-. split; [lia|reflexivity].
Qed.

Lemma r_bits_into_adv s d o n bs s' : r_bits_into s d o n = Ok (bs, s') ->
  adv s n s' /\ bs = firstn (N.to_nat n) (s_rest s).
Proof.
  unfold r_bits_into, adv, rem. destruct (N.ltb_spec (s_len s - s_pos s) n) as [L|L]; [discriminate|].
  repeat (destruct (_ <? _); [discriminate|]). intros E. injection E as <- <-. auto.
Qed.

Lemma r_bit_rem s b s' : r_bit s = Ok (b, s') -> rem s' + 1 = rem s.
Proof. intros E. exact (adv_rem _ _ _ (r_bit_adv _ _ _ E)). Qed.

Lemma r_bits_into_rem s d o n bs s' : r_bits_into s d o n = Ok (bs, s') -> rem s' + n = rem s.
Proof. intros E. exact (adv_rem _ _ _ (proj1 (r_bits_into_adv _ _ _ _ _ _ E))). Qed.

Lemma r_bits_into_val s d o n bs s' : r_bits_into s d o n = Ok (bs, s') -> val_of_bits bs < 2 ^ n.
Proof.
  intros E. apply r_bits_into_adv in E. destruct E as [_ ->].
  eapply N.lt_le_trans; [apply vob_lt|]. apply N.pow_le_mono_r; [lia|].
  unfold bl. rewrite firstn_length. lia.
Qed.

Lemma r_len_unc_np s : np (r_length_determinant_unc s).
Proof. unfold r_length_determinant_unc. auto 9 with np. Qed.
#[export] Hint Resolve r_len_unc_np : np.

Lemma r_nnbi_unbounded_np m s : np (r_nnbi m None None s).
Proof. cbn [r_nnbi]. unfold r_bits. auto 7 with np. Qed.

(* bounded form: the hypothesis says that lower plus the largest value of the field is a u64;
   2 * upper < 2^64 + lower is enough for it, and with lower = 0 every u64 upper satisfies it *)
Lemma r_nnbi_bounded_np m lb ub s : nn_bounded lb ub ->
  opt_or lb 0 + 2 ^ N.size (opt_or ub I64_MAX - opt_or lb 0) <= two64 ->
  np (r_nnbi m lb ub s).
Proof.
  intros Hb Hr. rewrite (r_nnbi_bounded_eq m lb ub Hb). cbv beta zeta.
  set (lower := opt_or lb 0) in *. set (upper := opt_or ub I64_MAX) in *.
  apply np_bind; [apply r_bits_into_np|intros [bs s1] Er]. apply r_bits_into_val in Er.
  assert (2 ^ (64 - lz64 (upper - lower)) <= 2 ^ N.size (upper - lower))
    by (apply N.pow_le_mono_r; unfold lz64; lia).
  rewrite uadd_ok by lia. reflexivity.
Qed.

Lemma r_nnbi_upto_np m u s : u < two64 -> np (r_nnbi m None (Some u) s).
Proof.
  intros Hu. apply r_nnbi_bounded_np; [right; discriminate|]. cbn [opt_or]. rewrite N.sub_0_r, N.add_0_l.
  change two64 with (2 ^ 64). apply N.pow_le_mono_r; [lia|]. apply size_le_of_lt, Hu.
Qed.

Lemma r_constrained_np m lb ub s : np (r_constrained m lb ub s).
Proof.
  unfold r_constrained. pose proof (r_nnbi_upto_np m _ s (u64_of_i64_lt (ub - lb))). auto with np.
Qed.

Lemma r_normally_small_np m s : np (r_normally_small m s).
Proof.
  unfold r_normally_small. apply np_bind'; [apply r_bit_np|intros [big s1]].
  destruct big; [apply r_nnbi_unbounded_np|]. apply r_nnbi_upto_np. reflexivity.
Qed.
#[export] Hint Resolve r_nnbi_unbounded_np r_normally_small_np : np.

Lemma r_semi_constrained_np m lb s : np (r_semi_constrained m lb s).
Proof. unfold r_semi_constrained. auto with np. Qed.

Lemma r_twos_np k s : np (r_2s_compliment k s).
Proof. unfold r_2s_compliment. auto with np. Qed.

Lemma r_unconstrained_np m s : np (r_unconstrained m s).
Proof.
  unfold r_unconstrained. rewrite r_len_unc_eq.
  apply np_bind'; [apply r_len_unc_np|intros [? ?]; apply r_twos_np].
Qed.

Lemma r_length_np m lb ub s : opt_or lb 0 < two64 -> ~ Known_C10_length_semi_or_large_bound lb ub ->
  np (r_length_determinant m lb ub s).
Proof.
  intros Hl Hk. destruct (not_known_cases lb ub Hk) as [(u & -> & Hu)|[-> ->]].
  - rewrite r_len_constrained by exact Hu. apply r_nnbi_bounded_np; [right; discriminate|].
    cbn [opt_or]. set (l := opt_or lb 0) in *.
    destruct (N.le_gt_cases l u) as [Hle|Hgt].
    + assert (2 ^ N.size (u - l) <= 2 ^ 16).
      { apply N.pow_le_mono_r; [lia|]. apply size_le_of_lt. change (2 ^ 16) with 65536. lia. }
      change (2 ^ 16) with 65536 in *. unfold two64. lia.
    + replace (u - l) with 0 by lia. cbn [N.size N.pow]. lia.
  - rewrite r_len_unc_eq. apply r_len_unc_np.
Qed.

#[export] Hint Resolve r_nnbi_bounded_np r_constrained_np r_semi_constrained_np r_twos_np r_unconstrained_np r_length_np : np.

(* the index reader on an arbitrary source, extensible or not: the extension branch adds
   std_variants with a checked addition (an error, not a panic or a wrapped index) *)
Lemma r_index_np m std ext s : std < two64 -> np (r_enumeration_index m std ext s).
Proof.
  intros Hs. unfold r_enumeration_index.
  assert (Small : forall s1,
    np (if std =? 0 then Err E_INVALID_CHOICE else r_nnbi m None (Some (std - 1)) s1))
    by (intros s1; destruct (std =? 0); [reflexivity|apply r_nnbi_upto_np; lia]).
  auto 9 with np.
Qed.

Lemma r_field_inv s d o k (g : N -> N) v s' :
  (let! (bs, s1) := r_bits_into s d o k in Ok (g (val_of_bits bs), s1)) = Ok (v, s') ->
  exists x, x < 2 ^ k /\ v = g x /\ rem s' + k = rem s.
Proof.
  destruct (r_bits_into s d o k) as [[bs s1]| |] eqn:E; cbn [bind]; try discriminate.
  intros H. injection H as <- <-. exists (val_of_bits bs).
  split; [exact (r_bits_into_val _ _ _ _ _ _ E)|]. split; [reflexivity|exact (r_bits_into_rem _ _ _ _ _ _ E)].
Qed.

Lemma r_len_unc_bound s l s' : r_length_determinant_unc s = Ok (l, s') ->
  l <= 65536 /\ rem s' < rem s.
Proof.
  unfold r_length_determinant_unc.
  destruct (r_bit s) as [[b1 s1]| |] eqn:E1; cbn [bind]; try discriminate.
  apply r_bit_rem in E1. destruct (negb b1).
  - intros H. apply (r_field_inv _ _ _ _ (fun x => x)) in H. destruct H as (x & Hx & -> & Hr).
    change (2 ^ 7) with 128 in Hx. lia.
  - destruct (r_bit s1) as [[b2 s2]| |] eqn:E2; cbn [bind]; try discriminate.
    apply r_bit_rem in E2. destruct (negb b2); intros H.
    + apply (r_field_inv _ _ _ _ (fun x => x)) in H. destruct H as (x & Hx & -> & Hr).
      change (2 ^ 14) with 16384 in Hx. lia.
    + apply (r_field_inv _ _ _ _ (fun x => LENGTH_16K * N.min x MAX_FRAGMENTS)) in H.
      destruct H as (x & _ & -> & Hr). unfold LENGTH_16K, MAX_FRAGMENTS. lia.
Qed.

Lemma r_octet_loop_np m : forall fuel s acc, rem s < N.of_nat fuel -> np (r_octet_frag_loop fuel m s acc).
Proof.
  induction fuel as [|f IH]; intros s acc Hf; [lia|].
  cbn [r_octet_frag_loop]. rewrite r_len_unc_eq.
  apply np_bind; [apply r_len_unc_np|intros [ext s1] E1].
  apply r_len_unc_bound in E1. destruct E1 as [Hl Hr].
  rewrite alloc_ok by (unfold ALLOC_LIMIT; lia). cbn [bind].
  apply np_bind; [apply r_bits_into_np|intros [bs s2] E2]. apply r_bits_into_rem in E2.
  destruct (_ <? _); [reflexivity|]. apply IH. lia.
Qed.

Lemma octet_rbody_np m n frag s : n <= ALLOC_LIMIT -> np (octet_rbody m n frag s).
Proof.
  intros Hn. unfold octet_rbody. rewrite alloc_ok by exact Hn. cbn [bind].
  apply np_bind'; [apply r_bits_into_np|intros [bs s1]].
  destruct (_ && _); [|reflexivity]. apply r_octet_loop_np. unfold rem. lia.
Qed.

(* 131072 = 2 * 64K: outside F10-1 a bounded length is lb plus a field of at most 16 bits with lb <= ub < 64K,
   an unconstrained one at most 4 * 16K. Either is far below ALLOC_LIMIT, which is all that [r_size_np] asks. *)
Lemma r_length_bound m lb ub s l s' :
  ~ Known_C10_length_semi_or_large_bound lb ub -> opt_or lb 0 <= opt_or ub I64_MAX ->
  r_length_determinant m lb ub s = Ok (l, s') -> l <= 131072.
Proof.
  intros Hk Hwf. destruct (not_known_cases lb ub Hk) as [(u & -> & Hu)|[-> ->]].
  - rewrite r_len_constrained by exact Hu. cbn [opt_or] in Hwf. set (lo := opt_or lb 0) in *.
    rewrite (r_nnbi_bounded_eq m lb (Some u)) by (right; discriminate). cbv beta zeta. cbn [opt_or]. fold lo.
    destruct (r_bits_into s 64 _ _) as [[bs s1]| |] eqn:E1; cbn [bind]; try discriminate.
    apply r_bits_into_val in E1.
    assert (N.size (u - lo) <= 16) by (apply size_le_of_lt; change (2 ^ 16) with 65536; lia).
    assert (2 ^ (64 - lz64 (u - lo)) <= 2 ^ 16) by (apply N.pow_le_mono_r; unfold lz64; lia).
    change (2 ^ 16) with 65536 in *.
    rewrite uadd_ok by (unfold two64; lia). cbn [bind]. intros H'. injection H' as <- _. lia.
  - rewrite r_len_unc_eq. intros H. apply r_len_unc_bound in H. lia.
Qed.

Lemma r_size_np {A} m lb ub ext zero (body : N -> bool -> src -> res (A * src)) s :
  ~ Known_C10_length_semi_or_large_bound lb ub -> opt_or lb 0 <= opt_or ub I64_MAX ->
  (forall l fr s, l <= 131072 -> (fr = true -> ext = true \/ ub = None) -> np (body l fr s)) ->
  np (r_size m lb ub ext zero body s).
Proof.
  intros Hk Hwf Hb.
  assert (Hl64 : opt_or lb 0 < two64).
  { destruct (not_known_cases lb ub Hk) as [(u & -> & Hu)|[-> ->]]; cbn [opt_or] in *; unfold two64; lia. }
  assert (Root : forall s1, np (r_size_root m lb ub zero body s1)).
  { intros s1. unfold r_size_root. cbv zeta.
    enough (np (if fixed_size lb ub then body (opt_or ub I64_MAX) false s1
                else let! (l, s2) := r_length_determinant m lb ub s1 in
                     body l (negb (is_some lb) && negb (is_some ub)) s2))
      by (destruct zero; [destruct (_ =? 0); [reflexivity|]|]; assumption).
    unfold fixed_size. destruct (is_some lb && opt_n_eqb lb ub && (opt_or ub I64_MAX <? LENGTH_64K)) eqn:Ef.
    - apply andb_true_iff in Ef. destruct Ef as [_ Ef]. apply N.ltb_lt in Ef.
      apply Hb; [unfold LENGTH_64K in *; lia|discriminate].
    - apply np_bind; [apply r_length_np; assumption|intros [l s2] E].
      apply r_length_bound in E; [|assumption|assumption].
      apply Hb; [exact E|]. destruct ub; [rewrite andb_false_r; discriminate|auto]. }
  unfold r_size. destruct ext; [|apply Root].
  apply np_bind'; [apply r_bit_np|intros [e s1]]. destruct e; [|apply Root].
  rewrite r_len_unc_eq. apply np_bind; [apply r_len_unc_np|intros [l s2] E].
  apply r_len_unc_bound in E. apply Hb; [lia|auto].
Qed.

Lemma r_octetstring_np m lb ub extensible s :
  ~ Known_C10_length_semi_or_large_bound lb ub -> opt_or lb 0 <= opt_or ub I64_MAX ->
  np (r_octetstring m lb ub extensible s).
Proof.
  intros Hk Hwf. rewrite r_octetstring_eq. apply r_size_np; [exact Hk|exact Hwf|].
  intros l fr s1 Hl _. apply octet_rbody_np. unfold ALLOC_LIMIT. lia.
Qed.

(* read_bitstring is free of panics only where no fragment can follow, i.e. where the length cannot arrive in
   the unconstrained form: an upper bound below 64K and no extension marker. Its fragment loop underflows on the
   second fragment (F10-2 on the read side, F04-3; C10_refuted_bitstring_read_16k). *)
Lemma bit_rbody_np m n s : n <= 8 * ALLOC_LIMIT -> np (bit_rbody m n false s).
Proof.
  intros Hn. unfold bit_rbody. cbv zeta. rewrite alloc_ok by (unfold ALLOC_LIMIT in *; lia). cbn [bind andb].
  auto with np.
Qed.

Lemma r_bitstring_np m lb u s : u < 65536 -> opt_or lb 0 <= u ->
  np (r_bitstring m lb (Some u) false s).
Proof.
  intros Hu Hwf. rewrite r_bitstring_eq. apply r_size_np; [cbn; lia|exact Hwf|].
  intros l [|] s1 Hl Hfr; [destruct Hfr as [?|?]; [reflexivity|discriminate..]|].
  apply bit_rbody_np. unfold ALLOC_LIMIT. lia.
Qed.
