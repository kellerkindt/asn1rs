(* Front/AttrItemProofs.v -- the whole attribute is read back as itself; at item level extensible_after(..) finds its member
   and into_asn keeps the constants (Props/C08.v).  On top of Front/CodegenProofs.v *)
From A1 Require Import Gen.Keywords Front.Codegen Front.Attr Front.AttrItem Front.CodegenProofs.
Local Open Scope N_scope.

Definition wf_const (c : list N * Z) : Prop := wf_name (fst c) /\ in_i64 (snd c) = true.

Definition wf_primary (c : ctx) (p : primary) : Prop :=
  match c, p with
  | CHeader, PHeader _ => True
  | CTransparent, PType t | CChoiceVariant, PType t => wf_aty t
  | CEnumVariant, PNumber (Some n) => n <= USIZE_MAX
  | CEnumVariant, PNumber None => True
  | _, _ => False
  end.

Definition tag_ok (c : ctx) (tg : option tag) : Prop :=
  match tg with Some g => ctx_taggable c = true /\ tag_number g <= USIZE_MAX | None => True end.
Definition ext_ok (c : ctx) (ex : option (list N)) : Prop :=
  match ex with Some _ => ctx_ext c = true | None => True end.
Definition consts_ok (c : ctx) (cs : list (list N * Z)) : Prop :=
  match cs with [] => True | c0 :: l => ctx_consts c = true /\ Forall wf_const (c0 :: l) end.

(* the parts are those the context admits (the generator never prints another one: header without const, fields without
   extensible_after, variants with neither) and their numbers fit the types of the parser *)
Definition wf_attr (c : ctx) (a : attr) : Prop :=
  wf_primary c (a_primary a) /\
  tag_ok c (a_tag a) /\ ext_ok c (a_ext a) /\ consts_ok c (a_consts a).

Lemma join_cons p ps : join_comma (p :: ps) = p ++ flat_map (fun q => TPunct COMMA :: q) ps.
Proof. reflexivity. Qed.

Lemma eof_or_comma_flat parts : eof_or_comma (flat_map (fun q => TPunct COMMA :: q) parts) = Ok (join_comma parts).
Proof. destruct parts as [|p ps]; reflexivity. Qed.

Lemma rest_ok_flat parts : rest_ok (flat_map (fun q => TPunct COMMA :: q) parts).
Proof. destruct parts as [|p ps]; exact I. Qed.

Lemma parse_consts_item c rest :
  wf_const c ->
  parse_consts (print_const c ++ rest) =
  match rest with
  | [] => Ok [c]
  | TPunct p :: rest' => if p =? COMMA then let! l := parse_consts rest' in Ok (c :: l) else Err E_SYN
  | _ => Err E_SYN
  end.
Proof.
  destruct c as [n z]. intros [[Hn1 Hn2] Hz]. cbn [fst snd] in *. cbn [print_const fst snd app parse_consts].
  rewrite Hn1, Hn2. cbn [negb orb]. rewrite take_int_print_z_all, Hz. reflexivity.
Qed.

Lemma parse_consts_ok : forall cs c0, Forall wf_const (c0 :: cs) ->
  parse_consts (join_comma (map print_const (c0 :: cs))) = Ok (c0 :: cs).
Proof.
  induction cs as [|c1 cs IH]; intros c0 Hw; inversion Hw as [|x l Hc Hrest]; subst;
    rewrite map_cons, join_cons, (parse_consts_item c0 _ Hc).
  - reflexivity.
  - change (flat_map (fun q => TPunct COMMA :: q) (map print_const (c1 :: cs)))
      with (TPunct COMMA :: join_comma (map print_const (c1 :: cs))).
    cbv beta iota. rewrite N.eqb_refl, (IH c1 Hrest). reflexivity.
Qed.

Lemma items_step c a id g a' ps :
  parse_item c a (lower_str id) g = Ok a' ->
  parse_items c a (join_comma ([TIdent id; TParen g] :: ps)) = parse_items c a' (join_comma ps).
Proof.
  intros H. rewrite join_cons. cbn [app parse_items]. rewrite H. cbn [bind].
  destruct ps as [|p ps]; [reflexivity|]. cbn [flat_map app]. rewrite N.eqb_refl. reflexivity.
Qed.

Lemma items_tag c a tg ps :
  tag_ok c tg ->
  parse_items c a (join_comma (opt_list (option_map print_tag tg) ++ ps))
  = parse_items c (match tg with Some g => set_tag a g | None => a end) (join_comma ps).
Proof.
  destruct tg as [g|]; [|reflexivity]. intros [Hc Hg]. apply items_step. unfold parse_item.
  change (str_eqb (lower_str S_tag) S_tag) with true. rewrite Hc. cbn [andb].
  rewrite (parse_tag_ok g _ [] Hg eq_refl). reflexivity.
Qed.

Lemma items_ext c a ex ps :
  ext_ok c ex ->
  parse_items c a (join_comma (opt_list (option_map print_ext ex) ++ ps))
  = parse_items c (match ex with Some name => set_ext a name | None => a end) (join_comma ps).
Proof.
  destruct ex as [name|]; [|reflexivity]. intros Hc. apply items_step. unfold parse_item.
  change (str_eqb (lower_str S_extensible_after) S_tag) with false.
  change (str_eqb (lower_str S_extensible_after) S_extensible_after) with true. rewrite Hc. reflexivity.
Qed.

Lemma items_consts c a cs :
  consts_ok c cs ->
  parse_items c a (join_comma match cs with [] => [] | c0 :: l => [print_consts (c0 :: l)] end)
  = Ok (match cs with [] => a | _ => add_consts a cs end).
Proof.
  destruct cs as [|c0 cs]; [reflexivity|]. intros [Hc Hw]. unfold print_consts.
  rewrite (items_step c a S_const _ (add_consts a (c0 :: cs)) []); [reflexivity|].
  unfold parse_item.
  change (str_eqb (lower_str S_const) S_tag) with false. change (str_eqb (lower_str S_const) S_extensible_after) with false.
  change (str_eqb (lower_str S_const) S_const) with true. rewrite Hc. cbn [andb].
  rewrite (parse_consts_ok cs c0 Hw). reflexivity.
Qed.

Lemma items_tail c p tg cs ex :
  tag_ok c tg -> ext_ok c ex -> consts_ok c cs ->
  parse_items c (mk_attr p None [] None) (join_comma (tail_parts (mk_attr p tg cs ex))) = Ok (mk_attr p tg cs ex).
Proof.
  intros Ht He Hc. unfold tail_parts. cbn [a_tag a_ext a_consts].
  rewrite (items_tag c _ tg _ Ht), (items_ext c _ ex _ He), (items_consts c _ cs Hc).
  destruct tg, ex, cs; reflexivity.
Qed.

(* what C::Primary::parse makes of the printed primary, whatever part follows *)
Lemma parse_primary_print c p fuel toks rest :
  wf_primary c p -> (match p with PType t => depth t | _ => O end < fuel)%nat -> print_primary p = Some toks -> rest_ok rest ->
  parse_primary c fuel (toks ++ rest) = Ok (p, rest).
Proof.
  intros Hp Hf E Hr. destruct p as [k|t|[n|]]; [..|discriminate E]; injection E as <-; destruct c; try contradiction; cbn [app parse_primary].
  - reflexivity.
  - rewrite (reparse_ty t Hp fuel rest Hf Hr). reflexivity.
  - rewrite (reparse_ty t Hp fuel rest Hf Hr). reflexivity.
  - apply N.leb_le in Hp. rewrite Hp. reflexivity.
Qed.

Lemma reparse_attribute c a fuel :
  wf_attr c a -> (attr_depth a < fuel)%nat -> parse_attr c fuel (print_attr a) = Ok a.
Proof.
  destruct a as [p tg cs ex]. unfold wf_attr, attr_depth, print_attr, attr_parts. cbn [a_primary a_tag a_ext a_consts].
  intros [Hp [Ht [He Hc]]] Hf. destruct (print_primary p) as [toks|] eqn:E; cbn [opt_list app].
  - unfold parse_attr. rewrite join_cons, (parse_primary_print c p fuel toks _ Hp Hf E (rest_ok_flat _)). cbn [bind].
    rewrite eof_or_comma_flat. apply items_tail; assumption.
  - (* an ENUMERATED variant without number: nothing is printed, so there is no other part either *)
    destruct p as [k|t|[n|]]; try discriminate. destruct c; try contradiction.
    unfold tag_ok, ext_ok, consts_ok in *.
    destruct tg as [g|]; [destruct Ht as [Ht _]; discriminate Ht|].
    destruct ex as [name|]; [discriminate He|].
    destruct cs as [|c0 cs]; [|destruct Hc as [Hc _]; discriminate Hc].
    reflexivity.
Qed.

(* F08-1: an OCTET STRING / BIT STRING default literal occurs *)
Fixpoint Known_C08_octet_default (t : aty) : Prop :=
  match t with
  | ADef t' l => match l with LOct _ => True | _ => Known_C08_octet_default t' end
  | AOpt t' | ASeqOf t' _ | ASetOf t' _ => Known_C08_octet_default t'
  | _ => False
  end.
(* F08-3: a reference without tag occurs *)
Fixpoint Known_C08_untagged_complex (t : aty) : Prop :=
  match t with
  | ARef _ None => True
  | AOpt t' | ADef t' _ | ASeqOf t' _ | ASetOf t' _ => Known_C08_untagged_complex t'
  | _ => False
  end.
(* F08-7: an integer range with exactly one bound occurs (only extensible ranges keep a missing bound in the Rust model) *)
Fixpoint Known_C08_half_open_range (t : aty) : Prop :=
  match t with
  | AInt (Some _) None _ | AInt None (Some _) _ => True
  | AOpt t' | ADef t' _ | ASeqOf t' _ | ASetOf t' _ => Known_C08_half_open_range t'
  | _ => False
  end.
Definition Known_C08_type (t : aty) : Prop :=
  Known_C08_octet_default t \/ Known_C08_untagged_complex t \/ Known_C08_half_open_range t.

(* what the parser's number types and identifier grammar demand of the rest (no finding: the Rust model itself holds
   i64 / usize numbers and identifiers; a SIZE range of one value is normalised to a fixed size before printing) *)
Definition lit_in_model (l : lit) : Prop :=
  match l with
  | LBool _ | LStr _ | LOct _ => True
  | LInt z => in_i64 z = true
  | LEnum t v => rust_struct_or_enum_name t = t /\ rust_variant_name v = v /\ wf_name t /\ wf_name v
  end.
Fixpoint aty_in_model (t : aty) : Prop :=
  match t with
  | ABool | ANull => True
  | AInt mn mx _ => match mn with Some a => in_i64 a = true | None => True end /\
                    match mx with Some b => in_i64 b = true | None => True end
  | AStr sz _ | AOct sz | ABits sz => wf_size sz
  | AOpt t' => aty_in_model t'
  | ADef t' l => aty_in_model t' /\ lit_in_model l
  | ASeqOf t' sz | ASetOf t' sz => aty_in_model t' /\ wf_size sz
  | ARef name tg => wf_name name /\ match tg with Some g => tag_number g <= USIZE_MAX | None => True end
  end.

Lemma wf_aty_of_classes t : aty_in_model t -> ~ Known_C08_type t -> wf_aty t.
Proof.
  unfold Known_C08_type.
  induction t as [| |mn mx e|sz cs|sz|sz|t IH|t IH l|t IH sz|t IH sz|name tg]; cbn [aty_in_model wf_aty]; intros Hm Hk;
    try exact I; try exact Hm.
  - destruct mn as [a|], mx as [b|]; cbn in Hk; try tauto.
  - apply IH; [exact Hm|]. cbn in Hk. tauto.
  - destruct Hm as [Hm Hl]. split.
    + apply IH; [exact Hm|]. cbn in Hk. destruct l; tauto.
    + destruct l; cbn [wf_lit lit_in_model] in *; try exact I; try exact Hl. cbn in Hk. tauto.
  - destruct Hm as [Hm Hs]. split; [|exact Hs]. apply IH; [exact Hm|]. cbn in Hk. tauto.
  - destruct Hm as [Hm Hs]. split; [|exact Hs]. apply IH; [exact Hm|]. cbn in Hk. tauto.
  - destruct tg as [g|]; [exact Hm|]. cbn in Hk. tauto.
Qed.

Definition primary_in_model (c : ctx) (p : primary) : Prop :=
  match c, p with
  | CHeader, PHeader _ => True
  | CTransparent, PType t | CChoiceVariant, PType t => aty_in_model t
  | CEnumVariant, PNumber (Some n) => n <= USIZE_MAX
  | CEnumVariant, PNumber None => True
  | _, _ => False
  end.
Definition attr_in_model (c : ctx) (a : attr) : Prop :=
  primary_in_model c (a_primary a) /\
  tag_ok c (a_tag a) /\ ext_ok c (a_ext a) /\ consts_ok c (a_consts a).
Definition Known_C08_attr (a : attr) : Prop :=
  match a_primary a with PType t => Known_C08_type t | _ => False end.

Lemma wf_attr_of_classes c a : attr_in_model c a -> ~ Known_C08_attr a -> wf_attr c a.
Proof.
  intros [Hp Hrest] Hk. split; [|exact Hrest]. unfold Known_C08_attr in Hk.
  destruct c, (a_primary a) as [k|t|[n|]]; cbn [primary_in_model wf_primary] in *; try exact Hp;
    apply wf_aty_of_classes; assumption.
Qed.

Lemma index_of_map (f : list N -> list N) name : forall names i,
  nth_error names i = Some name -> f name = name -> NoDup (map f names) -> index_of name (map f names) = Some i.
Proof.
  induction names as [|m ms IH]; intros i Hn Hf Hd; [destruct i; discriminate|].
  cbn [map index_of]. inversion Hd as [|x l Hnotin Hd']; subst.
  destruct i as [|j]; cbn [nth_error] in Hn.
  - inversion Hn; subst. rewrite Hf.
    replace (str_eqb name name) with true by (symmetry; apply str_eqb_eq; reflexivity). reflexivity.
  - destruct (str_eqb (f m) name) eqn:E.
    + exfalso. apply str_eqb_eq in E. apply Hnotin. rewrite E, <- Hf. apply in_map. eapply nth_error_In. exact Hn.
    + rewrite (IH j Hn Hf Hd'). reflexivity.
Qed.

Lemma find_ext_index_map (f : list N -> list N) name names i :
  nth_error names i = Some name -> f name = name -> NoDup (map f names) ->
  find_ext_index (Some name) (map f names) = Ok (Some i).
Proof. intros Hn Hf Hd. unfold find_ext_index. rewrite (index_of_map f name names i Hn Hf Hd). reflexivity. Qed.

(* F08-2: the name in extensible_after(..) is the unescaped one, the member is emitted escaped *)
Definition Known_C08_ext_escaped (name : list N) : Prop := mem_str name KEYWORDS = true.
Definition no_hyphen (s : list N) : Prop := Forall (fun c => c <> HYPHEN) s.

Lemma gen_field_name_id name : no_hyphen name -> ~ Known_C08_ext_escaped name -> gen_field_name name true = name.
Proof.
  intros Hh Hk. unfold gen_field_name. rewrite (replace_no_hyphen name Hh). cbn [andb].
  unfold Known_C08_ext_escaped in Hk. destruct (mem_str name KEYWORDS); [exfalso; apply Hk; reflexivity | reflexivity].
Qed.

(* F08-15 and its integer sibling: into_asn hands the constants to an INTEGER below optional(..) only *)
Definition Known_C08_consts_dropped (a : attr) : Prop :=
  a_consts a <> [] /\ match a_primary a with PType t => is_integer (no_optional t) = false | _ => True end.

Lemma into_asn_keeps t a :
  a_primary a = PType t -> ~ Known_C08_untagged_complex t -> ~ Known_C08_consts_dropped a ->
  into_asn (match t with ARef n _ => n | _ => [] end) a = Some (a_tag a, t, a_consts a).
Proof.
  intros Hp Hu Hd. unfold into_asn. rewrite Hp.
  (* constants are there only on an INTEGER below optional(..): on a reference, too, there are none *)
  assert (Hc : (if is_integer (no_optional t) then a_consts a else []) = a_consts a).
  { destruct (is_integer (no_optional t)) eqn:Ei; [reflexivity|]. destruct (a_consts a) eqn:Ec; [reflexivity|].
    exfalso. apply Hd. split; [rewrite Ec; discriminate | rewrite Hp; exact Ei]. }
  destruct t as [| |mn mx e|sz cs|sz|sz|t'|t' l|t' sz|t' sz|name tg]; try (rewrite Hc; reflexivity).
  destruct tg as [g|]; [|exfalso; apply Hu; exact I]. cbn [no_optional is_integer] in Hc. rewrite <- Hc. reflexivity.
Qed.

Lemma into_asn_integer field_ty a t :
  a_primary a = PType t -> is_integer (no_optional t) = true -> into_asn field_ty a = Some (a_tag a, t, a_consts a).
Proof.
  intros Hp Hi. unfold into_asn. rewrite Hp.
  destruct t as [| |mn mx e|sz cs|sz|sz|t'|t' l|t' sz|t' sz|name tg]; [..|discriminate Hi];
    cbv beta iota; rewrite Hi; reflexivity.
Qed.

(* Context::to_rust_constants looks through Optional: the constants of an INTEGER below optional(..) survive
   to_rust_keep_names as well (below Default(..) it answers none: F08-21) *)
Lemma to_rust_constants_keeps t ics : is_integer (no_optional t) = true -> to_rust_constants t ics = ics.
Proof.
  induction t; cbn [no_optional is_integer to_rust_constants]; intros H; try discriminate; [reflexivity | apply IHt; exact H].
Qed.
