(* C17: the protobuf Reader reads back what the Writer wrote (unbounded, by induction on the type universe), up to
   ProtobufEq. The predicates on types and values are many; how they relate is said above [Known_ty]. *)
From A1 Require Import Base.ListFacts Proto.Rw Proto.Proofs Proto.RwLemmas.
Local Open Scope N_scope.

Definition rd_fields (m : mode) (src : list N) :=
  fix fields (fs : list (bool * pty)) (st : rstate) {struct fs} : res (list pval * rstate) :=
    match fs with
    | [] => Ok ([], st)
    | (false, t) :: fs' =>
        let! (v, st1) := rd m src t st in
        let! (vs, st2) := fields fs' st1 in Ok (v :: vs, st2)
    | (true, t) :: fs' =>
        if hast_next_tag st then
          let! (v, st1) := rd m src t st in
          let! (vs, st2) := fields fs' st1 in Ok (VOpt (Some v) :: vs, st2)
        else
          let! (vs, st2) := fields fs' (increment_tag_counter st) in Ok (VOpt None :: vs, st2)
    end.

Definition rd_loop (m : mode) (src : list N) (t' : pty) (tc : N) :=
  fix loop (pending : list tagentry) {struct pending} : res (list pval * list tagentry) :=
    match pending with
    | [] => Ok ([], [])
    | (tag, f, r) :: rest =>
        if tag =? tc then
          let! (v, _) := rd m src t' (Root r) in
          let! (vs, kept) := loop rest in Ok (v :: vs, kept)
        else
          let! (vs, kept) := loop rest in Ok (vs, (tag, f, r) :: kept)
    end.

Lemma rd_seq_eq m src fs st :
  rd m src (TSeq fs) st =
  let '(o, st') := next_tag_range true (Some LengthDelimited) st in
  let! enc := index_enclosed src (unwrap_or o (0, 0)) in
  let! (vs, _) := rd_fields m src fs enc in
  Ok (VSeq vs, st').
Proof. reflexivity. Qed.

Lemma rd_seqof_eq m src t' tc tags :
  rd m src (TSeqOf t') (Enclosed tc tags) =
  let! (vs, kept) := rd_loop m src t' tc tags in Ok (VList vs, Enclosed (tc + 1) kept).
Proof. reflexivity. Qed.

(* the bytes [p] stand in [src] at the byte range [rg] *)
Definition at_range (src : list N) (rg : range) (p : list N) : Prop :=
  exists pre post, src = pre ++ p ++ post /\ rg = (nlen pre, nlen pre + nlen p).

Lemma slice_at src rg p : at_range src rg p -> slice src rg = Ok p.
Proof.
  intros (pre & post & -> & ->). unfold slice.
  assert ((nlen pre + nlen p <? nlen pre) = false) as -> by lia.
  assert ((N.of_nat (length (pre ++ p ++ post)) <? nlen pre + nlen p) = false) as ->.
  { fold (nlen (pre ++ p ++ post)). rewrite !nlen_app. lia. }
  unfold nlen. rewrite Nat2N.id, skipn_app_exact by reflexivity.
  rewrite firstn_app_exact by lia. reflexivity.
Qed.

Lemma at_range_bound src rg p : at_range src rg p -> nlen p <= nlen src /\ snd rg <= nlen src.
Proof. intros (pre & post & -> & ->). cbn [snd]. rewrite !nlen_app. lia. Qed.

Lemma at_range_end src s e p : at_range src (s, e) p -> e = s + nlen p.
Proof. intros (pre & post & _ & E). injection E as -> ->. reflexivity. Qed.

Lemma at_range_app src s e a b : at_range src (s, e) (a ++ b) ->
  at_range src (s, s + nlen a) a /\ at_range src (s + nlen a, e) b.
Proof.
  intros (pre & post & -> & E). injection E as -> ->. split.
  - exists pre, (b ++ post). rewrite <- app_assoc. split; reflexivity.
  - exists (pre ++ a), post. rewrite <- !app_assoc, !nlen_app. split; [reflexivity|f_equal; lia].
Qed.

(* the entry [e] that index_enclosed tabulates describes the numbered record [tr]: its number, its format, and a
   range that holds its payload *)
Definition ent_ok (src : list N) (e : tagentry) (tr : N * prec) : Prop :=
  fst (fst e) = fst tr /\ snd (fst e) = rfmt (snd tr) /\ at_range src (snd e) (payload (snd tr)).

Lemma checked_end_ok a b e : a + b <= e -> e < two64 -> checked_end a b e = Ok (a + b).
Proof.
  intros H1 H2. unfold checked_end, usize_max.
  assert ((two64 - 1 <? a + b) = false) as -> by lia.
  assert ((e <? a + b) = false) as -> by lia. reflexivity.
Qed.

(* the body of a record as its two readers see it: read_content_offset_and_length (index_enclosed) finds the payload
   behind a prefix (empty, or the length); read_choice skips that prefix *)
Lemma rbody_reads r tail : rec_wf r -> nlen (payload r) < two64 ->
  exists pfx, rbody r = pfx ++ payload r /\
    content_off_len (rfmt r) (rbody r ++ tail) = Ok (nlen pfx, nlen (payload r)) /\
    (if format_eqb (rfmt r) LengthDelimited then let! (_, r2) := read_varint (rbody r) in Ok r2 else Ok (rbody r))
    = Ok (payload r).
Proof.
  destruct r as [x|p]; cbn [rec_wf rbody rfmt payload content_off_len]; intros Hr Hp.
  - exists []. split; [reflexivity|]. split; [|reflexivity].
    rewrite varint_roundtrip by exact Hr. cbn [bind]. rewrite nlen_app. f_equal. f_equal. lia.
  - exists (write_varint (nlen p)). split; [reflexivity|]. rewrite <- app_assoc, !varint_roundtrip by exact Hp. cbn [bind].
    split; [|reflexivity]. rewrite !nlen_app. f_equal. f_equal. lia.
Qed.

Lemma ie_loop_content : forall trs acc fuel src position e,
  at_range src (position, e) (content trs) -> nlen src < two64 -> parsable trs ->
  (N.to_nat (e - position) < fuel)%nat ->
  exists ents, ie_loop fuel src position e acc = Ok (acc ++ ents) /\ Forall2 (ent_ok src) ents trs.
Proof.
  induction trs as [|[tag r] trs IH]; intros acc fuel src position e Hat Hlen Hwf Hfuel;
    (destruct fuel as [|fuel]; [lia|]); cbn [ie_loop].
  - apply at_range_end in Hat. assert ((position <? e) = false) as -> by (change (nlen (content [])) with 0 in Hat; lia).
    exists []. rewrite app_nil_r. split; [reflexivity|constructor].
  - inversion Hwf as [|? ? [[_ Htag] Hr] Hwf']; subst x l. cbn [fst snd] in Htag, Hr.
    rewrite content_cons in Hat. destruct (at_range_bound _ _ _ Hat) as [Hb He]. cbn [snd] in He.
    assert (Hp : nlen (payload r) < two64) by (apply (payload_lt tag); rewrite nlen_app in Hb; lia).
    destruct (rbody_reads r (content trs) Hr Hp) as (pfx & Eb & Ec & _).
    unfold rec_bytes in Hat. pose proof (write_tag_len tag (rfmt r)) as Hwt.
    assert ((position <? e) = true) as -> by (apply at_range_end in Hat; rewrite !nlen_app in Hat; lia).
    rewrite (slice_at _ _ _ Hat). cbn [bind].
    rewrite <- app_assoc, tag_roundtrip by exact Htag. cbn [bind]. rewrite Ec, nlen_drop. cbn [bind].
    set (wt := write_tag tag (rfmt r)) in *. set (p := payload r) in *.
    (* the payload lies behind the tag and the prefix, the other records behind the payload *)
    rewrite Eb, <- !app_assoc in Hat.
    apply at_range_app, proj2, at_range_app, proj2, at_range_app in Hat. destruct Hat as [Hpay Htl].
    set (cp := position + nlen wt + nlen pfx) in *.
    rewrite checked_end_ok by (apply at_range_end in Htl; lia). cbn [bind].
    destruct (IH (acc ++ [(tag, rfmt r, (cp, cp + nlen p))]) fuel src (cp + nlen p) e Htl Hlen Hwf') as (ents & E1 & E2);
      [apply at_range_end in Htl; unfold cp in *; lia|].
    exists ((tag, rfmt r, (cp, cp + nlen p)) :: ents). rewrite E1, <- app_assoc. split; [reflexivity|].
    constructor; [|exact E2]. repeat split. exact Hpay.
Qed.

Lemma index_enclosed_content src rg trs :
  at_range src rg (content trs) -> nlen src < two64 -> parsable trs ->
  exists ents, index_enclosed src rg = Ok (Enclosed 1 ents) /\ Forall2 (ent_ok src) ents trs.
Proof.
  intros Hat Hlen Hwf. destruct rg as [s e]. unfold index_enclosed. cbn [fst snd].
  destruct (ie_loop_content trs [] (length src + 2) src s e Hat Hlen Hwf) as (ents & E1 & E2).
  - destruct (at_range_bound _ _ _ Hat) as [_ Hb]. cbn [snd] in Hb. unfold nlen in Hb. lia.
  - exists ents. rewrite E1. split; [reflexivity|exact E2].
Qed.

Definition is_null (t : pty) : bool := match t with TNull => true | _ => false end.
Definition is_seqof (t : pty) : bool := match t with TSeqOf _ => true | _ => false end.
Definition single (t : pty) : bool := negb (is_null t) && negb (is_seqof t).
Definition max_fields : N := 2 ^ 29 - 1.

(* what the compiler produces for an extensible INTEGER: u64 when MIN (absent = 0) is not negative, i64 otherwise
   (needed for C18 only: the format follows the sign of MIN, the declared proto type follows the Rust type) *)
Definition wf_kind (k : pikind) : bool :=
  match k with
  | KExt false mn _ => (0 <=? unwrap_or mn 0)%Z
  | KExt true mn _ => (unwrap_or mn 0 <? 0)%Z
  | _ => true
  end.

(* well-formed (non-empty ENUMERATED and CHOICE, field numbers representable) and outside the finding classes
   (no NULL / SEQUENCE OF alternative, no SEQUENCE OF SEQUENCE OF, no SEQUENCE OF NULL) *)
Fixpoint good (t : pty) : bool :=
  match t with
  | TInt k => wf_kind k
  | TEnum n => (0 <? n) && (n <=? two32)
  | TSeq fs => (nl fs <? max_fields) && forallb (fun p => good (snd p)) fs
  | TSeqOf t' => single t' && good t'
  | TChoice alts => negb (is_nil alts) && (nl alts <? max_fields) && forallb (fun a => single a && good a) alts
  | _ => true
  end.

(* [good] without the condition on extensible INTEGER kinds: the round trip does not need it *)
Fixpoint shaped (t : pty) : bool :=
  match t with
  | TEnum n => (0 <? n) && (n <=? two32)
  | TSeq fs => (nl fs <? max_fields) && forallb (fun p => shaped (snd p)) fs
  | TSeqOf t' => single t' && shaped t'
  | TChoice alts => negb (is_nil alts) && (nl alts <? max_fields) && forallb (fun a => single a && shaped a) alts
  | _ => true
  end.

Lemma shaped_of_good : forall t, good t = true -> shaped t = true.
Proof.
  induction t as [| k | | | | | n | fs IH | t' IH | alts IH] using pty_nested_ind; intros Hg; try reflexivity; cbn [good shaped] in *.
  - exact Hg.
  - apply andb_true_iff in Hg. destruct Hg as [H1 H2]. rewrite H1. cbn [andb].
    apply forallb_forall. intros p Hin. rewrite forallb_forall in H2. rewrite Forall_forall in IH. apply (IH p Hin (H2 p Hin)).
  - apply andb_true_iff in Hg. destruct Hg as [H1 H2]. rewrite H1, (IH H2). reflexivity.
  - apply andb_true_iff in Hg. destruct Hg as [H1 H2]. rewrite H1. cbn [andb].
    apply forallb_forall. intros a Hin. rewrite forallb_forall in H2. rewrite Forall_forall in IH.
    specialize (H2 a Hin). apply andb_true_iff in H2. destruct H2 as [H3 H4]. rewrite H3, (IH a Hin H4). reflexivity.
Qed.

Lemma single_shape t v : single t = true -> wf_val t v = true -> exists r, recs_of t v = [r].
Proof. intros Hs Hwf. destruct t; try discriminate Hs; destruct v; try discriminate Hwf; eexists; reflexivity. Qed.

(* the selected alternative of a CHOICE of the fragment ([G] is [good] or [shaped]) and the one record it becomes *)
Lemma choice_inv (G : pty -> bool) alts i x :
  negb (is_nil alts) && (nl alts <? max_fields) && forallb (fun a => single a && G a) alts = true ->
  wf_val (TChoice alts) (VChoice i x) = true ->
  exists a r, nth_alt alts i = Some a /\ In a alts /\ single a = true /\ G a = true /\ wf_val a x = true /\
    recs_of a x = [r] /\ rec_wf r /\ i + 1 < 2 ^ 29 /\
    recs_of (TChoice alts) (VChoice i x) = [RLen (rec_bytes (i + 1) r)].
Proof.
  intros Hg Hwf. apply andb_true_iff in Hg. destruct Hg as [Hg Hga]. apply andb_true_iff in Hg. destruct Hg as [_ Hn].
  rewrite wf_choice_eq in Hwf. rewrite recs_choice_eq.
  destruct (nth_alt alts i) as [a|] eqn:Ea; [|discriminate].
  destruct (nth_alt_in alts i a Ea) as [Hin Hi].
  rewrite forallb_forall in Hga. specialize (Hga a Hin). apply andb_true_iff in Hga. destruct Hga as [Hsa Hgda].
  destruct (single_shape a x Hsa Hwf) as (r & Er). pose proof (recs_wf a x) as Hrw. rewrite Er in Hrw. apply Forall_inv in Hrw.
  unfold max_fields in Hn. change (2 ^ 29) with 536870912 in *.
  exists a, r. rewrite Er, u32_small by (unfold two32; lia). cbn [map]. rewrite content_one. repeat split; assumption || lia.
Qed.

(* nothing written: the value is the default (NULL, or an empty SEQUENCE OF) *)
Lemma recs_nil_default t v : shaped t = true -> wf_val t v = true -> recs_of t v = [] ->
  v = default_of t /\ pval_eqb v v = true.
Proof.
  intros Hg Hwf Hn. destruct (single t) eqn:Hs.
  - destruct (single_shape t v Hs Hwf) as (r & E). congruence.
  - destruct t; try discriminate Hs; destruct v as [| | | | | | | | |l|]; try discriminate Hwf; [split; reflexivity|].
    cbn [shaped] in Hg. apply andb_true_iff in Hg. destruct Hg as [Hs' _]. cbn [wf_val recs_of] in *.
    destruct l as [|x l]; [split; reflexivity|].
    cbn [forallb flat_map] in *. apply andb_true_iff in Hwf. destruct Hwf as [H1 _].
    destruct (single_shape t x Hs' H1) as (r & E). rewrite E in Hn. discriminate Hn.
Qed.

Lemma recs_fields_wf : forall fs vs tag,
  Forall (fun tr => tag <= fst tr < tag + nl fs /\ rec_wf (snd tr)) (recs_fields fs vs tag).
Proof.
  induction fs as [|[o t] fs IH]; intros vs tag; [constructor|].
  (* the records of the later components, seen from one component earlier *)
  assert (TAIL : forall vs', Forall (fun tr => tag <= fst tr < tag + nl ((o, t) :: fs) /\ rec_wf (snd tr))
                               (recs_fields fs vs' (tag + 1))).
  { intros vs'. eapply Forall_impl; [|apply IH]. intros tr [H1 H2]. split; [|exact H2]. unfold nl in *. cbn [length]. lia. }
  assert (PRES : forall v vs', Forall (fun tr => tag <= fst tr < tag + nl ((o, t) :: fs) /\ rec_wf (snd tr))
                                 (map (pair tag) (recs_of t v) ++ recs_fields fs vs' (tag + 1))).
  { intros v vs'. apply Forall_app. split; [|apply TAIL]. apply Forall_map. eapply Forall_impl; [|apply (recs_wf t v)].
    intros r Hr. cbn [fst snd]. split; [unfold nl; cbn [length]; lia|exact Hr]. }
  destruct vs as [|v vs']; [destruct o; constructor|]. destruct o; [|apply PRES].
  destruct v as [| | | | | | | |[x|]| |]; try constructor; [apply PRES|apply TAIL].
Qed.

Lemma recs_fields_later fs vs tag : Forall (fun tr => fst tr <> tag) (recs_fields fs vs (tag + 1)).
Proof. eapply Forall_impl; [|apply (recs_fields_wf fs vs (tag + 1))]. intros tr [[H1 _] _]. lia. Qed.

Lemma fields_parsable fs vs : (nl fs <? max_fields) = true -> parsable (recs_fields fs vs 1).
Proof.
  intros Hn. eapply Forall_impl; [|apply (recs_fields_wf fs vs 1)]. intros tr [[H1 H2] H3]. split; [|exact H3].
  unfold max_fields in Hn. change (2 ^ 29) with 536870912 in *. lia.
Qed.

Lemma list_n_eqb_refl l : list_n_eqb l l = true.
Proof. induction l as [|x l IH]; cbn; [reflexivity|rewrite N.eqb_refl, IH; reflexivity]. Qed.

Definition peq2 (t : pty) (v v' : pval) : Prop := peq t v v' = true /\ peq t v' v = true.

(* [rg] is the range next_tag_range_format_opt yields in [st], asked with the format [f] (next_range_format_reader,
   read_set_or_sequence, read_enumerated) or with none (read_choice), and [st'] the state it leaves *)
Definition head_range (st : rstate) (f : format) (rg : range) (st' : rstate) : Prop :=
  next_tag_range true (Some f) st = (Some rg, st') /\ next_tag_range true None st = (Some rg, st').

Lemma head_root rg f : head_range (Root rg) f rg (Root rg).
Proof. split; reflexivity. Qed.
Lemma format_eqb_refl f : format_eqb f f = true.
Proof. destruct f; reflexivity. Qed.
Lemma head_enclosed tc f rg rest : head_range (Enclosed tc ((tc, f, rg) :: rest)) f rg (Enclosed (tc + 1) rest).
Proof. split; cbn [next_tag_range take_tag]; rewrite N.eqb_refl, ?format_eqb_refl; reflexivity. Qed.

Lemma next_reader_head src st f rg st' p :
  head_range st f rg st' -> at_range src rg p -> next_reader src f st = Ok (p, st').
Proof.
  intros [H _] Hr. unfold next_reader. rewrite H. cbn [unwrap_or]. rewrite (slice_at _ _ _ Hr). reflexivity.
Qed.

(* [rd] on a type that writes one record [r], from a state whose next range holds the payload of [r]: the value read
   is ProtobufEq to the one written, in both directions *)
Definition reads_record (m : mode) (t : pty) : Prop :=
  forall v src rg st st' r, shaped t = true -> wf_val t v = true -> nlen src < two64 ->
  recs_of t v = [r] -> at_range src rg (payload r) -> head_range st (rfmt r) rg st' ->
  exists v', rd m src t st = Ok (v', st') /\ peq2 t v v'.

(* [rd] on component number [tcr] of a message whose index holds the entries of the component's records, then entries
   [rest] of other numbers: it consumes the former and steps to the next number *)
Definition reads_field (m : mode) (t : pty) : Prop :=
  forall v src tcr ents rest, shaped t = true -> wf_val t v = true -> nlen src < two64 ->
  Forall2 (ent_ok src) ents (map (pair tcr) (recs_of t v)) ->
  Forall (fun e : tagentry => fst (fst e) <> tcr) rest ->
  exists v', rd m src t (Enclosed tcr (ents ++ rest)) = Ok (v', Enclosed (tcr + 1) rest) /\ peq2 t v v'.

Lemma ents_cons src ents tag r trs : Forall2 (ent_ok src) ents ((tag, r) :: trs) ->
  exists rg ents', ents = (tag, rfmt r, rg) :: ents' /\ at_range src rg (payload r) /\ Forall2 (ent_ok src) ents' trs.
Proof.
  intros H. inversion H as [|[[tag' f] rg] tr ents' l' (E1 & E2 & E3) Htl]; subst. cbn [fst snd] in *. subst. eauto.
Qed.

Lemma reads_field_of_record m t : single t = true -> reads_record m t -> reads_field m t.
Proof.
  intros Hs HR v src tcr ents rest Hg Hwf Hlen Hents Hrest.
  destruct (single_shape t v Hs Hwf) as (r & E). rewrite E in Hents. cbn [map] in Hents.
  destruct (ents_cons _ _ _ _ _ Hents) as (rg & ents' & -> & H3 & Hnil). inversion Hnil; subst.
  cbn [app]. apply (HR v src rg _ _ r Hg Hwf Hlen E H3). apply head_enclosed.
Qed.

Lemma hast_false tcr ents : Forall (fun e : tagentry => fst (fst e) <> tcr) ents ->
  hast_next_tag (Enclosed tcr ents) = false.
Proof.
  intros H. cbn [hast_next_tag]. induction H as [|[[tag f] rg] l Hx _ IH]; [reflexivity|].
  cbn [existsb fst] in *. rewrite IH. assert ((tag =? tcr) = false) as -> by lia. reflexivity.
Qed.

Lemma loop_rest m src t' tcr rest : Forall (fun e : tagentry => fst (fst e) <> tcr) rest ->
  rd_loop m src t' tcr rest = Ok ([], rest).
Proof.
  induction 1 as [|[[tag f] rg] l Hx _ IH]; [reflexivity|].
  cbn [rd_loop fst] in *. assert ((tag =? tcr) = false) as -> by lia. rewrite IH. reflexivity.
Qed.

Lemma reads_field_seqof m t' : (single t' = true -> reads_record m t') -> reads_field m (TSeqOf t').
Proof.
  intros HR v src tcr ents rest Hg Hwf Hlen Hents Hrest.
  destruct v as [| | | | | | | | |vs|]; try discriminate Hwf.
  cbn [shaped] in Hg. apply andb_true_iff in Hg. destruct Hg as [Hs Hg]. specialize (HR Hs).
  cbn [wf_val recs_of] in Hwf, Hents.
  assert (L : exists vs', rd_loop m src t' tcr (ents ++ rest) = Ok (vs', rest) /\
                          peq2 (TSeqOf t') (VList vs) (VList vs')).
  { revert ents Hents. induction vs as [|x vs IH]; intros ents Hents.
    - cbn [flat_map map] in Hents. inversion Hents; subst. cbn [app]. rewrite loop_rest by exact Hrest.
      exists []. repeat split; reflexivity.
    - cbn [forallb] in Hwf. apply andb_true_iff in Hwf. destruct Hwf as [H1 H2].
      destruct (single_shape t' x Hs H1) as (r & E).
      cbn [flat_map] in Hents. rewrite E in Hents. cbn [app map] in Hents.
      destruct (ents_cons _ _ _ _ _ Hents) as (rg & ents' & -> & E3 & Htl).
      destruct (IH H2 ents' Htl) as (vs' & L1 & L2 & L3).
      destruct (HR x src rg (Root rg) (Root rg) r Hg H1 Hlen E E3 (head_root rg (rfmt r))) as (x' & R1 & R2 & R3).
      cbn [app rd_loop]. rewrite N.eqb_refl, R1. cbn [bind]. rewrite L1. cbn [bind].
      (* peq on two non-empty lists computes to the conjunction over heads (arguments swapped) and tails *)
      exists (x' :: vs'). split; [reflexivity|]. split; apply andb_true_iff; split; assumption. }
  destruct L as (vs' & L1 & L2 & L3).
  exists (VList vs'). rewrite rd_seqof_eq, L1. cbn [bind]. split; [reflexivity|].
  split; assumption.
Qed.

Lemma reads_field_null m : reads_field m TNull.
Proof.
  intros v src tcr ents rest Hg Hwf Hlen Hents Hrest.
  destruct v; try discriminate Hwf. cbn [recs_of map] in Hents. inversion Hents; subst.
  exists VNull. split; [reflexivity|split; reflexivity].
Qed.

Lemma ents_tags src tcr ents trs : Forall2 (ent_ok src) ents trs ->
  Forall (fun tr => fst tr <> tcr) trs -> Forall (fun e : tagentry => fst (fst e) <> tcr) ents.
Proof.
  induction 1 as [|e tr ents trs He _ IH]; intros H; [constructor|].
  inversion H; subst. constructor; [destruct He as [-> _]; assumption|apply IH; assumption].
Qed.

Lemma reads_fields m src : nlen src < two64 ->
  forall fs, Forall (fun p => reads_field m (snd p)) fs -> forall vs, wf_fields fs vs = true ->
  forallb (fun p => shaped (snd p)) fs = true ->
  forall tcr ents, Forall2 (ent_ok src) ents (recs_fields fs vs tcr) ->
  exists vs' st, rd_fields m src fs (Enclosed tcr ents) = Ok (vs', st) /\
                 peq2 (TSeq fs) (VSeq vs) (VSeq vs').
Proof.
  intros Hlen.
  refine (wf_fields_ind _ _ _ _ _).
  - intros _ tcr ents _. exists [], (Enclosed tcr ents). repeat split; reflexivity.
  - intros o t fs v vs Ht H1 H2 IH Hg tcr ents Hents.
    cbn [forallb snd] in Hg. apply andb_true_iff in Hg. destruct Hg as [Hg1 Hg2].
    rewrite recs_fields_present in Hents. apply Forall2_app_inv_r in Hents. destruct Hents as (e1 & e2 & F1 & F2 & ->).
    (* the entries of the later fields do not carry the current number *)
    pose proof (ents_tags src tcr e2 _ F2 (recs_fields_later fs vs tcr)) as Hl.
    destruct (Ht v src tcr e1 e2 Hg1 H1 Hlen F1 Hl) as (v' & R1 & R2a & R2b).
    destruct (IH Hg2 (tcr + 1) e2 F2) as (vs2 & st & R3 & R4 & R5).
    destruct o; cbn [rd_fields present].
    + destruct (recs_of t v) as [|r0 rs0] eqn:En.
      * (* nothing was written: reads back as absent *)
        inversion F1; subst. cbn [app]. rewrite (hast_false tcr e2 Hl). cbn [increment_tag_counter]. rewrite R3. cbn [bind].
        destruct (recs_nil_default t v Hg1 H1 En) as [Ed Er].
        (* peq on non-empty field lists computes to the conjunction over heads and tails *)
        exists (VOpt None :: vs2), st. split; [reflexivity|]. rewrite Ed in Er |- *. split; apply andb_true_iff; split; assumption.
      * assert (hast_next_tag (Enclosed tcr (e1 ++ e2)) = true) as ->.
        { destruct (ents_cons _ _ _ _ _ F1) as (rg & e1' & -> & _). cbn [hast_next_tag app existsb]. rewrite N.eqb_refl. reflexivity. }
        rewrite R1. cbn [bind]. rewrite R3. cbn [bind].
        exists (VOpt (Some v') :: vs2), st. split; [reflexivity|]. split; apply andb_true_iff; split; assumption.
    + rewrite R1. cbn [bind]. rewrite R3. cbn [bind].
      exists (v' :: vs2), st. split; [reflexivity|]. split; apply andb_true_iff; split; assumption.
  - intros t fs vs H2 IH Hg tcr ents Hents.
    cbn [forallb snd] in Hg. apply andb_true_iff in Hg. destruct Hg as [_ Hg2].
    cbn [recs_fields] in Hents. cbn [rd_fields]. rewrite (hast_false tcr ents (ents_tags src tcr ents _ Hents (recs_fields_later fs vs tcr))).
    cbn [increment_tag_counter].
    destruct (IH Hg2 (tcr + 1) ents Hents) as (vs2 & st & R3 & R4 & R5).
    rewrite R3. cbn [bind]. exists (VOpt None :: vs2), st. split; [reflexivity|]. split; assumption.
Qed.

Lemma reads_record_bool m : reads_record m TBool.
Proof.
  intros v src rg st st' r Hg Hwf Hlen Hr Hat Hh.
  destruct v as [b| | | | | | | | | |]; try discriminate Hwf. injection Hr as <-. cbn [rfmt payload] in *.
  cbn [rd]. rewrite (next_reader_head src st VarInt rg st' _ Hh Hat). cbn [bind].
  rewrite write_varint_not_nil. unfold read_bool. rewrite read_varint_self by (destruct b; reflexivity). cbn [bind].
  exists (VBool b). split; [destruct b; reflexivity|]. split; cbn; apply eqb_reflx.
Qed.

Lemma reads_record_int m k : reads_record m (TInt k).
Proof.
  intros v src rg st st' r Hg Hwf Hlen Hr Hat Hh.
  destruct v as [|z| | | | | | | | |]; try discriminate Hwf. injection Hr as <-. cbn [rfmt payload] in *.
  cbn [rd]. rewrite (next_reader_head src st VarInt rg st' _ Hh Hat). cbn [bind].
  rewrite write_varint_not_nil, <- number_bytes_word, (number_roundtrip k z Hwf). cbn [bind].
  exists (VInt z). split; [reflexivity|]. split; cbn; apply Z.eqb_refl.
Qed.

Lemma reads_record_str m : reads_record m TStr.
Proof.
  intros v src rg st st' r Hg Hwf Hlen Hr Hat Hh.
  destruct v as [| |s| | | | | | | |]; try discriminate Hwf. injection Hr as <-. cbn [rfmt payload] in *.
  cbn [rd]. rewrite (next_reader_head src st LengthDelimited rg st' _ Hh Hat). cbn [bind].
  cbn [wf_val] in Hwf. apply andb_true_iff in Hwf. destruct Hwf as [_ Hu]. unfold read_string. rewrite Hu. cbn [bind].
  exists (VStr s). split; [reflexivity|]. split; cbn; apply list_n_eqb_refl.
Qed.

Lemma reads_record_bytes m : reads_record m TBytes.
Proof.
  intros v src rg st st' r Hg Hwf Hlen Hr Hat Hh.
  destruct v as [| | |l| | | | | | |]; try discriminate Hwf. injection Hr as <-. cbn [rfmt payload] in *.
  cbn [rd]. rewrite (next_reader_head src st LengthDelimited rg st' _ Hh Hat). cbn [bind read_bytes].
  exists (VBytes l). split; [reflexivity|]. split; cbn; apply list_n_eqb_refl.
Qed.

Lemma reads_record_bits m : reads_record m TBits.
Proof.
  intros v src rg st st' r Hg Hwf Hlen Hr Hat Hh.
  destruct v as [| | | |bytes n| | | | | |]; try discriminate Hwf.
  (* not by injection, which would unfold [be_bytes 8 n] *)
  assert (r = RLen (bytes ++ be_bytes 8 n)) as -> by (cbn [recs_of] in Hr; congruence). cbn [rfmt payload] in *.
  cbn [rd]. rewrite (next_reader_head src st LengthDelimited rg st' _ Hh Hat). cbn [bind read_bytes].
  apply wf_bits_inv in Hwf. destruct Hwf as [Hl Hn].
  pose proof (app_length bytes (be_bytes 8 n)) as Lp. rewrite be_bytes_length in Lp.
  assert (is_nil (bytes ++ be_bytes 8 n) = false) as -> by (destruct (bytes ++ be_bytes 8 n); [cbn [length] in Lp; lia|reflexivity]).
  assert ((length (bytes ++ be_bytes 8 n) <? 8)%nat = false) as -> by (apply Nat.ltb_ge; lia).
  rewrite bitvec_from_trailing_app by (unfold two64, two32 in *; lia). cbn [bind].
  exists (VBits bytes n). split; [reflexivity|]. split; cbn; rewrite list_n_eqb_refl, N.eqb_refl; reflexivity.
Qed.

Lemma reads_record_enum m n : reads_record m (TEnum n).
Proof.
  intros v src rg st st' r Hg Hwf Hlen Hr Hat [Hh _].
  destruct v as [| | | | | |i| | | |]; try discriminate Hwf. injection Hr as <-. cbn [rfmt payload shaped wf_val] in *.
  rewrite u32_small in Hat by lia.
  cbn [rd]. rewrite Hh, (slice_at _ _ _ Hat). cbn [bind].
  rewrite read_varint_self by (unfold two32, two64 in *; lia). cbn [bind]. rewrite Hwf.
  exists (VEnum i). split; [reflexivity|]. split; cbn; apply N.eqb_refl.
Qed.

Lemma reads_record_seq m fs : Forall (fun p => reads_field m (snd p)) fs -> reads_record m (TSeq fs).
Proof.
  intros HF v src rg st st' r Hg Hwf Hlen Hr Hat Hh.
  destruct v as [| | | | | | |vs| | |]; try discriminate Hwf. rewrite recs_seq_eq in Hr. injection Hr as <-. cbn [rfmt payload] in *.
  cbn [shaped] in Hg. apply andb_true_iff in Hg. destruct Hg as [Hn Hg].
  destruct (index_enclosed_content src rg _ Hat Hlen (fields_parsable fs vs Hn)) as (ents & I1 & I2).
  destruct (reads_fields m src Hlen fs HF vs Hwf Hg 1 ents I2) as (vs' & stf & R1 & R2 & R3).
  rewrite rd_seq_eq. destruct Hh as [Hh _]. rewrite Hh. cbn [unwrap_or]. rewrite I1. cbn [bind]. rewrite R1. cbn [bind].
  exists (VSeq vs'). split; [reflexivity|]. split; assumption.
Qed.

Lemma reads_record_choice m alts : Forall (fun a => single a = true -> reads_record m a) alts -> reads_record m (TChoice alts).
Proof.
  intros HF v src [s e] st st' r Hg Hwf Hlen Hr Hat [_ Hh].
  destruct v as [| | | | | | | | | |i x]; try discriminate Hwf.
  destruct (choice_inv shaped alts i x Hg Hwf) as (a & ra & Ea & Hin & Hsa & Hga & Hwa & Era & Hrw & Hi & Erec).
  rewrite Forall_forall in HF. specialize (HF a Hin Hsa).
  rewrite Erec in Hr. injection Hr as <-. cbn [payload] in Hat.
  cbn [rd]. rewrite Hh, (slice_at _ _ _ Hat). cbn [bind].
  assert (Hp : nlen (payload ra) < two64)
    by exact (payload_lt (i + 1) ra _ (N.le_lt_trans _ _ _ (proj1 (at_range_bound _ _ _ Hat)) Hlen)).
  destruct (rbody_reads ra [] Hrw Hp) as (pfx & Eb & _ & Ec).
  unfold rec_bytes in *. rewrite tag_roundtrip by exact Hi. cbn [bind]. rewrite Ec. cbn [bind]. cbv zeta.
  rewrite pick_nth_alt, N.add_sub, Ea.
  (* the alternative's payload lies behind the tag and the prefix *)
  rewrite Eb, app_assoc in Hat |- *. rewrite nlen_drop. apply at_range_app, proj2 in Hat.
  set (rg' := (s + nlen (write_tag (i + 1) (rfmt ra) ++ pfx), e)) in *.
  destruct (HF x src rg' (Enclosed 1 [(1, rfmt ra, rg')]) (Enclosed (1 + 1) []) ra Hga Hwa Hlen Era Hat
              (head_enclosed 1 (rfmt ra) rg' [])) as (x' & R1 & R2 & R3).
  rewrite R1. cbn [bind]. exists (VChoice i x'). split; [reflexivity|].
  split; cbn [peq]; rewrite pick_nth_alt, N.eqb_refl, Ea; assumption.
Qed.

Theorem reader_inverts m : forall t, (single t = true -> reads_record m t) /\ reads_field m t.
Proof.
  assert (BOTH : forall t, single t = true -> reads_record m t -> (single t = true -> reads_record m t) /\ reads_field m t).
  { intros t Hs H. split; [intros _; exact H|apply reads_field_of_record; assumption]. }
  induction t as [| k | | | | | n | fs IH | t' IH | alts IH] using pty_nested_ind.
  - apply BOTH; [reflexivity|apply reads_record_bool].
  - apply BOTH; [reflexivity|apply reads_record_int].
  - apply BOTH; [reflexivity|apply reads_record_str].
  - apply BOTH; [reflexivity|apply reads_record_bytes].
  - apply BOTH; [reflexivity|apply reads_record_bits].
  - split; [discriminate|apply reads_field_null].
  - apply BOTH; [reflexivity|apply reads_record_enum].
  - apply BOTH; [reflexivity|]. apply reads_record_seq. eapply Forall_impl; [|exact IH]. intros p [_ H]. exact H.
  - split; [discriminate|apply reads_field_seqof, IH].
  - apply BOTH; [reflexivity|]. apply reads_record_choice. eapply Forall_impl; [|exact IH]. intros a [H _]. exact H.
Qed.

Definition top_ok (t : pty) : bool := match t with TSeq _ | TChoice _ | TEnum _ => true | _ => false end.

Lemma top_single t : top_ok t = true -> single t = true.
Proof. destruct t; try discriminate; reflexivity. Qed.

(* the bytes of a top-level value are the payload of the one record it would be as a component *)
Lemma top_write m t v : top_ok t = true -> wf_val t v = true ->
  exists r, recs_of t v = [r] /\ pwrite_vec m t v = Ok (payload r).
Proof.
  intros Ht Hwf. destruct t; try discriminate Ht; destruct v as [| | | | | |i|vs| | |i x]; try discriminate Hwf.
  - eexists. split; [reflexivity|]. reflexivity.
  - rewrite recs_seq_eq. eexists. split; [reflexivity|]. cbn [payload].
    unfold pwrite_vec. rewrite wr_seq_eq. cbn [wst0 w_root].
    change (set_root (set_tc (wst0 None) 0) false) with (wbuf [] 0).
    rewrite (wr_fields_recs m fs (proj2 (Forall_forall _ _) (fun p _ => wr_records m (snd p))) vs Hwf). reflexivity.
  - rewrite recs_choice_eq. eexists. split; [reflexivity|]. cbn [payload].
    unfold pwrite_vec. rewrite wr_choice_eq. cbv zeta. cbn [wst0 w_root].
    change (set_root (set_tc (wst0 None) (u32_of_u64 i)) false) with (wbuf [] (u32_of_u64 i)).
    rewrite wf_choice_eq in Hwf.
    destruct (nth_alt alts i) as [a|]; [|discriminate].
    rewrite (wr_records m a x [] _ Hwf). reflexivity.
Qed.

Theorem roundtrip_shaped m t v :
  top_ok t = true -> shaped t = true -> wf_val t v = true ->
  exists bs, pwrite m t v = Ok bs /\
    (nlen bs < two64 -> exists v', pread m t bs = Ok v' /\ peq t v v' = true /\ peq t v' v = true).
Proof.
  intros Ht Hg Hwf. destruct (top_write m t v Ht Hwf) as (r & Er & Ew).
  exists (payload r). split; [exact Ew|]. intros Hlen.
  destruct (reader_inverts m t) as [HR _]. specialize (HR (top_single t Ht)).
  destruct (HR v (payload r) (0, nlen (payload r)) (Root (0, nlen (payload r))) (Root (0, nlen (payload r))) r Hg Hwf Hlen Er)
    as (v' & R1 & R2 & R3).
  - exists [], []. split; [rewrite app_nil_r; reflexivity|reflexivity].
  - apply head_root.
  - exists v'. unfold pread. rewrite R1. cbn [bind]. repeat split; assumption.
Qed.

(* a one-component message holding an integer (what a tuple struct `T ::= INTEGER (..)` and a one-field SEQUENCE
   generate), every kind, every value; here ProtobufEq is equality *)
Theorem roundtrip_int_message m k z :
  in_kind k z = true ->
  let t := TSeq [(false, TInt k)] in
  let v := VSeq [VInt z] in
  exists bs, pwrite_vec m t v = Ok bs /\ pread m t bs = Ok v /\ peq t v v = true.
Proof.
  intros Hin t v.
  destruct (roundtrip_shaped m t v eq_refl eq_refl) as (bs & W & R); [cbn; rewrite Hin; reflexivity|].
  exists bs. split; [exact W|]. split; [|cbn; rewrite Z.eqb_refl; reflexivity].
  destruct R as (v' & R1 & R2 & _).
  - assert (E : pwrite m t v = Ok ([8] ++ number_bytes k z)) by reflexivity. rewrite E in W. injection W as <-.
    pose proof (number_bytes_len k z). unfold nlen, two64, two32. cbn [app length]. lia.
  - rewrite R1. f_equal. subst t v. destruct v' as [| | | | | | |ys| | |]; try discriminate R2.
    destruct ys as [|y ys]; [discriminate R2|]. apply andb_true_iff in R2. destruct R2 as [R2 R3].
    destruct ys; [|discriminate R3]. destruct y; try discriminate R2. cbn [peq] in R2. apply Z.eqb_eq in R2. subst. reflexivity.
Qed.

Theorem roundtrip_flat (m : mode) b x oy :
  x < 256 -> (forall y, oy = Some y -> (-32 <= y < 32)%Z) ->
  let v := VSeq [VBool b; VInt (Z.of_N x); VOpt (option_map VInt oy)] in
  exists bs v', pwrite_vec m flat_ty v = Ok bs /\ pread m flat_ty bs = Ok v' /\ peq flat_ty v v' = true.
Proof.
  intros Hx Hy v.
  destruct (roundtrip_shaped m flat_ty v eq_refl eq_refl (flat_wf b x oy Hx Hy)) as (bs & W & R).
  destruct (flat_write m b x oy) as (bs' & W' & L). fold v in W'. unfold pwrite in W. rewrite W' in W. injection W as ->.
  destruct R as (v' & R1 & R2 & _); [unfold nlen, two64, two32; lia|].
  exists bs, v'. repeat split; assumption.
Qed.

(* How the predicates on types and values relate. The proofs above run on a boolean fragment: [top_ok t] (a top-level
   SEQUENCE / CHOICE / ENUMERATED), [single t] (exactly one record is written: neither NULL nor SEQUENCE OF),
   [shaped t] (the sizes, and the finding classes excluded by structure) for the round trip, [good t] = [shaped t] and
   [wf_kind] of every INTEGER kind for C18 ([shaped_of_good]); on values [wf_val] of Rw.v. Props/C17.v and C18.v speak
   of [wf_pty t] = [top_ok t] and [sized t] (the sizes and [wf_kind] alone), of [wf_pval] = [wf_lax] ([wf_val] without
   the BitVec normal form), and of the class [Known_C17 t v] = [Known_ty t] or [excess t v]. The bridge is
   [fragment_of_props]: [wf_pty], [wf_pval] and not [Known_C17] give [top_ok], [good] and [wf_val]; [known_not_good]
   is the converse on types. ([wf_ty] of Rw.v takes no part in any of this.)

   [Known_ty]: a type that contains, anywhere, one of the constructs on which the faithful model refutes the round trip *)
Inductive Known_ty : pty -> Prop :=
| K_choice_null alts : In TNull alts -> Known_ty (TChoice alts)                 (* CHOICE with a NULL alternative *)
| K_choice_list alts e : In (TSeqOf e) alts -> Known_ty (TChoice alts)          (* CHOICE with a SEQUENCE OF alternative *)
| K_nested_list e : Known_ty (TSeqOf (TSeqOf e))                                (* SEQUENCE OF SEQUENCE OF *)
| K_list_null : Known_ty (TSeqOf TNull)                                         (* SEQUENCE OF NULL (elements leave no trace) *)
| K_in_seq fs o t : In (o, t) fs -> Known_ty t -> Known_ty (TSeq fs)
| K_in_list t : Known_ty t -> Known_ty (TSeqOf t)
| K_in_choice alts a : In a alts -> Known_ty a -> Known_ty (TChoice alts).

(* sizes a generated type always has: non-empty ENUMERATED / CHOICE, at most 2^32 variants, field numbers below 2^29 *)
Fixpoint sized (t : pty) : bool :=
  match t with
  | TInt k => wf_kind k
  | TEnum n => (0 <? n) && (n <=? two32)
  | TSeq fs => (nl fs <? max_fields) && forallb (fun p => sized (snd p)) fs
  | TSeqOf t' => sized t'
  | TChoice alts => negb (is_nil alts) && (nl alts <? max_fields) && forallb sized alts
  | _ => true
  end.

Lemma good_of_sized : forall t, sized t = true -> ~ Known_ty t -> good t = true.
Proof.
  induction t as [| k | | | | | n | fs IH | t' IH | alts IH] using pty_nested_ind; intros Hs Hk; try reflexivity.
  - exact Hs.
  - exact Hs.
  - cbn [sized good] in *. apply andb_true_iff in Hs. destruct Hs as [H1 H2]. rewrite H1. cbn [andb].
    apply forallb_forall. intros [o t] Hin. rewrite forallb_forall in H2. rewrite Forall_forall in IH.
    apply (IH (o, t) Hin (H2 (o, t) Hin)). intros K. apply Hk. apply (K_in_seq fs o t Hin K).
  - cbn [sized good] in *. apply andb_true_iff. split.
    + destruct t'; try reflexivity; exfalso; apply Hk; constructor.
    + apply IH; [exact Hs|]. intros K. apply Hk, K_in_list, K.
  - cbn [sized good] in *. apply andb_true_iff in Hs. destruct Hs as [H1 H2]. rewrite H1. cbn [andb].
    apply forallb_forall. intros a Hin. rewrite forallb_forall in H2. rewrite Forall_forall in IH.
    apply andb_true_iff. split.
    + destruct a; try reflexivity; exfalso; apply Hk.
      * apply K_choice_null, Hin.
      * eapply K_choice_list, Hin.
    + apply (IH a Hin (H2 a Hin)). intros K. apply Hk. apply (K_in_choice alts a Hin K).
Qed.

(** values: [wf_lax] is [wf_val] without the BitVec normal form (a BitVec may hold more bytes than its bit
    length needs), [excess] says that some BitVec inside the value does *)
Fixpoint wf_lax (t : pty) (v : pval) {struct t} : bool :=
  match t, v with
  | TBool, VBool _ => true
  | TInt k, VInt z => in_kind k z
  | TStr, VStr s => byte_list s && utf8_valid s
  | TBytes, VBytes l => byte_list l
  | TBits, VBits bytes n => byte_list bytes && ((n + 7) / 8 <=? N.of_nat (length bytes)) && (n <? two32)
  | TNull, VNull => true
  | TEnum n, VEnum i => i <? n
  | TSeq fs, VSeq vs =>
      (fix fields (fs : list (bool * pty)) (vs : list pval) {struct fs} : bool :=
         match fs, vs with
         | [], [] => true
         | (false, t) :: fs', v :: vs' => wf_lax t v && fields fs' vs'
         | (true, t) :: fs', VOpt (Some v) :: vs' => wf_lax t v && fields fs' vs'
         | (true, _) :: fs', VOpt None :: vs' => fields fs' vs'
         | _, _ => false
         end) fs vs
  | TSeqOf t', VList vs => forallb (wf_lax t') vs
  | TChoice alts, VChoice i v =>
      (fix pick (alts : list pty) (k : N) {struct alts} : bool :=
         match alts with
         | a :: r => if k =? 0 then wf_lax a v else pick r (k - 1)
         | [] => false
         end) alts i
  | _, _ => false
  end.

Fixpoint excess (t : pty) (v : pval) {struct t} : bool :=
  match t, v with
  | TBits, VBits bytes n => negb (N.of_nat (length bytes) =? (n + 7) / 8)
  | TSeq fs, VSeq vs =>
      (fix fields (fs : list (bool * pty)) (vs : list pval) {struct fs} : bool :=
         match fs, vs with
         | (false, t) :: fs', v :: vs' => excess t v || fields fs' vs'
         | (true, t) :: fs', VOpt (Some v) :: vs' => excess t v || fields fs' vs'
         | (true, _) :: fs', VOpt None :: vs' => fields fs' vs'
         | _, _ => false
         end) fs vs
  | TSeqOf t', VList vs => existsb (excess t') vs
  | TChoice alts, VChoice i v =>
      (fix pick (alts : list pty) (k : N) {struct alts} : bool :=
         match alts with
         | a :: r => if k =? 0 then excess a v else pick r (k - 1)
         | [] => false
         end) alts i
  | _, _ => false
  end.

Lemma wf_of_lax : forall t v, wf_lax t v = true -> excess t v = false -> wf_val t v = true.
Proof.
  induction t as [| k | | | | | n | fs IH | t' IH | alts IH] using pty_nested_ind; intros v Hl He;
    destruct v as [b|z|s|l|bytes bl| |i|vs|ov|vs|i x]; try discriminate Hl; try exact Hl.
  - cbn [wf_lax excess wf_val] in *. apply andb_true_iff in Hl. destruct Hl as [Hl H3]. apply andb_true_iff in Hl.
    destruct Hl as [H1 H2]. rewrite H1, H3. apply negb_false_iff in He. rewrite He. reflexivity.
  - (* on a non-empty field list each of wf_lax, excess, wf_val computes to its value on the head combined with
       its value on TSeq / VSeq of the tails, which is how PRESENT and IHfs are applied *)
    revert vs Hl He. induction IH as [|[o t] fs Ht _ IHfs]; intros vs Hl He.
    + destruct vs; [reflexivity|discriminate].
    + cbn [snd] in Ht. destruct vs as [|v vs']; [destruct o; discriminate|].
      assert (PRESENT : forall x, wf_lax t x && wf_lax (TSeq fs) (VSeq vs') = true ->
                excess t x || excess (TSeq fs) (VSeq vs') = false -> wf_val t x && wf_val (TSeq fs) (VSeq vs') = true).
      { intros x Hlx Hex. apply andb_true_iff in Hlx. destruct Hlx as [H1 H2]. apply orb_false_iff in Hex. destruct Hex as [E1 E2].
        rewrite (Ht x H1 E1). apply (IHfs vs' H2 E2). }
      destruct o; [|exact (PRESENT v Hl He)].
      destruct v as [| | | | | | | |[x|]| |]; try discriminate; [exact (PRESENT x Hl He)|exact (IHfs vs' Hl He)].
  - cbn [wf_lax excess wf_val] in *. induction vs as [|x vs IHvs]; [reflexivity|].
    cbn [forallb existsb] in *. apply andb_true_iff in Hl. destruct Hl as [H1 H2]. apply orb_false_iff in He.
    destruct He as [E1 E2]. rewrite (IH x H1 E1), (IHvs H2 E2). reflexivity.
  - cbn [wf_lax] in Hl. cbn [excess] in He. rewrite pick_nth_alt in Hl, He. rewrite wf_choice_eq.
    destruct (nth_alt alts i) as [a|] eqn:Ea; [|discriminate].
    rewrite Forall_forall in IH. apply (IH a (proj1 (nth_alt_in alts i a Ea)) x Hl He).
Qed.

Definition wf_pty (t : pty) : Prop := top_ok t = true /\ sized t = true.
Definition wf_pval (t : pty) (v : pval) : Prop := wf_lax t v = true.
(* the finding classes of C17: a type construct of [Known_ty], or a BitVec with excess bytes inside the value *)
Definition Known_C17 (t : pty) (v : pval) : Prop := Known_ty t \/ excess t v = true.

Lemma fragment_of_props t v : wf_pty t -> wf_pval t v -> ~ Known_C17 t v ->
  top_ok t = true /\ good t = true /\ wf_val t v = true.
Proof.
  intros [Ht Hs] Hl Hk. split; [exact Ht|]. split.
  - apply good_of_sized; [exact Hs|]. intros K. apply Hk. left. exact K.
  - apply wf_of_lax; [exact Hl|]. destruct (excess t v) eqn:E; [exfalso; apply Hk; right; exact E|reflexivity].
Qed.

(* conversely, the fragment excludes exactly the finding classes: a type of [Known_ty] is never [good] *)
Lemma known_not_good t : Known_ty t -> good t = false.
Proof.
  induction 1 as [alts Hin|alts e Hin|e| |fs o t Hin _ IH|t _ IH|alts a Hin _ IH]; cbn [good].
  - rewrite (forallb_false_in _ alts TNull Hin) by reflexivity. apply andb_false_r.
  - rewrite (forallb_false_in _ alts (TSeqOf e) Hin) by reflexivity. apply andb_false_r.
  - reflexivity.
  - reflexivity.
  - rewrite (forallb_false_in _ fs (o, t) Hin) by exact IH. apply andb_false_r.
  - rewrite IH. apply andb_false_r.
  - rewrite (forallb_false_in _ alts a Hin) by (rewrite IH; apply andb_false_r). apply andb_false_r.
Qed.

(* how a concrete type and value are shown to lie outside the finding classes: two evaluations *)
Lemma not_known_of_good t v : good t = true -> excess t v = false -> ~ Known_C17 t v.
Proof. intros Hg He [K|E]; [apply known_not_good in K|]; congruence. Qed.
