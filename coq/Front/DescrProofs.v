(* Front/DescrProofs.v -- what the descriptor constants of Front/Descr.v say about the definition (Props/C08.v): the
   constants consts_of emits are those of the member constraint types followed by own_consts_spec, in which
   STD_OPTIONAL_FIELDS is the number of OPTIONAL / DEFAULT fields of the root (count_opt (root_fields ..)), before and
   after the canonical sort.  Front/Descr.v and Front/Tags.v (property C16) each model assign_implicit_tags, the sort and
   that count, independently; the only bridge is isort_sort_by below (Descr.isort is Tags.sort_by on dcmp), through which
   the permutation and two-block lemmas of Front/TagsProofs.v are used here. *)
From A1 Require Import Front.Attr Front.Descr.
From A1 Require Front.TagsProofs.
From Coq Require Import Sorting.Permutation.
Local Open Scope N_scope.

Definition optb (f : rfield) : bool := is_optional (rf_ty f).
Definition cnt (bs : list bool) : N := N.of_nat (length (filter (fun b => b) bs)).
(* number of OPTIONAL / DEFAULT fields *)
Definition count_opt (fs : list rfield) : N := cnt (map optb fs).
(* the fields up to and including the one the extension marker follows (all of them without a marker) *)
Definition root_fields (ext : option N) (fs : list rfield) : list rfield :=
  match ext with Some e => firstn (S (N.to_nat e)) fs | None => fs end.

Lemma cnt_cons b bs : cnt (b :: bs) = (if b then 1 else 0) + cnt bs.
Proof. unfold cnt. cbn [filter]. destruct b; cbn [length]; lia. Qed.

Lemma cnt_app a b : cnt (a ++ b) = cnt a + cnt b.
Proof. unfold cnt. rewrite filter_app, app_length. lia. Qed.

Lemma opt_count_from_spec : forall fs i limit,
  opt_count_from i limit fs = count_opt (firstn (N.to_nat (limit + 1 - i)) fs).
Proof.
  unfold count_opt. induction fs as [|f r IH]; intros i limit; cbn [opt_count_from].
  - rewrite firstn_nil. reflexivity.
  - destruct (i <=? limit) eqn:E.
    + replace (N.to_nat (limit + 1 - i)) with (S (N.to_nat (limit + 1 - (i + 1)))) by lia.
      cbn [firstn map]. rewrite cnt_cons, IH. reflexivity.
    + replace (N.to_nat (limit + 1 - i)) with O by lia. reflexivity.
Qed.

Lemma opt_count_marker e fs : opt_count_from 0 e fs = count_opt (root_fields (Some e) fs).
Proof. rewrite opt_count_from_spec. replace (N.to_nat (e + 1 - 0)) with (S (N.to_nat e)) by lia. reflexivity. Qed.

(* without a marker the limit is usize::MAX, which no Vec reaches *)
Lemma opt_count_root ext fs :
  N.of_nat (length fs) <= USIZE_MAX ->
  opt_count_from 0 (ext_limit ext) fs = count_opt (root_fields ext fs).
Proof.
  intros Hlen. destruct ext as [e|]; [apply opt_count_marker|].
  rewrite opt_count_from_spec. unfold root_fields, ext_limit. rewrite firstn_all2; [reflexivity|]. unfold USIZE_MAX in *. lia.
Qed.

Definition flag (x : key * rfield) : bool := fst (fst x).

(* the insertion sort is the stable sort of Front/Tags.v on this comparison (which never answers Eq) *)
Definition dcmp (x y : key * rfield) : comparison := if key_lt (fst y) (fst x) then Gt else Lt.

Lemma insert_sort_by x l : insert x l = Tags.insert dcmp x l.
Proof.
  induction l as [|y l IH]; [reflexivity|]. cbn [insert Tags.insert]. unfold dcmp at 1.
  destruct (key_lt (fst y) (fst x)); [rewrite IH|]; reflexivity.
Qed.

Lemma isort_sort_by l : isort l = Tags.sort_by dcmp l.
Proof. induction l as [|x l IH]; [reflexivity|]. cbn [isort Tags.sort_by]. rewrite insert_sort_by, IH. reflexivity. Qed.

Lemma isort_perm l : Permutation (isort l) l.
Proof. rewrite isort_sort_by. apply TagsProofs.sort_by_perm. Qed.

Lemma length_isort l : length (isort l) = length l.
Proof. apply Permutation_length, isort_perm. Qed.

Lemma cnt_perm a b : Permutation a b -> cnt a = cnt b.
Proof. induction 1; rewrite ?cnt_cons; lia. Qed.

Lemma count_opt_perm a b : Permutation a b -> count_opt a = count_opt b.
Proof. intros H. apply cnt_perm, Permutation_map, H. Qed.

(* an element of the root is never moved behind an extension addition *)
Lemma isort_app_flags a b :
  Forall (fun y => flag y = false) a -> Forall (fun y => flag y = true) b -> isort (a ++ b) = isort a ++ isort b.
Proof.
  rewrite !isort_sort_by. apply (TagsProofs.sort_by_two_blocks dcmp flag).
  intros x y Hx Hy. unfold dcmp, key_lt. unfold flag in *. rewrite Hx, Hy. reflexivity.
Qed.

Lemma key_fields_optb ext : forall fs i l, key_fields ext i fs = Ok l -> map optb (map snd l) = map optb fs.
Proof.
  induction fs as [|f r IH]; intros i l H; cbn [key_fields] in H; [injection H as <-; reflexivity|].
  destruct (match rf_tag f with Some g => Some g | None => type_tag (rf_ty f) end) as [g|]; [|discriminate].
  apply bind_ok in H. destruct H as (l' & E & [= <-]). cbn [map]. rewrite (IH _ _ E). reflexivity.
Qed.

(* the fields up to the one the marker follows are flagged false, all later ones true *)
Lemma key_fields_flags e : forall fs i l, key_fields (Some e) i fs = Ok l ->
  Forall (fun y => flag y = false) (firstn (N.to_nat (e + 1 - i)) l) /\
  Forall (fun y => flag y = true) (skipn (N.to_nat (e + 1 - i)) l).
Proof.
  induction fs as [|f r IH]; intros i l H; cbn [key_fields] in H.
  - injection H as <-. rewrite firstn_nil, skipn_nil. split; constructor.
  - destruct (match rf_tag f with Some g => Some g | None => type_tag (rf_ty f) end) as [g|]; [|discriminate].
    apply bind_ok in H. destruct H as (l' & E & [= <-]). destruct (IH _ _ E) as [H1 H2]. cbn [extended].
    destruct (N.ltb_spec e i) as [Hi|Hi].
    + (* an extension addition: so are all that follow *)
      replace (N.to_nat (e + 1 - i)) with O by lia. replace (N.to_nat (e + 1 - (i + 1))) with O in H2 by lia.
      split; constructor; [reflexivity | exact H2].
    + replace (N.to_nat (e + 1 - i)) with (S (N.to_nat (e + 1 - (i + 1)))) by lia.
      split; [constructor; [reflexivity | exact H1] | exact H2].
Qed.

Lemma firstn_app_same_length {A} k (a b : list A) : length (firstn k (a ++ b)) = length a -> firstn k (a ++ b) = a.
Proof.
  rewrite firstn_length, app_length. intros H. rewrite firstn_app, (firstn_all2 a) by lia.
  destruct b; [rewrite firstn_nil | replace (k - length a)%nat with O by (cbn [length] in H; lia)]; apply app_nil_r.
Qed.

Lemma optb_length a b : map optb a = map optb b -> length a = length b.
Proof. intros H. rewrite <- (map_length optb a), H. apply map_length. Qed.

Lemma count_root_shape ext a b : map optb a = map optb b -> count_opt (root_fields ext a) = count_opt (root_fields ext b).
Proof.
  intros H. unfold count_opt, root_fields. destruct ext as [e|]; [|rewrite H; reflexivity].
  rewrite <- !firstn_map, H. reflexivity.
Qed.

(* the canonical sort keeps the length and, with or without marker, the number of OPTIONAL / DEFAULT fields of the root *)
Lemma sort_keeps_root fs ext sorted :
  sort_fields fs ext = Ok sorted ->
  length sorted = length fs /\ count_opt (root_fields ext sorted) = count_opt (root_fields ext fs).
Proof.
  unfold sort_fields. intros H. apply bind_ok in H. destruct H as (l & E & [= <-]).
  pose proof (key_fields_optb ext fs 0 l E) as Hmap.
  split; [rewrite map_length, length_isort, <- (map_length snd); exact (optb_length _ _ Hmap)|].
  rewrite <- (count_root_shape ext _ _ Hmap).
  destruct ext as [e|]; cbn [root_fields]; [|apply count_opt_perm, Permutation_map, isort_perm].
  destruct (key_fields_flags e fs 0 l E) as [H1 H2].
  replace (N.to_nat (e + 1 - 0)) with (S (N.to_nat e)) in H1, H2 by lia. set (k := S (N.to_nat e)) in *.
  (* the first k sorted elements are the first k keyed ones, sorted among themselves *)
  rewrite <- (firstn_skipn k l) at 1. rewrite (isort_app_flags _ _ H1 H2), map_app.
  rewrite firstn_app_same_length
    by (rewrite firstn_length, app_length, !map_length, !length_isort, firstn_length, skipn_length; lia).
  rewrite firstn_map. apply count_opt_perm, Permutation_map, isort_perm.
Qed.

(* assign_implicit_tags changes tags only *)
Lemma context_tags_shape : forall fs i, map optb (context_tags i fs) = map optb fs.
Proof. induction fs as [|f r IH]; intros i; [reflexivity|]. cbn [context_tags map]. rewrite IH. reflexivity. Qed.

Lemma implicit_tags_shape fs : map optb (assign_implicit_tags fs) = map optb fs.
Proof. unfold assign_implicit_tags. destruct (existsb has_tag fs); [reflexivity | apply context_tags_shape]. Qed.

Definition seq_trait (sorted : bool) : ctrait := if sorted then TrSet else TrSequence.

(* number of root items / alternatives: all of them without a marker, those up to the marker otherwise *)
Definition root_count (len : N) (ext : option N) : N := match ext with Some e => e + 1 | None => len end.
Definition ext_in_range (ext : option N) : Prop := match ext with Some e => e < USIZE_MAX | None => True end.
Definition has_marker (ext : option N) : bool := match ext with Some _ => true | None => false end.

Lemma std_variant_count_spec m len ext n : ext_in_range ext -> std_variant_count m len ext = Ok n -> n = root_count len ext.
Proof.
  unfold std_variant_count, root_count, ext_in_range. destruct ext as [e|]; intros He H.
  - apply N.ltb_lt in He. rewrite He in H. inversion H. reflexivity.
  - inversion H. reflexivity.
Qed.

(* SEQUENCE / SET: EXTENDED_AFTER_FIELD is the marker position, FIELD_COUNT the number of components, STD_OPTIONAL_FIELDS
   the number of OPTIONAL / DEFAULT components of the root -- for a SET after the canonical sort as well; a tuple struct
   is a SEQUENCE of the one field `0` without marker *)
Definition own_consts_spec (name : list N) (d : rust_def) : list dconst :=
  match d with
  | DStruct sorted fs _ ext =>
    [mk_dconst name (seq_trait sorted) CExtendedAfterField (VON ext);
     mk_dconst name (seq_trait sorted) CFieldCount (VN (N.of_nat (length fs)));
     mk_dconst name (seq_trait sorted) CStdOptionalFields (VN (count_opt (root_fields ext fs)))]
  | DTuple t _ _ =>
    [mk_dconst name TrSequence CExtendedAfterField (VON None);
     mk_dconst name TrSequence CFieldCount (VN 1);
     mk_dconst name TrSequence CStdOptionalFields (VN (if is_optional t then 1 else 0))]
  | DEnum vs _ ext =>
    [mk_dconst name TrEnumerated CVariantCount (VN (N.of_nat (length vs)));
     mk_dconst name TrEnumerated CStdVariantCount (VN (root_count (N.of_nat (length vs)) ext));
     mk_dconst name TrEnumerated CExtensible (VB (has_marker ext))]
  | DDataEnum vs _ ext =>
    [mk_dconst name TrChoice CVariantCount (VN (N.of_nat (length vs)));
     mk_dconst name TrChoice CStdVariantCount (VN (root_count (N.of_nat (length vs)) ext));
     mk_dconst name TrChoice CExtensible (VB (has_marker ext))]
  end.
(* a Vec is never longer than usize::MAX and an extension index is an index into it *)
Definition def_in_range (d : rust_def) : Prop :=
  match d with
  | DStruct _ fs _ _ => N.of_nat (length fs) <= USIZE_MAX
  | DEnum _ _ ext | DDataEnum _ _ ext => ext_in_range ext
  | DTuple _ _ _ => True
  end.
(* the constants of the constraint types of the members (fields, alternatives, the tuple field) *)
Definition member_consts (name : list N) (d : rust_def) : res (list dconst) :=
  match d with
  | DStruct _ fs _ _ => fields_consts name (assign_implicit_tags fs)
  | DDataEnum vs _ _ => fields_consts name (assign_implicit_tags vs)
  | DTuple t tg _ => field_consts name S_0 tg t
  | DEnum _ _ _ => Ok []
  end.

Lemma consts_spec m name d cs :
  def_in_range d -> consts_of m name d = Ok cs ->
  exists fc, member_consts name d = Ok fc /\ cs = fc ++ own_consts_spec name d.
Proof.
  destruct d as [sorted fs tg ext|vs tg ext|vs tg ext|t tg tcs]; cbn [def_in_range member_consts own_consts_spec];
    intros Hr H; unfold consts_of in H.
  - pose proof (implicit_tags_shape fs) as Hm. set (fs' := assign_implicit_tags fs) in *.
    apply bind_ok in H. destruct H as (fc & Efc & H). apply bind_ok in H. destruct H as (ordered & Eo & [= <-]).
    exists fc. split; [exact Efc|]. f_equal.
    (* sorted or not, the emitted order has the length and the optional root fields of the declared one *)
    assert (Hk : length ordered = length fs' /\ count_opt (root_fields ext ordered) = count_opt (root_fields ext fs')).
    { destruct sorted; [exact (sort_keeps_root _ _ _ Eo) | injection Eo as <-; split; reflexivity]. }
    destruct Hk as [Hlo Hc]. unfold seq_own_consts, seq_trait.
    rewrite (opt_count_root ext ordered) by (rewrite Hlo, (optb_length _ _ Hm); exact Hr).
    rewrite Hc, Hlo, (optb_length _ _ Hm), (count_root_shape ext fs' fs Hm). reflexivity.
  - apply bind_ok in H. destruct H as (n & E & [= <-]).
    exists []. split; [reflexivity|]. rewrite (std_variant_count_spec m _ ext n Hr E). reflexivity.
  - apply bind_ok in H. destruct H as (fc & Efc & H). destruct tg as [g|]; [|discriminate].
    apply bind_ok in H. destruct H as (n & E & [= <-]).
    exists fc. split; [exact Efc|]. rewrite (std_variant_count_spec m _ ext n Hr E). reflexivity.
  - cbn [fields_consts rf_name rf_tag rf_ty] in H.
    apply bind_ok in H. destruct H as (fc' & H & [= <-]). apply bind_ok in H. destruct H as (fc & Efc & [= <-]).
    exists fc. split; [exact Efc|]. rewrite app_nil_r. f_equal.
    unfold seq_own_consts. cbn [length opt_count_from ext_limit rf_ty]. destruct (is_optional t); reflexivity.
Qed.

Lemma in_opt_list_map {A B} (f : A -> B) o y : In y (opt_list (option_map f o)) <-> exists z, o = Some z /\ y = f z.
Proof.
  destruct o as [z|]; cbn [option_map opt_list In]; split.
  - intros [<-|[]]. eauto.
  - intros (z' & [= <-] & ->). auto.
  - intros [].
  - intros (z' & [=] & _).
Qed.

(* MIN / MAX / EXTENSIBLE of a constraint type: a bound constant exists exactly when the constraint has that bound *)
Lemma bound_consts_spec owner tr mn mx e c v :
  In (mk_dconst owner tr c v) (bound_consts owner tr mn mx e) <->
  (c = CMin /\ exists z, mn = Some z /\ v = VZ z) \/ (c = CMax /\ exists z, mx = Some z /\ v = VZ z) \/ (c = CExtensible /\ v = VB e).
Proof.
  unfold bound_consts. rewrite !in_app_iff, !in_opt_list_map. cbn [In]. split.
  - intros [(z & -> & [= -> ->]) | [(z & -> & [= -> ->]) | [[= <- <-] | []]]]; eauto 7.
  - intros [(-> & z & -> & ->) | [(-> & z & -> & ->) | (-> & ->)]]; eauto 7.
Qed.

(* which constraint type carries the bounds of an INTEGER / a SIZE: the field's own, below OPTIONAL the same one *)
Lemma field_consts_integer base fname tg k mn mx e :
  field_consts base fname tg (RInt k mn mx e) = Ok (bound_consts (constraint_type_name base fname) TrNumbers mn mx e).
Proof. reflexivity. Qed.
Lemma field_consts_option base fname tg t : field_consts base fname tg (ROption t) = field_consts base fname tg t.
Proof. reflexivity. Qed.
Lemma field_consts_string base fname tg sz cs :
  field_consts base fname tg (RString sz cs) =
  Ok (bound_consts (constraint_type_name base fname) (TrString cs) (option_map Z.of_N (size_min sz)) (option_map Z.of_N (size_max sz)) (size_ext sz)).
Proof. reflexivity. Qed.
