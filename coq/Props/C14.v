(* C14 -- the front end is total: malformed text gives an error, not a panic or hang.
   Models in Front/Lex.v, Front/Parse.v, Front/Resolve.v, Extract/OpsParse.v (to_rust's TagResolver).  Each theorem is a
   lemma of the proof files named below, or is derived here from such lemmas or from the model itself; the examples
   are computed.

   Proved (Front/LexProofs.v for the tokenizer, Front/ParseProofs.v, Front/ParseTotalProofs.v for the parser):
     * C14_lex_total_partial: the tokenizer never returns an error value and panics only with the explicit panic!
       of the unclosed comment block, or (overflow checks on) with the i32 overflow of the comment nesting counter
       after 2^31 - 1 unclosed "/*" (the characterisation "the text ends inside a block comment" of DESIGN.md is
       decided by the check's oracle from the text, not proved);
     * C14_parse_total: the WHOLE parser model (Model::try_from: module header, object identifiers, IMPORTS, the
       module loop, definitions, value references, the mutually recursive type grammar -- components / CHOICE /
       SEQUENCE OF / SET OF / nesting --, tags, SIZE, INTEGER ranges, named numbers / named bits, ENUMERATED,
       literals, WITH COMPONENTS skipping) returns a model or an error value on EVERY token list, never a panic
       and never fuel exhaustion, as soon as the fuel of the type grammar is at least 2 * length tokens + 4
       (parse_fuel = 4 * length + 16 of the executable model is enough: C14_parse_total_default_fuel).
       Fuel sufficiency is the termination argument of the Rust parser: every loop iteration and every call chain
       back into read_role_given_text consumes at least one token (one invariant, `stp`, proved for each function:
       a value leaves a strictly / weakly shorter suffix of the input): there is no loop without progress.
       The bound length tokens + 1 is NOT sufficient (C14_fuel_length_plus_1_insufficient: the chain
       role -> components -> loop -> field -> role spends four units of fuel on three tokens).
     * C14_literal_panics_unreachable: the two slice-range panics of LiteralValue::try_from_asn_str exist for a
       direct call (on the strings consisting of a lone quotation mark, or an apostrophe followed by h/H/b/B) but
       read_literal never passes such a string: what it collects starts and ends with the delimiter (length >= 2,
       resp. >= 3 with the H/B suffix), or is true/false/an integer spelling.
     * C14_error_carries_token: an error value of the parser without a token is UnexpectedEndOfStream (or
       MissingModuleName, when the first token is not a text); an error value with a token carries a token of the
       input -- with ONE exception (finding): InvalidLiteral carries a text token that read_literal synthesises
       from the location of the literal's first token and the text it collected (for 'xy'H that token is not in
       the input; its line and column are those of an input token).
     * C14_parse_total_partial: the productions that do not recurse into the type grammar (tags, SIZE, object
       identifiers, IMPORTS, ENUMERATED) are `safe` on every token list, each by itself and without a fuel hypothesis.
     * C14_resolve_total (Front/ResolveTotalProofs.v): for EVERY list of parsed modules, resolve_all is a list of
       models or an error value; the result type has no panic outcome (the resolver's only partial operation,
       usize::try_from, is an error value), and the divergence outcome (the Rust lookup recursing until the stack
       overflows) occurs only in the class Known_C14_cyclic_import Ms: some loaded module M has a use site -- a value
       reference at an INTEGER range bound, at a SIZE bound, or as a DEFAULT (when the ENUMERATED special case does not
       fire), or the referenced type of a component with a DEFAULT reference -- whose lookup walks
       "A does not define n and its first import listing n is matched by module B of the scope" into a cycle.
       The fuel of the model, S (length scope), is EXACT (C14_import_lookup_fuel_exact): the lookup answers Diverges
       iff the walk is cyclic (pigeonhole on the positions of the scope: `length scope` units already suffice), and a
       cyclic walk diverges for every fuel.  A module set in the class never resolves (C14_cyclic_import_never_resolves:
       it diverges, or an error of an earlier module / use site comes first).
     * C14_tag_resolution_total: the TagResolver recursion of Model::to_rust (resolve_tag / resolve_type_tag of
       Extract/OpsParse.v, fuel S (length defs) * S nodes) never panics (lookup has no such outcome) and diverges only in
       the class Known_C14_untagged_choice_cycle defs: a cycle in the graph "UNTAGGED definition n mentions n' in tag
       position" (n' an untagged type reference, through OPTIONAL / DEFAULT and through the untagged root alternatives
       of a CHOICE).  Decidable: cyclic_b defs = true <-> the class (C14_cyclic_b_iff); cyclic_b defs = false ->
       to_rust_diverges = false with the fuel of the model, and resolve_tag returns for every fuel >=
       length defs + S (total type nodes) (C14_tag_fuel_bound).  The class is slightly WIDER than actual divergence:
       the scan of CHOICE alternatives stops at the first alternative without a tag (e.g. a reference to an
       undefined type), so a cycle through a later alternative is never entered
       (C14_class_wider_than_divergence_on_short_circuit).  The class can be read off the parsed module
       (untagged_cycle_of_parsed: resolving keeps tags, names and tag positions).
     * C14_front_end_total: tokenizer; parser; resolver; tag resolution, for every input string: a model, a parse
       error, a resolve error, one of the two tokenizer panics, or divergence in one of the two classes (stated on
       the parse result); C14_op_3303_crash ties the CRASH answer of the compared op to exactly these two outcomes.
   NOT proved here: the rest of to_rust / to_protobuf beyond tag resolution (tie only).
   Refuted: conversion to the Rust model does not return on a cycle of untagged type references / CHOICE
   alternatives (a legal recursive CHOICE suffices), the resolver does not return on cyclic IMPORTS of an
   undefined name: both are stack overflows that abort the process (`3 32`), not error values. *)
From Coq Require Import String.
From A1 Require Import Front.Lex Front.Parse Front.Print Front.ParseProofs Front.ParseTotalProofs Front.Resolve Extract.OpsParse
  Front.ResolveSubstProofs Front.ResolveTotalProofs.
From A1 Require Front.LexProofs.
Local Open Scope Z_scope.

Theorem C14_lex_total_partial : forall m s,
  (forall p, tokenize m s = Panic p -> p = P_OTHER \/ (p = P_ARITH /\ overflow_checks m = true)) /\
  (forall e, tokenize m s <> Err e).
Proof. exact LexProofs.tokenize_outcomes. Qed.

(* [safe r]: r is a value or an error value -- neither a panic nor fuel exhaustion.
   Totality of the productions without recursion into the type grammar, for EVERY token list: tags, "[tag] word",
   SIZE, object identifiers, IMPORTS, ENUMERATED.  Their loops run on fuel S (length tokens): the proofs show that
   every iteration consumes a token, which is the termination argument of the corresponding Rust loops. *)
Theorem C14_parse_total_partial : forall ts,
  safe (read_tag ts) /\ safe (next_with_opt_tag ts) /\ safe (read_size ts) /\ safe (maybe_read_size ts) /\
  safe (read_oid ts) /\ safe (maybe_read_oid ts) /\ safe (read_imports ts) /\ safe (read_enumerated ts).
Proof.
  intros ts. pose proof (sub_refl ts) as Hs. repeat split; eapply outcome_safe.
  - apply stp_read_tag, Hs.
  - apply stp_next_with_opt_tag, Hs.
  - apply stp_read_size, Hs.
  - apply stp_maybe_read_size, Hs.
  - apply stp_read_oid, Hs.
  - apply stp_maybe_read_oid, Hs.
  - apply stp_read_imports, Hs.
  - apply stp_read_enumerated, Hs.
Qed.

Theorem C14_safe_means : forall (A : Type) (r : pres A),
  safe r <-> (forall p, r <> PPanic p) /\ r <> POutOfFuel.
Proof.
  intros A [a | k t | p |]; cbn [safe]; split; intro H;
    try exact I; try contradiction;
    try (split; [intros q E | intros E]; discriminate).
  - destruct H as [H _]. exact (H p eq_refl).
  - destruct H as [_ H]. exact (H eq_refl).
Qed.

(* The whole parser, any token list: a model or an error value.  The fuel is the budget of the type grammar
   (handed down, one unit per call / loop iteration); the token loops carry their own fuel S (length tokens). *)
Theorem C14_parse_total : forall (toks : list token) (fuel : nat),
  (2 * length toks + 4 <= fuel)%nat ->
  (forall p, parse_module fuel toks <> PPanic p) /\ parse_module fuel toks <> POutOfFuel.
Proof.
  intros toks fuel Hf. apply C14_safe_means. apply parse_module_total. exact Hf.
Qed.

Theorem C14_parse_total_default_fuel : forall toks : list token,
  (forall p, parse toks <> PPanic p) /\ parse toks <> POutOfFuel.
Proof. intros toks. apply C14_safe_means. apply parse_total. Qed.

Theorem C14_error_carries_token : forall (toks : list token) (fuel : nat) (k : N) (o : option token),
  (2 * length toks + 4 <= fuel)%nat ->
  parse_module fuel toks = PErr k o ->
  match o with
  | None => k = E_END_OF_STREAM \/ k = E_MISSING_MODULE_NAME
  | Some t =>
      In t toks \/
      (k = E_INVALID_LITERAL /\
       exists p, In p toks /\ tok_line t = tok_line p /\ tok_column t = tok_column p)
  end.
Proof. intros toks fuel k o Hf H. pose proof (stp_parse_module toks fuel Hf) as Ho. rewrite H in Ho. exact Ho. Qed.

(* tokenizer and parser together, for every input string: a model, an error value, or one of the two tokenizer
   panics (the sanctioned unclosed-comment panic!, or the nesting-counter overflow in a build with overflow checks) *)
Theorem C14_lex_parse_total : forall (m : mode) (s : list N),
  (exists ts, tokenize m s = Ok ts /\ (forall p, parse ts <> PPanic p) /\ parse ts <> POutOfFuel) \/
  (exists p, tokenize m s = Panic p /\ (p = P_OTHER \/ (p = P_ARITH /\ overflow_checks m = true))).
Proof.
  intros m s. destruct (LexProofs.tokenize_outcomes m s) as [HP HE].
  destruct (tokenize m s) as [ts | e | p] eqn:E.
  - left. exists ts. split; [reflexivity | apply C14_parse_total_default_fuel].
  - exfalso. exact (HE e eq_refl).
  - right. exists p. split; [reflexivity | exact (HP p eq_refl)].
Qed.

(* the slice panics of LiteralValue::try_from_asn_str are real for a direct call, and unreachable from the parser *)
Theorem C14_literal_panics_unreachable :
  literal_of_asn_str [34%N] = PPanic P_SLICE_RANGE /\
  literal_of_asn_str [39%N; 72%N] = PPanic P_SLICE_RANGE /\
  literal_of_asn_str [39%N; 98%N] = PPanic P_SLICE_RANGE /\
  (forall s, lit_shape s -> exists o, literal_of_asn_str s = POk o) /\
  (forall ts, safe (read_literal ts)).
Proof.
  destruct literal_of_asn_str_panics as (H1 & H2 & H3). refine (conj H1 (conj H2 (conj H3 (conj literal_total _)))).
  intros ts. eapply outcome_safe. apply (stp_read_literal ts ts). apply sub_refl.
Qed.

(* sixteen unclosed levels  A ::= SEQUENCE { a SEQUENCE { a SEQUENCE { ... : 59 tokens, the recursion is 65 calls
   deep before the end of the stream is seen: with fuel = number of tokens + 1 the model runs out of fuel, with
   2n + 4 it reports UnexpectedEndOfStream like the crate *)
Fixpoint nest (n : nat) : list token :=
  match n with
  | O => []
  | S k => P C_LBRACE :: T (s2n "a") :: T (s2n "SEQUENCE") :: nest k
  end.

Definition nested16 : list token :=
  [T (s2n "M"); T (s2n "DEFINITIONS"); P C_COLON; P C_COLON; P C_EQ; T (s2n "BEGIN");
   T (s2n "A"); P C_COLON; P C_COLON; P C_EQ; T (s2n "SEQUENCE")] ++ nest 16.

Example C14_fuel_length_plus_1_insufficient :
  parse_module (length nested16 + 1) nested16 = POutOfFuel /\
  parse_module (2 * length nested16 + 4) nested16 = PErr E_END_OF_STREAM None.
Proof. split; vm_compute; reflexivity. Qed.

(* the InvalidLiteral token is synthesised: 'xy'H *)
Example C14_invalid_literal_token_is_synthesised :
  let ts := [T (s2n "M"); T (s2n "DEFINITIONS"); P C_COLON; P C_COLON; P C_EQ; T (s2n "BEGIN");
             T (s2n "v"); T (s2n "INTEGER"); P C_COLON; P C_COLON; P C_EQ;
             Separator 1 40 C_APOS; Text 1 41 (s2n "xy"); Separator 1 43 C_APOS; Text 1 44 (s2n "H");
             T (s2n "END")] in
  parse ts = PErr E_INVALID_LITERAL (Some (Text 1 40 (s2n "'xy'H"))) /\
  ~ In (Text 1 40 (s2n "'xy'H")) ts.
Proof.
  split; [vm_compute; reflexivity|].
  cbn [In]. intros H. repeat (destruct H as [H | H]; [discriminate H|]). exact H.
Qed.

(* the stages after the parser (Front/ResolveTotalProofs.v) *)

Theorem C14_resolve_total : forall Ms : list umodel,
  match resolve_all Ms with
  | ROk _ | RErr _ => True
  | RDiverge => Known_C14_cyclic_import Ms
  end.
Proof. exact resolve_all_total. Qed.

Theorem C14_resolve_total_outside_class : forall Ms : list umodel, ~ Known_C14_cyclic_import Ms ->
  (exists rs, resolve_all Ms = ROk rs) \/ (exists e, resolve_all Ms = RErr e).
Proof.
  intros Ms Hn. pose proof (resolve_all_total Ms) as H.
  destruct (resolve_all Ms) as [rs | e |]; [left; eauto | right; eauto | contradiction].
Qed.

Theorem C14_cyclic_import_never_resolves : forall Ms, Known_C14_cyclic_import Ms -> forall rs, resolve_all Ms <> ROk rs.
Proof. exact cyclic_import_never_resolves. Qed.

(* the fuel S (length scope) of the two lookups is exact: out of fuel <-> the import walk is cyclic; and a cyclic
   walk is out of fuel for every fuel *)
Theorem C14_import_lookup_fuel_exact : forall Ms M name,
  (value_reference Ms (lookup_fuel Ms) M name = Diverges <-> import_cycle_v Ms M name) /\
  (definition Ms (lookup_fuel Ms) M name = Diverges <-> import_cycle_d Ms M name) /\
  (import_cycle_v Ms M name -> forall fuel, value_reference Ms fuel M name = Diverges) /\
  (import_cycle_d Ms M name -> forall fuel, definition Ms fuel M name = Diverges).
Proof.
  intros Ms M name. split; [apply value_reference_diverges_iff|]. split; [apply definition_diverges_iff|].
  apply import_cycle_diverges_for_every_fuel.
Qed.

Theorem C14_tag_resolution_total : forall m : amodel rasn,
  (to_rust_diverges m = true -> Known_C14_untagged_choice_cycle N Z literal (m_definitions m)) /\
  (cyclic_b N Z literal (m_definitions m) = false -> to_rust_diverges m = false).
Proof. intros m. split; [apply to_rust_total | apply acyclic_to_rust_terminates]. Qed.

Theorem C14_cyclic_b_iff : forall (SS RR CC : Type) (defs : list (str * asn SS RR CC)),
  cyclic_b SS RR CC defs = true <-> Known_C14_untagged_choice_cycle SS RR CC defs.
Proof. exact cyclic_b_iff. Qed.

Theorem C14_tag_fuel_bound : forall defs : list (str * rasn), cyclic_b N Z literal defs = false ->
  forall f n, (length defs + S (total_nodes defs) <= f)%nat -> resolve_tag defs f n <> Diverges.
Proof. exact tag_nodiv_acyclic. Qed.

Theorem C14_front_end_total : forall (m : mode) (s : list N),
  (forall ts u, tokenize m s = Ok ts -> parse ts = POk u ->
     ~ Known_C14_cyclic_import [u] /\
     ~ Known_C14_untagged_choice_cycle _ _ _ (m_definitions u)) ->
  (exists r, front_end m s = FeModel r) \/ (exists k t, front_end m s = FeParseError k t) \/
  (exists e, front_end m s = FeResolveError e) \/
  (exists p, front_end m s = FeLexPanic p /\ (p = P_OTHER \/ (p = P_ARITH /\ overflow_checks m = true))).
Proof.
  intros m s Hk. pose proof (front_end_total m s) as H.
  destruct (front_end m s) as [r | k t | e | p | e | p | | |]; try contradiction.
  - left. eauto.
  - right. left. eauto.
  - right. right. left. eauto.
  - right. right. right. eauto.
  - destruct H as [ts [u [Ht [Hp Hc]]]]. destruct (Hk ts u Ht Hp) as [Hn _]. contradiction.
  - destruct H as [ts [u [Ht [Hp Hc]]]]. destruct (Hk ts u Ht Hp) as [_ Hn]. contradiction.
Qed.

Theorem C14_front_end_outcomes : forall (m : mode) (s : list N),
  match front_end m s with
  | FeModel _ | FeParseError _ _ | FeResolveError _ => True
  | FeLexPanic p => p = P_OTHER \/ (p = P_ARITH /\ overflow_checks m = true)
  | FeLexError _ | FeParsePanic _ | FeParseOutOfFuel => False
  | FeResolveDiverges =>
      exists ts u, tokenize m s = Ok ts /\ parse ts = POk u /\ Known_C14_cyclic_import [u]
  | FeTagDiverges =>
      exists ts u, tokenize m s = Ok ts /\ parse ts = POk u /\
                   Known_C14_untagged_choice_cycle _ _ _ (m_definitions u)
  end.
Proof. exact front_end_total. Qed.

Theorem C14_op_3303_crash : forall m flags text, forallb is_scalar text = true ->
  (op_3303 m (flags :: text) = [3; 32] <->
   front_end m (map Z.to_N text) = FeResolveDiverges \/ front_end m (map Z.to_N text) = FeTagDiverges).
Proof.
  intros m flags text Hs. unfold op_3303, front_end, CRASH. rewrite Hs. cbn [negb].
  destruct (tokenize m (map Z.to_N text)) as [ts | e | p]; try destruct (parse ts) as [u | k t | p |];
    try destruct (resolve_single u) as [r | e |]; try destruct (to_rust_diverges r).
  (* every outcome: both sides are computed *)
  all: split; [intros H | intros [H | H]]; try discriminate H; auto.
Qed.

(* witnesses for the two classes *)

Definition parsed (s : string) : option umodel :=
  match tokenize dev_mode (s2n s) with
  | Ok ts => match parse ts with POk u => Some u | _ => None end
  | _ => None
  end.

(* smallest cyclic imports: a module importing an undefined name from itself; two modules importing it from each
   other.  The model diverges and the class holds. *)
Example C14_cyclic_import_diverges :
  exists m0 m1 m2,
    parsed "M DEFINITIONS ::= BEGIN IMPORTS x FROM M; A ::= INTEGER (0..x) END" = Some m0 /\
    parsed "M DEFINITIONS ::= BEGIN IMPORTS x FROM N; A ::= INTEGER (0..x) END" = Some m1 /\
    parsed "N DEFINITIONS ::= BEGIN IMPORTS x FROM M; B ::= BOOLEAN END" = Some m2 /\
    resolve_all [m0] = RDiverge /\ Known_C14_cyclic_import [m0] /\
    resolve_all [m1; m2] = RDiverge /\ Known_C14_cyclic_import [m1; m2] /\
    front_end dev_mode (s2n "M DEFINITIONS ::= BEGIN IMPORTS x FROM M; A ::= INTEGER (0..x) END") = FeResolveDiverges.
Proof.
  (* the witnesses (the texts of the statement, parsed) are bound once: the proof term mentions each module once, not
     once per conjunct *)
  lazymatch goal with
  | |- exists m0 m1 m2, parsed ?s0 = Some m0 /\ parsed ?s1 = Some m1 /\ parsed ?s2 = Some m2 /\ @?Q m0 m1 m2 =>
      let v := eval vm_compute in (parsed s0, parsed s1, parsed s2) in
      match v with (Some ?a, Some ?b, Some ?c) => pose (m0 := a); pose (m1 := b); pose (m2 := c) end
  end.
  exists m0, m1, m2.
  split; [vm_compute; reflexivity|]. split; [vm_compute; reflexivity|]. split; [vm_compute; reflexivity|].
  match goal with |- ?A = RDiverge /\ _ => assert (E0 : A = RDiverge) by (vm_compute; reflexivity) end.
  split; [exact E0|]. split; [match type of E0 with resolve_all ?l = _ => pose proof (resolve_all_total l) as H end; rewrite E0 in H; exact H|].
  match goal with |- ?A = RDiverge /\ _ => assert (E1 : A = RDiverge) by (vm_compute; reflexivity) end.
  split; [exact E1|]. split; [match type of E1 with resolve_all ?l = _ => pose proof (resolve_all_total l) as H end; rewrite E1 in H; exact H|].
  vm_compute. reflexivity.
Qed.

(* smallest untagged cycles: a recursive CHOICE through an untagged alternative; two type references *)
Example C14_untagged_choice_cycle_diverges :
  exists u1 u2 r1 r2,
    parsed "M DEFINITIONS ::= BEGIN Expr ::= CHOICE { lit INTEGER, neg Expr } END" = Some u1 /\
    parsed "M DEFINITIONS ::= BEGIN A ::= B B ::= A END" = Some u2 /\
    resolve_single u1 = ROk r1 /\ resolve_single u2 = ROk r2 /\
    cyclic_b _ _ _ (m_definitions u1) = true /\ cyclic_b _ _ _ (m_definitions u2) = true /\
    to_rust_diverges r1 = true /\ to_rust_diverges r2 = true /\
    front_end dev_mode (s2n "M DEFINITIONS ::= BEGIN Expr ::= CHOICE { lit INTEGER, neg Expr } END") = FeTagDiverges /\
    (* a tag on the way ends the recursion *)
    (exists r, front_end dev_mode (s2n "M DEFINITIONS ::= BEGIN A ::= [1] B B ::= A END") = FeModel r).
Proof.
  lazymatch goal with
  | |- exists u1 u2 r1 r2, parsed ?s1 = Some u1 /\ parsed ?s2 = Some u2 /\ @?Q u1 u2 r1 r2 =>
      let v := eval vm_compute in (parsed s1, parsed s2) in
      match v with (Some ?a, Some ?b) => pose (u1 := a); pose (u2 := b) end
  end.
  let v := eval vm_compute in (resolve_single u1, resolve_single u2) in
  match v with (ROk ?a, ROk ?b) => pose (r1 := a); pose (r2 := b) end.
  exists u1, u2, r1, r2.
  split; [vm_compute; reflexivity|]. split; [vm_compute; reflexivity|].
  split; [vm_compute; reflexivity|]. split; [vm_compute; reflexivity|].
  split; [vm_compute; reflexivity|]. split; [vm_compute; reflexivity|].
  split; [vm_compute; reflexivity|]. split; [vm_compute; reflexivity|].
  split; [vm_compute; reflexivity|]. eexists. vm_compute. reflexivity.
Qed.

(* the class is wider than actual divergence: the scan of the alternatives stops at `u Undefined` (no tag), the
   alternative `a A` that closes the cycle is never looked at *)
Example C14_class_wider_than_divergence_on_short_circuit :
  exists u r,
    parsed "M DEFINITIONS ::= BEGIN A ::= CHOICE { u Undefined, a A } END" = Some u /\
    resolve_single u = ROk r /\ cyclic_b _ _ _ (m_definitions u) = true /\ to_rust_diverges r = false.
Proof.
  do 2 eexists. split; [vm_compute; reflexivity|]. split; [vm_compute; reflexivity|].
  split; vm_compute; reflexivity.
Qed.

(* non-vacuity: a two-hop import chain (A imports x from B, B imports x from C, C defines x) resolves, in every
   position of the scope; neither class holds *)
Example C14_nonvacuous_two_hop_import_chain :
  exists a b c rs,
    parsed "A DEFINITIONS ::= BEGIN IMPORTS x FROM B; T ::= INTEGER (0..x) U ::= SEQUENCE { f T DEFAULT x } END" = Some a /\
    parsed "B DEFINITIONS ::= BEGIN IMPORTS x FROM C; V ::= OCTET STRING (SIZE(x)) END" = Some b /\
    parsed "C DEFINITIONS ::= BEGIN x INTEGER ::= 7 END" = Some c /\
    resolve_all [a; b; c] = ROk rs /\
    ~ Known_C14_cyclic_import [a; b; c] /\
    cyclic_b _ _ _ (m_definitions a) = false /\
    value_reference [a; b; c] (lookup_fuel [a; b; c]) a (s2n "x") = Found (LInteger 7).
Proof.
  lazymatch goal with
  | |- exists a b c rs, parsed ?s0 = Some a /\ parsed ?s1 = Some b /\ parsed ?s2 = Some c /\ @?Q a b c rs =>
      let v := eval vm_compute in (parsed s0, parsed s1, parsed s2) in
      match v with (Some ?a0, Some ?b0, Some ?c0) => pose (a := a0); pose (b := b0); pose (c := c0) end
  end.
  let v := eval vm_compute in (resolve_all [a; b; c]) in match v with ROk ?r => pose (rs := r) end.
  exists a, b, c, rs.
  split; [vm_compute; reflexivity|]. split; [vm_compute; reflexivity|]. split; [vm_compute; reflexivity|].
  match goal with |- ?A = ROk ?r /\ _ => assert (E : A = ROk r) by (vm_compute; reflexivity) end.
  split; [exact E|].
  split; [intros Hk; exact (cyclic_import_never_resolves _ Hk _ E)|].
  split; vm_compute; reflexivity.
Qed.

Definition txt (s : string) : list Z := map Z.of_N (s2n s).

(* a legal recursive CHOICE: tokenizer, parser and resolver succeed, Model::to_rust does not return *)
Example C14_refuted_to_rust_unbounded_recursion_on_recursive_untagged_type :
  op_3303 dev_mode (0 :: txt "M DEFINITIONS ::= BEGIN Expr ::= CHOICE { lit INTEGER, neg Expr } END") = [3; 32] /\
  hd 1 (op_3301 dev_mode (txt "M DEFINITIONS ::= BEGIN Expr ::= CHOICE { lit INTEGER, neg Expr } END")) = 0 /\
  op_3303 dev_mode (0 :: txt "M DEFINITIONS ::= BEGIN A ::= B B ::= A END") = [3; 32] /\
  (* a tagged step ends the recursion *)
  op_3303 release_mode (0 :: txt "M DEFINITIONS ::= BEGIN A ::= [1] B B ::= A END") = [0; 0; 1; 0; 2; 0; 3; 0].
Proof. repeat split; vm_compute; reflexivity. Qed.

Example C14_refuted_resolver_unbounded_recursion_on_cyclic_import :
  op_3303 dev_mode (0 :: txt "M DEFINITIONS ::= BEGIN IMPORTS x FROM M; A ::= INTEGER (0..x) END") = [3; 32] /\
  (* the same reference without the import is an ordinary resolve error *)
  op_3303 dev_mode (0 :: txt "M DEFINITIONS ::= BEGIN A ::= INTEGER (0..x) END") = [0; 0; 1; 0; 2; 1; 1; 0; 0; 0; 0].
Proof. split; vm_compute; reflexivity. Qed.

(* non-vacuity / the sanctioned panic and an error with its token: line 1, column 44, one character *)
Example C14_nonvacuous :
  tokenize dev_mode (s2n "M DEFINITIONS ::= BEGIN A ::= BOOLEAN /* open") = Panic P_OTHER /\
  op_3303 dev_mode (0 :: txt "M DEFINITIONS ::= BEGIN A ::= SEQUENCE { x ) END") = [0; 0; 1; 1; 0; 1; 1; 44; 1].
Proof. split; vm_compute; reflexivity. Qed.

Print Assumptions C14_lex_total_partial.
Print Assumptions C14_parse_total_partial.
Print Assumptions C14_safe_means.
Print Assumptions C14_parse_total.
Print Assumptions C14_parse_total_default_fuel.
Print Assumptions C14_error_carries_token.
Print Assumptions C14_lex_parse_total.
Print Assumptions C14_resolve_total.
Print Assumptions C14_resolve_total_outside_class.
Print Assumptions C14_cyclic_import_never_resolves.
Print Assumptions C14_import_lookup_fuel_exact.
Print Assumptions C14_tag_resolution_total.
Print Assumptions C14_cyclic_b_iff.
Print Assumptions C14_tag_fuel_bound.
Print Assumptions C14_front_end_total.
Print Assumptions C14_front_end_outcomes.
Print Assumptions C14_op_3303_crash.
Print Assumptions C14_cyclic_import_diverges.
Print Assumptions C14_untagged_choice_cycle_diverges.
Print Assumptions C14_class_wider_than_divergence_on_short_circuit.
Print Assumptions C14_nonvacuous_two_hop_import_chain.
Print Assumptions C14_literal_panics_unreachable.
Print Assumptions C14_fuel_length_plus_1_insufficient.
Print Assumptions C14_invalid_literal_token_is_synthesised.
Print Assumptions C14_refuted_to_rust_unbounded_recursion_on_recursive_untagged_type.
Print Assumptions C14_refuted_resolver_unbounded_recursion_on_cyclic_import.
